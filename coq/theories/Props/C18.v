(* Props/C18.v — C18 "Cycle point and interval algebra is a consistent total
   order".  Property theorems only; the lemmas are in Proofs/PointAlgProofs.v.
   The model (Model/PointAlg.v) is tied to cylc/flow/cycling/__init__.py,
   integer.py and iso8601.py by the three C18 correspondence streams.

   A point is its string value; [parse_int] is Python's int(), [show_z] is
   str(int).  "x", "y" below are the integer values of the points. *)
From Coq Require Import List ZArith String Bool Permutation Sorted.
From Cylc Require Import Base.Util Model.PointAlg Proofs.PointAlgProofs.
Import ListNotations.
Local Open Scope Z_scope.

(* PointBase.__cmp__ and the six rich comparisons of two integer points are
   exactly the comparisons of their integer values, whatever the spelling
   ('007' vs '7', '+7', '-0'). *)
Theorem c18_int_cmp_is_value_order : forall a b x y,
  parse_int a = Some x -> parse_int b = Some y ->
  pcmp a b = Ok (x ?= y) /\
  p_eq a b = Ok (x =? y) /\ p_lt a b = Ok (x <? y) /\ p_le a b = Ok (x <=? y) /\
  p_gt a b = Ok (y <? x) /\ p_ge a b = Ok (y <=? x).
Proof.
  intros a b x y Ha Hb. split; [exact (pcmp_value a b x y Ha Hb)|exact (p_ops_value a b x y Ha Hb)].
Qed.

(* ... hence a total order: reflexive, equal exactly when the values are
   equal, antisymmetric, transitive, total. *)
Theorem c18_int_total_order : forall a b c x y z,
  parse_int a = Some x -> parse_int b = Some y -> parse_int c = Some z ->
  pcmp a a = Ok Eq /\
  (pcmp a b = Ok Eq <-> x = y) /\
  (pcmp a b = Ok Lt <-> pcmp b a = Ok Gt) /\
  (pcmp a b = Ok Lt -> pcmp b c = Ok Lt -> pcmp a c = Ok Lt) /\
  (pcmp a b = Ok Lt \/ pcmp a b = Ok Eq \/ pcmp a b = Ok Gt).
Proof. exact (value_order_laws pcmp parse_int pcmp_value). Qed.

(* sorted(points) succeeds on parseable points and returns a permutation of
   the input in non-decreasing value order. *)
Theorem c18_int_sorted : forall l,
  all_parse l -> exists l', psort l = Ok l' /\ Permutation l l' /\ Sorted le_val l'.
Proof. exact psort_spec. Qed.

(* The same for intervals; IntegerInterval.from_integer is a right inverse of
   the interval's integer value. *)
Theorem c18_interval_cmp_is_value_order : forall i j x y,
  iparse i = Some x -> iparse j = Some y -> icmp i j = Ok (x ?= y).
Proof.
  intros i j x y Hi Hj. unfold icmp. rewrite Hi, Hj. exact (cmp_by_value iparse i j x y Hi Hj).
Qed.

Theorem c18_interval_from_integer : forall z, iparse (from_integer z) = Some z.
Proof. exact iparse_from_integer. Qed.

(* Equal points hash equal: two standardised points (in particular points
   built from integers, [of_int]) that compare equal have the same value
   string, so any hash computed from the string (PointBase.__hash__ =
   hash(self.value)) agrees. *)
Theorem c18_int_equal_points_hash_equal : forall (hash : string -> Z) a b,
  standardised a -> standardised b -> p_eq a b = Ok true ->
  a = b /\ p_hash_eq a b = true /\ hash a = hash b.
Proof.
  intros hash a b Ha Hb He. pose proof (std_eq_same_string a b Ha Hb He) as ->.
  unfold p_hash_eq. now rewrite String.eqb_refl.
Qed.

Theorem c18_int_from_integer_standardised : forall z,
  standardised (of_int z) /\ parse_int (of_int z) = Some z.
Proof. intros z. split; [apply standardised_show|apply parse_show]. Qed.

(* standardise is idempotent and preserves the value *)
Theorem c18_int_standardise_idempotent : forall s s',
  pstd s = Ok s' -> pstd s' = Ok s' /\ parse_int s' = parse_int s.
Proof.
  intros s s' H. destruct (pstd_inv _ _ H) as [x [Hx ->]].
  unfold pstd. rewrite parse_show, Hx. auto.
Qed.

(* (p + i) - i = p and (p - i) + i = p: always as values, and as strings (so
   also as hashes) when p is standardised. *)
Theorem c18_int_add_sub : forall p x d,
  parse_int p = Some x ->
  bind (padd p d) (fun s => psub s d) = Ok (show_z x) /\
  bind (psub p d) (fun s => padd s d) = Ok (show_z x) /\
  (standardised p -> show_z x = p).
Proof.
  intros p x d Hp. rewrite (padd_value p x d Hp), (psub_value p x d Hp). cbn [bind].
  rewrite (psub_value _ _ d (parse_show _)), (padd_value _ _ d (parse_show _)).
  rewrite Z.add_simpl_r, Z.sub_add.
  repeat split. intros Hs. destruct (pstd_inv p p Hs) as [x' [Hx' E]]. congruence.
Qed.

(* q + (p - q) = p *)
Theorem c18_int_diff_add : forall p q x y,
  parse_int p = Some x -> parse_int q = Some y ->
  bind (psubp p q) (fun i => bind (mk_interval i) (fun d => padd q d)) = Ok (show_z x).
Proof.
  intros p q x y Hp Hq. rewrite (psubp_value p q x y Hp Hq). cbn [bind].
  unfold mk_interval. rewrite iparse_from_integer. cbn [bind].
  rewrite (padd_value q y _ Hq), Z.add_comm, Z.sub_add. reflexivity.
Qed.

(* isodatetime enters as: [inst] (string -> instant, None = does not parse),
   [fmt] (instant -> dump in the workflow's cycle point format and time zone),
   [resol] (resolution of that format in seconds), [isecs] (length of a
   fixed-length interval string).  The only facts assumed are that the
   resolution is positive and that an instant on the format's grid survives
   dump-then-parse; the datetime stream validates both (and the definitions of
   dstd/dadd/dsub from them) against an independent calendar on every case. *)
Definition iso_calendar_ok (inst : string -> option Z) (fmt : Z -> string) (resol : Z) : Prop :=
  0 < resol /\ forall z, z mod resol = 0 -> inst (fmt z) = Some z.

Theorem c18_iso_cmp_is_instant_order : forall inst a b c x y z,
  inst a = Some x -> inst b = Some y -> inst c = Some z ->
  dcmp inst a b = Ok (x ?= y) /\
  dcmp inst a a = Ok Eq /\
  (dcmp inst a b = Ok Eq <-> x = y) /\
  (dcmp inst a b = Ok Lt <-> dcmp inst b a = Ok Gt) /\
  (dcmp inst a b = Ok Lt -> dcmp inst b c = Ok Lt -> dcmp inst a c = Ok Lt) /\
  (dcmp inst a b = Ok Lt \/ dcmp inst a b = Ok Eq \/ dcmp inst a b = Ok Gt).
Proof.
  intros inst a b c x y z Ha Hb Hc. split; [exact (dcmp_value inst a b x y Ha Hb)|].
  exact (value_order_laws (dcmp inst) inst (dcmp_value inst) a b c x y z Ha Hb Hc).
Qed.

Theorem c18_iso_standardise_idempotent : forall inst fmt resol s s',
  iso_calendar_ok inst fmt resol ->
  dstd inst fmt resol s = Ok s' ->
  dstd inst fmt resol s' = Ok s' /\
  (forall z, inst s = Some z -> z mod resol = 0 -> inst s' = Some z).
Proof. intros inst fmt resol s s' [H1 H2]. exact (dstd_idem inst fmt resol H1 H2 s s'). Qed.

Theorem c18_iso_equal_points_hash_equal : forall (hash : string -> Z) inst fmt resol a0 b0 a b,
  iso_calendar_ok inst fmt resol ->
  dstd inst fmt resol a0 = Ok a -> dstd inst fmt resol b0 = Ok b ->
  dcmp inst a b = Ok Eq -> a = b /\ hash a = hash b.
Proof.
  intros hash inst fmt resol a0 b0 a b [H1 H2] Ha Hb He.
  pose proof (dstd_eq_same_string inst fmt resol H1 H2 a0 b0 a b Ha Hb He) as ->. auto.
Qed.

(* for a standardised point p and a fixed-length interval of d seconds on the
   format's grid: p + i denotes the instant of p plus d, and (p + i) - i is
   the string p again. *)
Theorem c18_iso_add_sub : forall inst fmt resol isecs p0 p i d,
  iso_calendar_ok inst fmt resol ->
  dstd inst fmt resol p0 = Ok p -> isecs i = Some d -> d mod resol = 0 ->
  exists q z, inst p = Some z /\
    dadd inst fmt resol isecs p i = Ok q /\ inst q = Some (z + d) /\
    dsub inst fmt resol isecs q i = Ok p.
Proof.
  intros inst fmt resol isecs p0 p i d [H1 H2]. exact (dadd_dsub inst fmt resol isecs H1 H2 p0 p i d).
Qed.

(* The datetime theorems above are per configuration (one iso8601.init: time
   zone, cycle point format, expanded year digits, calendar).  When init is
   called again in the same process the answers must be those of the
   configuration in force, i.e. a function of (configuration, operands) only:
   [pure_rop] is exactly dcmp / dstd / dadd / dsub of that configuration, to
   which c18_iso_* apply.  With the lru_caches of ISO8601Point modelled
   ([run_scenario]), this holds for every history of configurations and
   operations provided the cache key determines what the cached functions
   depend on ... *)
Theorem c18_reinit_consistent : forall isecs (keyf : config -> Z),
  (forall c1 c2 o, keyf c1 = keyf c2 -> pure_rop isecs c1 o = pure_rop isecs c2 o) ->
  forall steps,
  run_scenario isecs keyf [] steps = map (fun '(c, o) => pure_rop isecs c o) steps.
Proof.
  intros isecs keyf Hk steps. apply run_scenario_spec; [exact Hk|]. intros ? ? ? ? ? [].
Qed.

(* ... which is FALSE of the code as it stands (finding): the key of
   _iso_point_cmp / _iso_point_add / _iso_point_sub_interval contains the
   calendar mode only, not the time zone or the cycle point format. *)
Definition c18_reinit_consistent_as_keyed : Prop :=
  forall isecs steps,
  run_scenario isecs cf_cal [] steps = map (fun '(c, o) => pure_rop isecs c o) steps.

(* witness: format CCYYMMDDThhmm; "x" = 20000101T0000 is instant 0 under time
   zone +01 and instant 60 under Z, "y" = 19991231T2330Z is instant 30 *)
Definition cfg_plus01 : config :=
  {| cf_cal := 0; cf_inst := fun s => if String.eqb s "x" then Some 0 else if String.eqb s "y" then Some 30 else None;
     cf_fmt := show_z; cf_resol := 1 |}.
Definition cfg_utc : config :=
  {| cf_cal := 0; cf_inst := fun s => if String.eqb s "x" then Some 60 else if String.eqb s "y" then Some 30 else None;
     cf_fmt := show_z; cf_resol := 1 |}.

Theorem c18_reinit_consistent_as_keyed_refuted : ~ c18_reinit_consistent_as_keyed.
Proof.
  intros H. specialize (H (fun _ => None) [(cfg_plus01, RCmp "x" "y"); (cfg_utc, RCmp "x" "y")]).
  vm_compute in H. discriminate H.
Qed.

Example c18_ex_reinit_stale :
  run_scenario (fun _ => None) cf_cal [] [(cfg_plus01, RCmp "x" "y"); (cfg_utc, RCmp "x" "y")]
    = [ROCmp Lt; ROCmp Lt] /\
  map (fun '(c, o) => pure_rop (fun _ => None) c o) [(cfg_plus01, RCmp "x" "y"); (cfg_utc, RCmp "x" "y")]
    = [ROCmp Lt; ROCmp Gt].
Proof. split; reflexivity. Qed.

Example c18_ex_cmp : pcmp "007" "+7" = Ok Eq /\ pcmp "9" "10" = Ok Lt /\ pcmp "-9" "-10" = Ok Gt
  /\ pcmp "abc" "1" = Err ValueError /\ pcmp "abc" "abc" = Ok Eq.
Proof. vm_compute. repeat split. Qed.
Example c18_ex_std : pstd "+007" = Ok "7"%string /\ standardised "7" /\ standardised "-12".
Proof. vm_compute. repeat split. Qed.
Example c18_ex_arith :
  bind (padd "007" (-3)) (fun s => psub s (-3)) = Ok "7"%string /\ psubp "2" "10" = Ok "-P8"%string.
Proof. vm_compute. repeat split. Qed.
Example c18_ex_sort : psort ["10"; "9"; "09"; "-1"; "+9"; "1"]%string = Ok ["-1"; "1"; "9"; "09"; "+9"; "10"]%string.
Proof. vm_compute. reflexivity. Qed.
(* Observation (outside the property's domain, which is points built from
   integers or standardised): non-standardised spellings of one value are
   equal but are different strings, hence hash differently. *)
Example c18_obs_raw_points_hash : p_eq "01" "1" = Ok true /\ p_hash_eq "01" "1" = false.
Proof. vm_compute. split; reflexivity. Qed.
(* the calendar hypotheses are satisfiable: minutes-as-integers toy calendar *)
Example c18_ex_calendar : iso_calendar_ok parse_int show_z 60.
Proof. split; [reflexivity|]. intros z _. apply parse_show. Qed.
Example c18_ex_iso :
  dstd parse_int show_z 60 "+0125" = Ok "120"%string /\
  dadd parse_int show_z 60 iparse "120" "P60" = Ok "180"%string /\
  dsub parse_int show_z 60 iparse "180" "P60" = Ok "120"%string.
Proof. vm_compute. repeat split. Qed.
