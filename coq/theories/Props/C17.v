(* Props/C17.v — C17 "Datetime recurrences are consistent with brute-force
   enumeration" (and the caches of ISO8601Sequence are transparent).
   Property theorems; the lemmas about the model are in Proofs/IsoSeqProofs.v.  The model
   (Model/IsoSeq.v) is tied to cylc/flow/cycling/iso8601.py by the C17
   correspondence stream, which instantiates [enum], [rnext], [rprev],
   [rvalid], [excl] with what the real TimeRecurrence / exclusions objects
   answer, and evaluates [hyps_check] (below: sound for the hypotheses) on
   every sampled sequence. *)
From Coq Require Import List ZArith Bool Sorted Lia.
From Cylc Require Import Base.Util Model.IsoSeq Proofs.IsoSeqProofs.
Import ListNotations.
Local Open Scope Z_scope.

(* What is assumed of the recurrence object: iterating it gives the strictly
   increasing list [enum] (a prefix if not [complete]); get_next leads from
   each point to the following one (and to nothing after the last one);
   get_is_valid is membership.  For the "previous point" methods also:
   get_prev leads from each point to the preceding one. *)
Definition recurrence_ok (enum : list Z) (complete : bool) (rnext : Z -> option Z) (rvalid : Z -> bool) : Prop :=
  StronglySorted Z.lt enum /\
  (forall l1 a b l2, enum = l1 ++ a :: b :: l2 -> rnext a = Some b) /\
  (forall l1 a, enum = l1 ++ [a] ->
     if complete then rnext a = None else exists x, rnext a = Some x /\ a < x) /\
  (forall p, in_window enum complete p = true -> rvalid p = mem Z.eqb p enum).

Definition recurrence_prev_ok (enum : list Z) (rprev : Z -> option Z) : Prop :=
  (forall l1 a b l2, enum = l1 ++ a :: b :: l2 -> rprev b = Some a) /\
  (forall a l2, enum = a :: l2 -> rprev a = None).

(* 1. Every answer given during any session of queries on one sequence object
   (caches filling up and being evicted along the way) is the enumeration-level
   answer [spec_answer]: membership in (enum minus exclusions), least such
   point > p / >= p, greatest < p, first, last.  [fwd_domain]: all queries
   except the prev ones (get_next_point_on_sequence: on a point of the
   recurrence);
   [prev_domain]: get_prev_point on a point of the recurrence and
   get_nearest_prev_point anywhere, under [recurrence_prev_ok]. *)
Theorem c17_api_vs_enumeration :
  forall enum complete bounded rnext rprev rvalid excl N fuel0,
  recurrence_ok enum complete rnext rvalid ->
  forall qs i q a,
  nth_error qs i = Some q ->
  nth_error (run_all enum complete bounded rnext rprev rvalid excl N fuel0 st0 qs) i = Some (Ok a) ->
  (fwd_domain enum q -> a = spec_answer enum bounded excl q) /\
  (recurrence_prev_ok enum rprev -> prev_domain enum q -> a = spec_answer enum bounded excl q).
Proof.
  intros enum complete bounded rnext rprev rvalid excl N fuel0 [H1 [H2 [H3 H4]]] qs i q a Hq Ha.
  pose proof (session_pure _ _ _ _ _ _ _ _ _ H1 H2 H3 H4 _ _ _ _ Hq Ha) as Hp.
  split.
  - intros Hd. apply (pure_query_fwd enum complete bounded rnext rprev excl fuel0); assumption.
  - intros [P1 P2] Hd. apply (pure_query_prev enum complete bounded rnext rprev excl fuel0); assumption.
Qed.

(* 2. Cache transparency: the answer to a query does not depend on which
   queries were made before it — for every query (no domain restriction, no
   assumption on get_prev), any two sessions, any positions. *)
Theorem c17_cache_transparent :
  forall enum complete bounded rnext rprev rvalid excl N fuel0,
  recurrence_ok enum complete rnext rvalid ->
  forall qs1 qs2 i j q a1 a2,
  nth_error qs1 i = Some q -> nth_error qs2 j = Some q ->
  nth_error (run_all enum complete bounded rnext rprev rvalid excl N fuel0 st0 qs1) i = Some (Ok a1) ->
  nth_error (run_all enum complete bounded rnext rprev rvalid excl N fuel0 st0 qs2) j = Some (Ok a2) ->
  a1 = a2.
Proof.
  intros enum complete bounded rnext rprev rvalid excl N fuel0 [H1 [H2 [H3 H4]]] qs1 qs2 i j q a1 a2 Q1 Q2 A1 A2.
  pose proof (session_pure _ _ _ _ _ _ _ _ _ H1 H2 H3 H4 _ _ _ _ Q1 A1) as P1.
  pose proof (session_pure _ _ _ _ _ _ _ _ _ H1 H2 H3 H4 _ _ _ _ Q2 A2) as P2.
  congruence.
Qed.

(* 3. What the enumeration-level answers are: least / greatest elements of
   (enum minus exclusions). *)
Theorem c17_spec_is_least_greatest : forall enum excl p,
  StronglySorted Z.lt enum ->
  (spec_on enum excl p = true <-> In p enum /\ excl p = false) /\
  match spec_next enum excl p with
  | Some n => In n enum /\ excl n = false /\ p < n /\
              forall e, In e enum -> excl e = false -> p < e -> n <= e
  | None => forall e, In e enum -> excl e = false -> e <= p
  end /\
  match spec_first enum excl p with
  | Some n => In n enum /\ excl n = false /\ p <= n /\
              forall e, In e enum -> excl e = false -> p <= e -> n <= e
  | None => forall e, In e enum -> excl e = false -> e < p
  end /\
  match spec_prev enum excl p with
  | Some n => In n enum /\ excl n = false /\ n < p /\
              forall e, In e enum -> excl e = false -> e < p -> e <= n
  | None => forall e, In e enum -> excl e = false -> p <= e
  end /\
  match spec_start enum excl with
  | Some n => In n enum /\ excl n = false /\ forall e, In e enum -> excl e = false -> n <= e
  | None => forall e, In e enum -> excl e = true
  end /\
  match spec_stop enum true excl with
  | Some n => In n enum /\ excl n = false /\ forall e, In e enum -> excl e = false -> e <= n
  | None => forall e, In e enum -> excl e = true
  end.
Proof.
  intros enum excl p Hs. split; [|split; [|split; [|split; [|split]]]].
  - unfold spec_on, good. now rewrite andb_true_iff, mem_Z_In, negb_true_iff.
  - exact (good_extremum_where excl (Z.ltb p) (Z.lt p) (fun e => e <= p) Z.le enum _
             (Z.ltb_lt p) (Z.ltb_ge p) (find_sorted_least _ enum Hs)).
  - exact (good_extremum_where excl (Z.leb p) (Z.le p) (fun e => e < p) Z.le enum _
             (Z.leb_le p) (Z.leb_gt p) (find_sorted_least _ enum Hs)).
  - exact (good_extremum_where excl (fun e => e <? p) (fun e => e < p) (fun e => p <= e) (fun n e => e <= n)
             enum _ (fun e => Z.ltb_lt e p) (fun e => Z.ltb_ge e p) (find_sorted_greatest _ enum Hs)).
  - exact (good_extremum excl Z.le enum _ (find_sorted_least _ enum Hs)).
  - exact (good_extremum excl (fun n e => e <= n) enum _ (find_sorted_greatest _ enum Hs)).
Qed.

(* 4. get_stop_point is the last non-excluded point of a bounded recurrence,
   whatever is excluded (None if unbounded).  This was false before /repo
   commit dde59a5 (the second-last point was returned unchecked when the last
   one was excluded: R5/20000101T00Z/P1D!(20000105T00Z,20000104T00Z)); the
   witness stays in the corpus as a regression case. *)
Theorem c17_stop_point_is_last_valid :
  forall enum complete bounded excl o,
  get_stop enum complete bounded excl = Ok o -> o = spec_stop enum bounded excl.
Proof. exact get_stop_spec. Qed.

Example c17_ex_stop_trailing_exclusions :
  get_stop [1; 2; 3; 4; 5] true true (fun p => (p =? 4) || (p =? 5)) = Ok (Some 3) /\
  get_stop [1] true true (fun p => p =? 1) = Ok None.
Proof. split; reflexivity. Qed.

(* for a recurrence whose get_is_valid is membership, the decidable check of
   Model/IsoSeq.v (sound: 6. below) establishes the assumptions *)
Lemma recurrence_ok_by_check enum complete rnext rprev :
  fst (hyps_check enum complete rnext rprev (fun p => mem Z.eqb p enum) []) = true ->
  recurrence_ok enum complete rnext (fun p => mem Z.eqb p enum).
Proof.
  intros H. destruct (hyps_check_sound _ _ _ _ _ _ H) as [H1 [H2 [H3 _]]]. repeat split; auto.
Qed.

(* 5. The assumption on get_prev is necessary (open finding: with month or
   year steps from day 29-31, isodatetime's get_prev(p) = p - step is not the
   previous point of the iteration): a recurrence 31,60,89 (days of year 2000:
   Jan 31, Feb 29, Mar 29) whose get_prev answers 60-31 = 29 -> out of bounds. *)
Theorem c17_prev_needs_invertible_step :
  exists enum complete bounded rnext rprev rvalid excl N fuel0,
    recurrence_ok enum complete rnext rvalid /\
    ~ recurrence_prev_ok enum rprev /\
    nth_error (run_all enum complete bounded rnext rprev rvalid excl N fuel0 st0 [QPrev 60]) 0
      = Some (Ok (APt None)) /\
    spec_answer enum bounded excl (QPrev 60) = APt (Some 31).
Proof.
  exists [31; 60; 89], true, true,
    (fun p => if p =? 31 then Some 60 else if p =? 60 then Some 89 else None),
    (fun p => if p =? 89 then Some 60 else None),
    (fun p => mem Z.eqb p [31; 60; 89]), (fun _ => false), 3%nat, 10%nat.
  split; [|split; [|split; reflexivity]].
  - now apply recurrence_ok_by_check with (rprev := fun p => if p =? 89 then Some 60 else None).
  - intros [P _]. specialize (P [] 31 60 [89] eq_refl). discriminate P.
Qed.

(* 6. The boolean check that the correspondence run evaluates on every sampled
   sequence implies the hypotheses (get_is_valid: at the sampled points). *)
Theorem c17_hyps_check_sound : forall enum complete rnext rprev rvalid pts,
  (fst (hyps_check enum complete rnext rprev rvalid pts) = true ->
   StronglySorted Z.lt enum /\
   (forall l1 a b l2, enum = l1 ++ a :: b :: l2 -> rnext a = Some b) /\
   (forall l1 a, enum = l1 ++ [a] ->
      if complete then rnext a = None else exists x, rnext a = Some x /\ a < x) /\
   (forall p, In p (pts ++ enum) -> in_window enum complete p = true -> rvalid p = mem Z.eqb p enum)) /\
  (snd (hyps_check enum complete rnext rprev rvalid pts) = true -> recurrence_prev_ok enum rprev).
Proof.
  intros. split; [apply hyps_check_sound|apply hyps_check_sound_prev].
Qed.

(* a 6-hourly recurrence 0,6,..,54 with 12 and 18 excluded, cache size 1 (so
   that entries are evicted), a session touching every method twice *)
Definition ex_enum := [0; 6; 12; 18; 24; 30; 36; 42; 48; 54].
Definition ex_next (p : Z) := if (0 <=? p) && (p <=? 48) then Some (p + 6) else None.
Definition ex_prev (p : Z) := if (6 <=? p) && (p <=? 54) then Some (p - 6) else None.
Definition ex_valid (p : Z) := mem Z.eqb p ex_enum.
Definition ex_excl (p : Z) := (p =? 12) || (p =? 18).
Definition ex_session :=
  [QNext 7; QNext 6; QValid 12; QValid 24; QOn 24; QNext 30; QNext 7; QFirst 13; QFirst 13; QNPrev 20;
   QPrev 24; QNextOn 6; QValid 24; QStart; QStop; QNext 54; QOn 25].

Example c17_ex_recurrence_ok : recurrence_ok ex_enum true ex_next ex_valid /\ recurrence_prev_ok ex_enum ex_prev.
Proof.
  split; [now apply recurrence_ok_by_check with (rprev := ex_prev)|].
  exact (hyps_check_sound_prev ex_enum true ex_next ex_prev ex_valid [] eq_refl).
Qed.

Example c17_ex_session :
  run_all ex_enum true true ex_next ex_prev ex_valid ex_excl 1 30 st0 ex_session =
  map (fun q => Ok (spec_answer ex_enum true ex_excl q)) ex_session.
Proof. vm_compute. reflexivity. Qed.

Example c17_ex_answers :
  map (spec_answer ex_enum true ex_excl) [QNext 7; QFirst 13; QNPrev 20; QStop; QValid 12] =
  [APt (Some 24); APt (Some 24); APt (Some 6); APt (Some 54); ABool false].
Proof. vm_compute. reflexivity. Qed.

(* 7. The assumption that get_next follows the iteration is necessary for
   transparency (open finding: month step, start point in another time zone
   than the cycle point time zone: 20000130T1710-0800/P1M seen from +0530
   iterates Jan 31, Mar 1, Mar 30, Apr 30 = days 31, 61, 90, 121, but get_next
   of the re-parsed Mar 1 is Apr 1 = day 92): the answer to
   get_next_point(Mar 15 = day 75) then depends on an earlier query. *)
Theorem c17_transparency_needs_next_link :
  exists enum complete bounded rnext rprev rvalid excl N fuel0,
    ~ recurrence_ok enum complete rnext rvalid /\
    run_all enum complete bounded rnext rprev rvalid excl N fuel0 st0 [QNext 75]
      = [Ok (APt (Some 90))] /\
    run_all enum complete bounded rnext rprev rvalid excl N fuel0 st0 [QNext 31; QNext 75]
      = [Ok (APt (Some 61)); Ok (APt (Some 92))].
Proof.
  exists [31; 61; 90; 121], true, false,
    (fun p => if p =? 31 then Some 60 else if p =? 61 then Some 92 else if p =? 90 then Some 121 else None),
    (fun _ => None), (fun p => mem Z.eqb p [31; 61; 90; 121]), (fun _ => false), 3%nat, 10%nat.
  split; [|split; reflexivity].
  intros [_ [H _]]. specialize (H [] 31 61 [90; 121] eq_refl). discriminate H.
Qed.
