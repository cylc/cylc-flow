(* C32 -- Clock expiry only expires eligible tasks.

   "Only tasks that are waiting and not manually triggered expire, and only once their expiry
    time has passed.  An expired task never submits a job, and completing its expired output
    spawns exactly its expire children."

   Model: Model/Expire.v ([clock_expire_tasks] = TaskPool.clock_expire_tasks with time() = now;
   [step] = the operations of the scheduler that decide who is queued / released / submitted).
   The theorems quantify over ALL pools, clock values, graphs ([env]) and operation sequences;
   their hypotheses [WF] (unique ids, nothing in the pool is recorded as finished) and
   [pool_ok] are checked on every checkpoint of every real scheduler run by [check_case]
   (c32_checked_hypotheses), which also checks that the real pass and the real release/submit
   step computed exactly what the model computes. *)
From Coq Require Import List ZArith NArith Bool.
From Cylc Require Import Base.Util Model.Expire Proofs.ExpireProofs.
Import ListNotations.
Local Open Scope Z_scope.

(* (a) A task expires in a pass IF AND ONLY IF it was in the pool, not manually triggered,
   waiting, has an expiry time, and that time is <= now (the code expires at now == expiry time:
   "time() < expire_time" is the not-yet test).  Held, queued and runahead-limited waiting tasks
   are not exempt. *)
Theorem c32_expires_iff_eligible :
  forall e now pool gone p' g' evs,
    WF pool gone -> clock_expire_tasks e now pool gone = (p', g', evs) ->
    forall i, In (EvExpired i) evs <->
              exists t, In t pool /\ t_id t = i /\ t_manual t = false /\ t_status t = Waiting /\
                        exists x, t_expire t = Some x /\ x <= now.
Proof. intros e now pool gone p' g' evs _. apply pass_expires_iff. Qed.

(* ... and they expire in pool order, each once per pass *)
Theorem c32_expiry_events_in_pool_order :
  forall e now pool gone p' g' evs,
    WF pool gone -> clock_expire_tasks e now pool gone = (p', g', evs) ->
    expired_ids evs = map t_id (filter (eligible now) pool).
Proof. intros e now pool gone p' g' evs _. apply pass_expired_list. Qed.

(* (e) the pass leaves every other task exactly as it was: in particular a task whose status is
   not waiting is never changed by the expiry pass *)
Theorem c32_ineligible_tasks_untouched :
  forall e now pool gone p' g' evs,
    WF pool gone -> clock_expire_tasks e now pool gone = (p', g', evs) ->
    forall t, In t pool -> eligible now t = false -> In t p'.
Proof. intros e now pool gone p' g' evs _. apply pass_ineligible_kept. Qed.

Theorem c32_non_waiting_untouched :
  forall e now pool gone p' g' evs,
    WF pool gone -> clock_expire_tasks e now pool gone = (p', g', evs) ->
    forall t, In t pool -> t_status t <> Waiting -> In t p'.
Proof.
  intros e now pool gone p' g' evs _ H t Ht Hs.
  apply (pass_ineligible_kept _ _ _ _ _ _ _ H t Ht). apply eligible_false. auto.
Qed.

(* the pool after the pass consists of untouched tasks, tasks that have just expired (status
   expired, output completed, neither queued nor runahead-limited, in no queue) and the spawned
   children of expired outputs -- nothing else *)
Theorem c32_pool_after_pass :
  forall e now pool gone p' g' evs,
    WF pool gone -> clock_expire_tasks e now pool gone = (p', g', evs) ->
    forall u, In u p' ->
      (In u pool /\ eligible now u = false) \/
      (exists t, In t pool /\ eligible now t = true /\ complete (mark_expired t) = false /\ u = mark_expired t) \/
      (exists p c, u = new_task e c /\ In (EvSpawn p c) evs).
Proof. intros e now pool gone p' g' evs _. apply pass_members. Qed.

(* an expiring task is removed (and recorded as finished) when its completion expression holds
   with the expired output, and is kept as an expired, incomplete task otherwise *)
Theorem c32_expired_task_fate :
  forall e now pool gone p' g' evs,
    WF pool gone -> clock_expire_tasks e now pool gone = (p', g', evs) ->
    forall t, In t pool -> eligible now t = true ->
      if complete (mark_expired t)
      then In (t_id t) g' /\ ~ In (t_id t) (ids p') /\ In (EvRemove (t_id t)) evs
      else In (mark_expired t) p'.
Proof. exact pass_expired_fate. Qed.

(* (d) the expired output of an expiring instance (that belongs to a flow and is not flow-waiting)
   reaches EXACTLY the graph children of its :expired output: each of them is spawned, or is
   already in the pool (prerequisite satisfied), or has already finished (not spawned again) ... *)
Theorem c32_expired_output_reaches_exactly_expire_children :
  forall e now pool gone p' g' evs,
    WF pool gone -> clock_expire_tasks e now pool gone = (p', g', evs) ->
    forall t, In t pool -> eligible now t = true -> t_flow t = true -> t_flow_wait t = false ->
    forall c, In c (children e (t_id t) O_EXPIRED) <->
              (In (EvSpawn (t_id t) c) evs \/ In (EvSat (t_id t) c) evs \/ In (EvNoSpawn (t_id t) c) evs).
Proof.
  intros e now pool gone p' g' evs _ H t Ht El Hfl Hfw c.
  change (In c (children e (t_id t) O_EXPIRED) <-> reached (t_id t) c evs).
  rewrite (pass_reached _ _ _ _ _ _ _ H). split.
  - intro Hc. exists t. repeat split; auto.
  - intros (u & _ & _ & Hid & _ & _ & Hc). rewrite Hid in Hc. exact Hc.
Qed.

(* ... every task spawned in the pass is an :expired child of an instance that expired in this
   very pass (no other output's children, nobody else's children), it is a fresh waiting task
   and it is in the pool afterwards *)
Theorem c32_spawned_are_expire_children :
  forall e now pool gone p' g' evs,
    WF pool gone -> clock_expire_tasks e now pool gone = (p', g', evs) ->
    forall p c, In (EvSpawn p c) evs ->
      In (EvExpired p) evs /\ In c (children e p O_EXPIRED) /\ In (new_task e c) p' /\
      exists t, In t pool /\ t_id t = p /\ t_flow t = true.
Proof.
  intros e now pool gone p' g' evs _ H p c Hin.
  assert (Hr : reached p c evs) by (left; exact Hin).
  apply (pass_reached _ _ _ _ _ _ _ H) in Hr. destruct Hr as (t & Ht & El & <- & Hfl & _ & Hc). split.
  - apply (pass_expires_iff _ _ _ _ _ _ _ H). exists t. apply eligible_iff in El. tauto.
  - split; [exact Hc|]. split; [|eauto].
    rewrite (pass_pool _ _ _ _ _ _ _ H). apply in_app_iff. right. apply in_map, in_spawned. eauto.
Qed.

(* ... and an instance without a flow number spawns nothing (cylc's no-flow rule) *)
Theorem c32_no_flow_no_children :
  forall e now pool gone p' g' evs,
    WF pool gone -> clock_expire_tasks e now pool gone = (p', g', evs) ->
    forall t, In t pool -> t_flow t = false ->
    forall c, ~ (In (EvSpawn (t_id t) c) evs \/ In (EvSat (t_id t) c) evs \/ In (EvNoSpawn (t_id t) c) evs).
Proof.
  intros e now pool gone p' g' evs Hwf H t Ht Hfl c Hin.
  apply (pass_reached _ _ _ _ _ _ _ H) in Hin. destruct Hin as (u & Hu & _ & Hid & Hfu & _).
  assert (u = t) by (apply (WF_inj _ _ Hwf); auto). subst u. congruence.
Qed.

(* the pass produces expiry, child and removal events only; well-formedness is preserved *)
Theorem c32_pass_event_kinds :
  forall e now pool gone p' g' evs,
    WF pool gone -> clock_expire_tasks e now pool gone = (p', g', evs) ->
    forall x, In x evs -> pass_ev x = true.
Proof. intros e now pool gone p' g' evs _. apply pass_event_kinds. Qed.

Theorem c32_pass_preserves_wf :
  forall e now pool gone p' g' evs,
    WF pool gone -> clock_expire_tasks e now pool gone = (p', g', evs) -> WF p' g'.
Proof. exact pass_WF. Qed.

(* (b) at most once.  A task that expired in one pass does not expire in the next, whatever the
   clock does (monotone or not) ... *)
Theorem c32_not_twice_in_a_row :
  forall e now pool gone p1 g1 ev1 e2 now2 p2 g2 ev2,
    WF pool gone ->
    clock_expire_tasks e now pool gone = (p1, g1, ev1) ->
    clock_expire_tasks e2 now2 p1 g1 = (p2, g2, ev2) ->
    forall i, In (EvExpired i) ev1 -> ~ In (EvExpired i) ev2.
Proof.
  intros e now pool gone p1 g1 ev1 e2 now2 p2 g2 ev2 Hwf H1 H2 i Hi1.
  apply (pass_settled_not_expired _ _ _ _ _ _ _ (pass_WF _ _ _ _ _ _ _ Hwf H1) H2).
  exact (pass_expired_settled _ _ _ _ _ _ _ Hwf H1 i Hi1).
Qed.

(* ... and over ALL sequences of scheduler operations (passes with arbitrary clock values, queueing,
   release/submission, hold/release, runahead changes, spawns, removals) that contain no manual
   trigger and no job message, every instance has at most one expiry event *)
Theorem c32_expires_at_most_once :
  forall st os st',
    Good st -> Logged st -> forallb no_revive os = true -> run st os = Some st' ->
    NoDup (expired_ids (s_log st')).
Proof.
  intros st os. revert st. induction os as [|o os IH]; intros st st' Hg HL Hnr H; simpl in *.
  - injection H as <-. apply HL.
  - apply andb_true_iff in Hnr. destruct Hnr as [Hn1 Hn2].
    destruct (step st o) as [st1|] eqn:E; [|discriminate].
    apply (IH st1); auto; [eapply step_good | eapply step_logged]; eauto.
Qed.

(* (c) An expired task never submits a job.  Invariant over all operation sequences: unique ids,
   tasks_to_trigger_now / waiting_on_job_prep only for manually triggered tasks, and an expired
   task is in no queue, not flagged queued, not awaiting job preparation ... *)
Theorem c32_invariant :
  forall st os st', Good st -> run st os = Some st' -> Good st'.
Proof. intros st os st'. apply run_invariant, step_good. Qed.

(* ... hence every job submission (EvSubmit carries the status the task had when it entered the
   submission pipeline) is for a task that is not expired *)
Theorem c32_expired_never_submitted :
  forall st os st',
    Good st -> run st os = Some st' ->
    (forall ev, In ev (s_log st) -> submit_ok ev) -> forall ev, In ev (s_log st') -> submit_ok ev.
Proof.
  intros st os st' Hg H Hl.
  refine (proj2 (run_invariant (fun s => Good s /\ forall ev, In ev (s_log s) -> submit_ok ev)
                               _ os st st' (conj Hg Hl) H)).
  intros s o s' [G L] Hs. split; [exact (step_good _ _ _ G Hs) | exact (step_log_ok _ _ _ G Hs L)].
Qed.

(* ... and an expired task stays expired (so it is never queued, released or submitted later) under
   every operation except a manual trigger of it, a job message for it, or its removal *)
Theorem c32_expired_is_stable :
  forall st o st' t,
    Good st -> step st o = Some st' -> In t (s_pool st) -> t_status t = Expired ->
    touches o (t_id t) = false ->
    exists t', In t' (s_pool st') /\ t_id t' = t_id t /\ t_status t' = Expired.
Proof. exact expired_stable. Qed.

(* what check_case verifies on every real checkpoint gives the hypotheses of the theorems above *)
Theorem c32_checked_hypotheses :
  forall p g, wf_state p g = true -> WF p g.
Proof.
  intros p g. unfold wf_state. rewrite andb_true_iff, forallb_forall. intros [H1 H2]. split.
  - apply nodup_N_inv, H1.
  - intros i Hi. apply memN_false, negb_true_iff, H2, Hi.
Qed.

(* Successor of a runahead-limited task.  TaskPool.remove spawns the next parentless instance of a
   runahead-limited task that is removed ... *)
Theorem c32_remove_spawns_successor :
  forall st e i st' t s,
    Good st -> step st (ORemove e i) = Some st' ->
    In t (s_pool st) -> t_id t = i -> t_flow t = true -> t_runahead t = true ->
    assoc N.eqb i (e_next e) = Some s -> ~ In s (ids (s_pool st)) -> ~ In s (s_gone st) ->
    In (new_task e s) (s_pool st') /\ In (EvNext i s) (s_log st').
Proof.
  intros st e i st' t s [Hwf _] H Ht Hid Hfl Hra Hnx Hs1 Hs2. destruct st as [p g lg]. simpl in *.
  rewrite <- Hid, (find_task_WF _ _ _ Hwf Ht) in H.
  unfold removal_spawn in H. rewrite Hfl, Hra, Hid, Hnx in H.
  apply memN_false in Hs1. apply memN_false in Hs2. rewrite Hs1, Hs2 in H.
  injection H as <-. simpl. split; apply in_app_iff; right; simpl; auto.
Qed.

(* ... but the expiry pass never does: state_reset(expired) clears is_runahead before remove()
   looks at it *)
Theorem c32_pass_never_spawns_successor :
  forall e now pool gone p' g' evs,
    WF pool gone -> clock_expire_tasks e now pool gone = (p', g', evs) ->
    forall i s, ~ In (EvNext i s) evs.
Proof.
  intros e now pool gone p' g' evs _ H i s Hin. apply (pass_event_kinds _ _ _ _ _ _ _ H) in Hin. discriminate.
Qed.

(* The statement one wants -- a runahead-limited parentless task that expires and is removed hands
   over to its next instance, as on every other removal -- is FALSE of the faithful model; the
   real scheduler shows the same behaviour (known finding, vp/props/c32.py witness_successor). *)
Definition c32_expiry_keeps_parentless_chain : Prop :=
  forall e now pool gone p' g' evs t s,
    WF pool gone -> clock_expire_tasks e now pool gone = (p', g', evs) ->
    In t pool -> eligible now t = true -> t_flow t = true -> t_runahead t = true ->
    complete (mark_expired t) = true ->
    assoc N.eqb (t_id t) (e_next e) = Some s -> ~ In s (ids pool) -> ~ In s gone ->
    In s (ids p').

Theorem c32_expiry_keeps_parentless_chain_refuted : ~ c32_expiry_keeps_parentless_chain.
Proof.
  intro H.
  assert (Hwf : WF [succ_task] []) by (apply c32_checked_hypotheses; reflexivity).
  specialize (H succ_env 0 [succ_task] [] [] [0%N] [EvExpired 0%N; EvRemove 0%N] succ_task 1%N
                Hwf succ_witness (or_introl eq_refl) eq_refl eq_refl eq_refl eq_refl eq_refl).
  simpl in H. apply H.
  - intros [Hd|[]]. discriminate.
  - intros [].
Qed.

(* Non-vacuity. *)
Definition ex_env : env :=
  mkEnv [((0%N, O_EXPIRED), [3%N; 4%N]); ((0%N, 3%N), [5%N])] [] [(0%N, 3600); (1%N, 3600); (2%N, -86400)]
        [(0%N, COr (CVar 3%N) (CVar 0%N)); (1%N, CVar 3%N); (2%N, CVar 3%N); (3%N, CVar 3%N); (4%N, CVar 3%N)] [4%N].

Definition ex_pool : list task :=
  [ tk ex_env 0%N Waiting false true true false (Some 3600) true false [] true false false;     (* held, queued: expires *)
    tk ex_env 1%N Waiting true false false false (Some 3600) true false [] false true true;     (* manual: does not *)
    tk ex_env 2%N Running false false false false (Some (-86400)) true false [1%N; 2%N] false false false;  (* running *)
    tk ex_env 4%N Waiting false false false true None true false [] false false false ].       (* child already there *)

(* at now = expiry time exactly the eligible task 0 expires: its :expired children 3 (spawned) and 4
   (already in the pool) are reached, its :succeeded child 5 is not; it is complete and removed *)
Example c32_ex_pass :
  clock_expire_tasks ex_env 3600 ex_pool [] =
  ([ tk ex_env 1%N Waiting true false false false (Some 3600) true false [] false true true;
     tk ex_env 2%N Running false false false false (Some (-86400)) true false [1%N; 2%N] false false false;
     tk ex_env 4%N Waiting false false false true None true false [] false false false;
     new_task ex_env 3%N ],
   [0%N],
   [EvExpired 0%N; EvSpawn 0%N 3%N; EvSat 0%N 4%N; EvRemove 0%N]).
Proof. vm_compute. reflexivity. Qed.

(* one second earlier nothing expires *)
Example c32_ex_not_yet : clock_expire_tasks ex_env 3599 ex_pool [] = (ex_pool, [], []).
Proof. vm_compute. reflexivity. Qed.

Example c32_ex_hypotheses : wf_state ex_pool [] = true /\ pool_ok ex_pool = true.
Proof. split; reflexivity. Qed.

(* a run of the step system: spawn, queue, expire at the expiry time, release/submit: the expired
   task is not submitted, the other one is *)
Definition ex_ops : list op :=
  [ OSpawn ex_env 1%N; OSpawn ex_env 3%N; ORunahead 1%N false; ORunahead 3%N false;
    OQueue 1%N true; OQueue 3%N true; OPass ex_env 3600; OReleaseSubmit [3%N]; OPass ex_env 99999 ].

Example c32_ex_run :
  match run (mkState [] [] []) ex_ops with
  | Some st => s_log st = [EvExpired 1%N; EvSubmit 3%N Waiting]
               /\ map (fun t => (t_id t, t_status t)) (s_pool st) = [(1%N, Expired); (3%N, Preparing)]
  | None => False
  end.
Proof. vm_compute. split; reflexivity. Qed.

Example c32_ex_initial_state : Good (mkState [] [] []) /\ Logged (mkState [] [] []).
Proof.
  split; [split; [apply c32_checked_hypotheses; reflexivity | reflexivity] |].
  split; [constructor | intros i []].
Qed.

(* releasing an expired task is not an enabled operation: the queues do not hold it *)
Example c32_ex_release_expired_disabled :
  match run (mkState [] [] []) [OSpawn ex_env 1%N; ORunahead 1%N false; OQueue 1%N true; OPass ex_env 3600] with
  | Some st => step st (OReleaseSubmit [1%N]) = None
  | None => False
  end.
Proof. vm_compute. reflexivity. Qed.

Example c32_ex_ops_no_revive : forallb no_revive ex_ops = true.
Proof. reflexivity. Qed.

(* why (b) excludes manual triggers and job messages: an expired, incomplete task that is triggered
   manually runs (that submission is for a waiting task), and if its job fails with a retry lined up
   it is waiting again, no longer manual, and expires a second time *)
Example c32_ex_retrigger_expires_again :
  match run (mkState [] [] [])
            [OSpawn ex_env 1%N; ORunahead 1%N false; OPass ex_env 3600; OManual 1%N false;
             OReleaseSubmit []; OMsg 1%N Waiting [1%N; 2%N]; OPass ex_env 3601] with
  | Some st => s_log st = [EvExpired 1%N; EvManual 1%N; EvSubmit 1%N Waiting; EvExpired 1%N]
  | None => False
  end.
Proof. vm_compute. reflexivity. Qed.

(* "not manually triggered": what `cylc trigger` (TaskPool.queue_or_trigger) does to its target, for
   EVERY state of the target -- any status it acts on, flagged queued or not, in a queue or not, held,
   runahead-limited, freshly spawned by the command, queue limit reached or not: the target carries the
   manual flag, is waiting, keeps its held / runahead flags and expiry time, and is not eligible for
   expiry at any clock value.  (check_trig compares every real queue_or_trigger call with this
   function and checks the flag on the real task.) *)
Theorem c32_trigger_marks_manual_in_every_state :
  forall limited t,
    let t' := queue_or_trigger limited t in
    t_manual t' = true /\ t_status t' = Waiting /\ t_id t' = t_id t /\
    t_held t' = t_held t /\ t_runahead t' = t_runahead t /\ t_expire t' = t_expire t /\
    (forall now, eligible now t' = false).
Proof. simpl. repeat split. Qed.

(* From the moment of the command: after a trigger of instance i (in whatever state), over ALL
   continuations (passes at any clock value, queueing, hold/release, runahead changes, messages,
   further triggers, spawns, removals, releases), every expiry event of i in the continuation is
   preceded by a job submission for i (which clears the flag, by design, for retries) or by its
   removal from the pool *)
Theorem c32_triggered_exempt_until_submitted :
  forall st i limited st1 os st2,
    Good st -> step st (OManual i limited) = Some st1 -> run st1 os = Some st2 ->
    exists nw, s_log st2 = s_log st1 ++ nw /\
      forall pre post, nw = pre ++ EvExpired i :: post ->
        (exists s, In (EvSubmit i s) pre) \/ In (EvRemove i) pre.
Proof.
  intros st i limited st1 os st2 Hg H Hrun.
  destruct (trigger_marks _ _ _ _ H) as (t & Ht & <- & Hm).
  exact (manual_guarded os st1 st2 t (step_good _ _ _ Hg H) Hrun Ht Hm).
Qed.

(* the same for any task that carries the flag (e.g. restored from the database on restart) *)
Theorem c32_manual_exempt_until_submitted :
  forall os st st' t,
    Good st -> run st os = Some st' -> In t (s_pool st) -> t_manual t = true ->
    exists nw, s_log st' = s_log st ++ nw /\
      forall pre post, nw = pre ++ EvExpired (t_id t) :: post ->
        (exists s, In (EvSubmit (t_id t) s) pre) \/ In (EvRemove (t_id t)) pre.
Proof. exact manual_guarded. Qed.

(* target states: (1) not flagged queued, queue full -> queued behind the limit WITH the flag (the seeded
   regression lost it here); (2) queue not full -> runs now; (3) already queued -> taken out, runs now;
   (4) held; (5) runahead-limited; then the clock passes the expiry time: none of them expires *)
Example c32_ex_trigger_target_states :
  let fresh := new_task ex_env 1%N in                                  (* just spawned: runahead flag set *)
  let queued := set_queued (set_runahead false fresh) in
  let held := set_held true fresh in
  map (fun t => let t' := queue_or_trigger true t in (t_manual t', t_queued t', t_inq t', t_trig t', eligible 99999 t'))
      [fresh; queued; held]
  = [(true, true, true, false, false); (true, false, false, true, false); (true, true, true, false, false)]
  /\ (let t' := queue_or_trigger false fresh in (t_manual t', t_queued t', t_trig t', t_runahead t', eligible 99999 t'))
     = (true, false, true, true, false)
  /\ eligible 99999 (set_runahead false fresh) = true.                  (* untriggered, it would expire *)
Proof. vm_compute. repeat split. Qed.

(* the seeded-regression scenario in the model: b (instance 1, expiry 3600) is spawned by the trigger
   command while the queue is full (limited = true), the clock goes to 7200 with b still queued: no expiry;
   when the queue releases it, it is submitted as a waiting task *)
Example c32_ex_trigger_queued_behind_limit :
  match run (mkState [] [] [])
            [OSpawn ex_env 1%N; OManual 1%N true; ORunahead 1%N false; OPass ex_env 7200;
             OReleaseSubmit [1%N]; OPass ex_env 7300] with
  | Some st => s_log st = [EvManual 1%N; EvSubmit 1%N Waiting]
  | None => False
  end.
Proof. vm_compute. reflexivity. Qed.
