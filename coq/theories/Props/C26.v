(* Props/C26.v — C26 "Task pool bookkeeping is internally consistent". *)
From Coq Require Import List Bool ZArith.
From Cylc Require Import Base.Util Model.Pool Proofs.PoolProofs Proofs.PoolTheorems.
Import ListNotations.

(* No two proxies for the same (cycle point, task) in any reachable pool. *)
Theorem c26_no_duplicate_proxies : forall c tr s,
  exec c (init_state c) tr = Some s -> NoDup (map p_id (pool s)).
Proof. intros c tr s H. apply (inv_nodup c s). eapply reachable_Inv; eauto. Qed.

(* An accepted tick end means the reported pool (the real dictionaries, also
   compared by the harness with the cached list and with the task_pool table)
   has exactly the abstract pool's tasks with the same status, flags, flows,
   satisfied prerequisites, outputs and submit number. *)
Theorem c26_tick_end_pool_agrees : forall c s snap hl hp s',
  step c s (ETickEnd snap hl hp) = Ok s' ->
  length snap = length (pool s) /\
  forall v, In v snap -> exists p, find_task (pool s) (v_id v) = Some p /\ view_matches p v = true.
Proof. intros c s snap hl hp s' H. apply step_tick in H. destruct H as (H1 & H2 & _). now split. Qed.

(* Adding a second proxy for a pooled id is rejected. *)
Theorem c26_duplicate_add_rejected : forall c s t,
  existsb (fun q => tid_eqb (p_id q) t) (pool s) = true -> forall s', step c s (EAdd t) <> Ok s'.
Proof.
  intros c s t H s'. cbn [step]. destruct (find_task (limbo s) t); [|discriminate].
  rewrite H. discriminate.
Qed.
