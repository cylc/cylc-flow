(* Props/C47.v — C47 "Platform and host selection avoids unreachable hosts".
   Model/Platform.v is the hand model of
   cylc/flow/platforms.py (platform_from_name, get_platform_from_group,
   get_host_from_platform); it is tied to the code by the C47 correspondence
   streams.  Every theorem holds for arbitrary regex oracles [pmatch]/[gmatch]
   (re.fullmatch), [clash], [jobless] and for every choice function [select]
   of which only `In (select l) l` for non-empty l is assumed (random.choice). *)
From Coq Require Import List Bool Arith Lia.
From Cylc Require Import Base.Util Model.Platform Proofs.PlatformProofs.
Import ListNotations.

Definition chooses (select : list name -> name) : Prop :=
  forall l, l <> [] -> In (select l) l.

(* A selected host is a host of the platform and is not known to be unreachable. *)
Theorem c47_host_avoids_bad : forall select, chooses select ->
  forall rp bad h,
  get_host select rp bad = Ok h -> In h (r_hosts rp) /\ ~ In h bad.
Proof.
  intros select Hs rp bad h. unfold get_host.
  destruct (good_hosts bad (r_hosts rp)) as [|x l] eqn:E; [discriminate|].
  intros H. apply good_hosts_In. rewrite E. eapply pick_in; [exact Hs|discriminate|exact H].
Qed.

(* While the platform has a reachable host one is returned (for the two
   supported selection methods) ... *)
Theorem c47_host_found_when_one_exists : forall select rp bad,
  (exists h, In h (r_hosts rp) /\ ~ In h bad) -> r_method rp <> Other ->
  exists h, get_host select rp bad = Ok h.
Proof.
  intros select rp bad [h Hh] Hm. unfold get_host.
  destruct (good_hosts bad (r_hosts rp)) as [|x l] eqn:E.
  - apply good_hosts_In in Hh. rewrite E in Hh. destruct Hh.
  - destruct (r_method rp); cbn; eauto. congruence.
Qed.

(* ... and the no-hosts error is raised exactly when none remains. *)
Theorem c47_no_hosts_error_iff : forall select rp bad,
  get_host select rp bad = Err ENoHosts <-> (forall h, In h (r_hosts rp) -> In h bad).
Proof.
  intros select rp bad. unfold get_host. rewrite <- good_hosts_nil.
  destruct (good_hosts bad (r_hosts rp)) as [|x l]; [split; reflexivity|].
  split; [|discriminate]. intros H. apply pick_err in H. destruct H; discriminate.
Qed.

(* 'definition order' returns the first reachable host. *)
Theorem c47_definition_order_first : forall select rp bad h rest,
  r_method rp = DefOrder -> good_hosts bad (r_hosts rp) = h :: rest ->
  get_host select rp bad = Ok h.
Proof. intros select rp bad h rest Hm Hg. unfold get_host. now rewrite Hg, Hm. Qed.

(* The selected platform is a member of the group, and when some hosts are
   unreachable it is a member that still has a reachable host: a platform all
   of whose hosts are unreachable is never returned. *)
Theorem c47_group_avoids_dead_platforms :
  forall pmatch gmatch clash jobless local local_name cfg select, chooses select ->
  forall g bad n,
  from_group pmatch gmatch clash jobless local local_name cfg select g bad = Ok n ->
  In n (g_members g) /\
  (bad <> [] ->
   exists rp h, resolve_member pmatch gmatch clash jobless local local_name cfg n = Ok rp /\
                In h (r_hosts rp) /\ ~ In h bad).
Proof.
  intros pmatch gmatch clash jobless local local_name cfg select Hs g bad n. unfold from_group.
  destruct (group_names _ _ _ _ _ _ cfg g bad) as [l|e] eqn:Eg; cbn [bind]; [|discriminate].
  intros H. destruct (group_names_ok _ _ _ _ _ _ _ _ _ _ Eg) as (Hne & Hm & Hu).
  pose proof (pick_in select Hs _ _ _ Hne H) as Hin. split; [auto|].
  intros Hb. exact (Hu Hb n Hin).
Qed.

(* The no-platforms error is raised exactly when no member remains: the
   group is empty or (with unreachable hosts known) every member resolves and
   none has a reachable host. *)
Theorem c47_no_platforms_error_iff :
  forall pmatch gmatch clash jobless local local_name cfg select g bad,
  from_group pmatch gmatch clash jobless local local_name cfg select g bad = Err ENoPlatforms <->
  (bad = [] /\ g_members g = []) \/
  (bad <> [] /\
   (forall m, In m (g_members g) ->
      exists rp, resolve_member pmatch gmatch clash jobless local local_name cfg m = Ok rp) /\
   (forall m, In m (g_members g) ->
      ~ usable pmatch gmatch clash jobless local local_name cfg bad m)).
Proof. exact from_group_noplatforms. Qed.

(* So while another member has a reachable host, a platform is returned or a
   different error is reported, never NoPlatformsError. *)
Theorem c47_no_platforms_error_only_when_none :
  forall pmatch gmatch clash jobless local local_name cfg select g bad m,
  In m (g_members g) -> usable pmatch gmatch clash jobless local local_name cfg bad m ->
  from_group pmatch gmatch clash jobless local local_name cfg select g bad <> Err ENoPlatforms.
Proof.
  intros pmatch gmatch clash jobless local local_name cfg select g bad m Hm Hu H.
  apply from_group_noplatforms in H. destruct H as [[_ H]|(_ & _ & H)].
  - rewrite H in Hm. destruct Hm.
  - exact (H m Hm Hu).
Qed.

(* [last_defined pmatch ps n d]: ps = pre ++ d :: post, d's pattern fully
   matches n and no pattern in post does. *)
Theorem c47_resolves_to_last_defined :
  forall pmatch clash jobless local local_name ps n rp,
  resolve pmatch clash jobless local local_name ps n = Ok rp ->
  (exists d, last_defined pmatch ps n d /\ rp = fill d n) \/
  ((forall q, In q ps -> pmatch (d_pat q) n = false) /\ jobless n = true /\ r_name rp = local_name).
Proof.
  intros pmatch clash jobless local local_name ps n rp H.
  exact (proj2 (resolve_ok pmatch clash jobless local local_name ps n rp H)).
Qed.

Theorem c47_last_defined_is_returned :
  forall pmatch clash jobless local local_name ps n d,
  (forall q, In q ps -> clash (d_pat q) = false) -> last_defined pmatch ps n d ->
  resolve pmatch clash jobless local local_name ps n = Ok (fill d n).
Proof.
  intros pmatch clash jobless local local_name ps n d Hc Hl. unfold resolve.
  rewrite (proj2 (existsb_false _ _) Hc). apply last_match_spec in Hl. now rewrite Hl.
Qed.

Theorem c47_last_defined_unique : forall pmatch ps n d d',
  last_defined pmatch ps n d -> last_defined pmatch ps n d' -> d = d'.
Proof.
  intros pmatch ps n d d' H H'. apply last_match_spec in H. apply last_match_spec in H'. congruence.
Qed.

(* Whatever the choice function, the model's answers lie in the allowed-answer
   sets against which the implementation's answers are checked. *)
Theorem c47_allowed_answers_cover_every_choice :
  forall pmatch gmatch clash jobless local local_name cfg select, chooses select ->
  (forall n bad,
     In (from_name pmatch gmatch clash jobless local local_name cfg select n bad)
        (from_name_allowed pmatch gmatch clash jobless local local_name cfg n bad)) /\
  (forall rp bad, host_ok (host_allowed rp bad) (get_host select rp bad) = true).
Proof.
  intros pmatch gmatch clash jobless local local_name cfg select Hs. split.
  - exact (from_name_allowed_ok pmatch gmatch clash jobless local local_name cfg select Hs).
  - exact (get_host_allowed select Hs).
Qed.

(* an example configuration.
   names: 0 localhost, 1 hpc1, 2 hpc2, 3 h1, 4 h2, 5 h3, 6 grp
   platforms (definition order): localhost | hpc\d (hosts h1 h2) | hpc1 (hosts h3)
   group grp = hpc1, hpc2 (definition order) *)
Definition ex_pm (p : pat) (n : name) : bool :=
  match p, n with 0, 0 | 1, 1 | 1, 2 | 2, 1 => true | _, _ => false end.
Definition ex_gm (p : pat) (n : name) : bool := Nat.eqb p 0 && Nat.eqb n 6.
Definition ex_cfg : config :=
  {| platforms := [ {| d_pat := 0; d_hosts := [0]; d_method := DefOrder |};
                    {| d_pat := 1; d_hosts := [3; 4]; d_method := Random |};
                    {| d_pat := 2; d_hosts := [5]; d_method := DefOrder |} ];
     groups := [ {| g_pat := 0; g_members := [1; 2]; g_method := DefOrder |} ] |}.
Definition ex_from_name := from_name ex_pm ex_gm (fun _ => false) (fun _ => false) 0 0 ex_cfg (hd 0).

Example c47_chooses_hd : chooses (hd 0).
Proof. intros [|x l] H; [congruence|now left]. Qed.
(* hpc1 matches both hpc\d and hpc1: the last-defined one (hosts h3) wins *)
Example c47_ex_last_defined :
  ex_from_name 1 [] = Ok {| r_name := 1; r_hosts := [5]; r_method := DefOrder |}.
Proof. reflexivity. Qed.
(* with h3 unreachable the group skips hpc1 and returns hpc2 *)
Example c47_ex_group_skips :
  ex_from_name 6 [5] = Ok {| r_name := 2; r_hosts := [3; 4]; r_method := Random |}.
Proof. reflexivity. Qed.
Example c47_ex_group_none : ex_from_name 6 [3; 4; 5] = Err ENoPlatforms.
Proof. reflexivity. Qed.
Example c47_ex_host :
  get_host (hd 0) {| r_name := 2; r_hosts := [3; 4]; r_method := Random |} [3] = Ok 4.
Proof. reflexivity. Qed.
Example c47_ex_no_host :
  get_host (hd 0) {| r_name := 2; r_hosts := [3; 4]; r_method := Random |} [4; 3] = Err ENoHosts.
Proof. reflexivity. Qed.
