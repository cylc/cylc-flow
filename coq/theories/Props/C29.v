(* Props/C29.v — C29 "Manually set outputs behave like naturally completed outputs".
   Pool automaton: a forced status change is EStateForced, a forced prerequisite
   EForceSat; forced outputs are ordinary EOutput events, so everything
   downstream of a set output goes through the same ESpawn / ESat / EAdd
   events -- and the same checks -- as for a natural output. *)
From Coq Require Import List Bool ZArith.
From Cylc Require Import Base.Util Model.Pool Proofs.PoolProofs Proofs.PoolTheorems Props.C01.
Import ListNotations.

(* A forced change never puts the task into the submitted or running state. *)
Theorem c29_never_submitted_or_running_by_force : forall c s t st h q r s' p inp,
  step c s (EStateForced t st h q r) = Ok s' -> lookup s t = Some (p, inp) ->
  st <> Submitted /\ st <> Running.
Proof.
  intros c s t st h q r s' p inp H El. destruct (step_state_forced _ _ _ _ _ _ _ _ _ _ H El) as (H1 & H2 & _). now split.
Qed.

(* Children of a (set or natural) output get exactly the matching prerequisite
   atoms satisfied, and only by outputs that were really completed. *)
Theorem c29_children_satisfied_exactly : forall c s t msgs new s' p inp i,
  step c s (ESat t msgs new) = Ok s' -> lookup s t = Some (p, inp) -> find_inst (c_insts c) t = Some i ->
  (forall k, In k msgs -> In k (done s)) /\
  (forall k, In k new <-> (exists pre, In (k, pre) (inst_keys i) /\ pre = false) /\ In k msgs /\ sat_of p k = false).
Proof.
  intros c s t msgs new s' p inp i H El Hi. apply step_sat in H.
  destruct H as (p' & inp' & i' & El' & Hi' & Hm & Hn & _).
  rewrite El in El'. injection El' as <- <-. rewrite Hi in Hi'. injection Hi' as <-. now split.
Qed.

(* Setting prerequisites satisfies only prerequisites the task actually has. *)
Theorem c29_set_prereqs_only_own : forall c s t keys s' p inp i,
  step c s (EForceSat t keys) = Ok s' -> lookup s t = Some (p, inp) -> find_inst (c_insts c) t = Some i ->
  forall k, In k keys -> exists pre, In (k, pre) (inst_keys i).
Proof. exact force_sat_only_own_prerequisites. Qed.

(* Once all prerequisites are satisfied -- naturally or by force -- the task
   may be queued and run like any other: the readiness test counts forced
   atoms as satisfied. *)
Theorem c29_forced_atoms_count_as_satisfied : forall p k,
  sat_of p k = true <-> In k (p_sat p) \/ In k (p_forced p).
Proof. exact sat_of_spec. Qed.

(* The safety invariant of the pool holds across set commands too. *)
Theorem c29_invariant_with_commands : forall c tr s,
  exec c (init_state c) tr = Some s -> Inv c s.
Proof. exact reachable_Inv. Qed.

(* "marks the implied earlier outputs complete" and "with no outputs given
   completes the required outputs plus submitted, started, succeeded" are
   task-level facts (C09 c09_implied, C12 skip outputs) and are checked on
   every set command by the C29 oracle: partial here. *)

Example c29_ex_forced_running_rejected :
  run C01.ex_cfg [ ESpawn C01.a [1%nat] [] false; EAdd C01.a;
                   EStateForced C01.a Running false false false ] = Some (2%nat, 291%nat).
Proof. vm_compute. reflexivity. Qed.
