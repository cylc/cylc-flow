(* Props/C06.v — C06 "Held tasks never submit; holds persist and apply to future instances".
   Pool automaton (Model/Pool.v): [to_hold] is the set of instances to hold,
   [hold_pt] the workflow hold point; hold/release commands are events. *)
From Coq Require Import List Bool ZArith.
From Cylc Require Import Base.Util Model.Pool Proofs.PoolProofs Proofs.PoolTheorems Props.C01.
Import ListNotations.
Open Scope Z_scope.

(* A held task never enters job preparation unless manually triggered, is never
   queued while held, and is never released from a queue while held. *)
Theorem c06_held_never_prepared : forall c s t st h q r s' p inp,
  step c s (EState t st h q r) = Ok s' -> lookup s t = Some (p, inp) ->
  st = p_status p \/ p_manual p = true \/
  (lifecycle (p_status p) st /\
   (p_status p = Waiting -> st = Preparing -> p_rel p = true \/ p_manual p = true) /\
   (st = Preparing -> p_held p = true -> p_manual p = true)).
Proof. exact status_change_follows_lifecycle. Qed.

Theorem c06_held_never_queued : forall c s t st h s' p inp r,
  step c s (EState t st h true r) = Ok s' -> lookup s t = Some (p, inp) -> p_queued p = false ->
  p_manual p = false -> h = false.
Proof. exact held_not_queued. Qed.

Theorem c06_held_never_released_from_queue : forall c s l s',
  step c s (ERelease l) = Ok s' ->
  forall t, In t l -> exists p, find_task (pool s) t = Some p /\ (p_held p = false \/ p_manual p = true).
Proof. intros c s l s' H. exact (proj1 (release_respects_queue_limits c s l s' H)). Qed.

(* The held flag changes only on request: set only for an instance in the hold
   set or beyond the hold point, cleared only after it left the hold set. *)
Theorem c06_hold_flag_only_on_request : forall c s t st h q r s' p inp,
  step c s (EState t st h q r) = Ok s' -> lookup s t = Some (p, inp) ->
  (h = true -> p_held p = false -> hold_expected s t = true) /\
  (h = false -> p_held p = true -> mem tid_eqb t (to_hold s) = false).
Proof.
  intros c s t st h q r s' p inp H El.
  destruct (step_state _ _ _ _ _ _ _ _ _ _ H El) as (_ & _ & _ & _ & _ & _ & H5 & H6 & _). now split.
Qed.

(* Holding an instance that is not yet in the pool takes effect when it spawns. *)
Theorem c06_future_hold_on_spawn : forall c s t fl sat0 held s',
  step c s (ESpawn t fl sat0 held) = Ok s' -> held = hold_expected s t.
Proof. intros c s t fl sat0 held s' H. apply step_spawn in H. tauto. Qed.

(* At every accepted tick end (including the first one after a restart) the
   real hold set and hold point equal the abstract ones and every pooled task
   is held exactly when it is in the hold set. *)
Theorem c06_hold_state_agrees : forall c s snap hl hp s',
  step c s (ETickEnd snap hl hp) = Ok s' ->
  same_tids hl (to_hold s) = true /\ hp = hold_pt s /\
  forall p, In p (pool s) -> p_held p = mem tid_eqb (p_id p) (to_hold s).
Proof.
  intros c s snap hl hp s' H. apply step_tick in H. destruct H as (_ & _ & H3 & H4 & H5 & _). auto.
Qed.

Example c06_ex_hold_future :
  run C01.ex_cfg [ ECmdHold [C01.b]; ESpawn C01.b [1%nat] [] false ] = Some (1%nat, 105%nat).
Proof. vm_compute. reflexivity. Qed.
