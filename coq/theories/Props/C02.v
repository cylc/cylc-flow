(* Props/C02.v — C02 "No task instance runs twice in a flow without
   intervention": the task-level clauses (retry bound, failed/submit-failed
   output only when no retry remains, resubmission only through a retry) over
   Model/TaskMsg.v (see Props/C09.v).  The spawning / DB-history clauses
   (no respawn in a flow, no duplicate proxy) are scheduler level. *)
From Coq Require Import List Bool Arith ZArith Lia.
From Cylc Require Import Base.Util Gen.TaskMsgTables Model.TaskMsg
  Proofs.TaskMsgProofs Proofs.TaskMsgInv Proofs.TaskMsgEdges Proofs.TaskMsgBound.
Import ListNotations.

(* "A task with N execution retry delays and M submission retry delays is
   submitted at most (N+1)*(M+1) times": for every op sequence from the fresh
   task (any messages, flags, submit numbers, duplicates, submit results,
   preparations) in which 'expired' is only raised for a waiting task and a
   polled/internal 'submission failed' is not delivered once the job has
   started (env_run), the submit number never exceeds the bound.  Potential:
   sn + budget, budget counting the submissions the timers still allow. *)
Theorem c02_submit_bound : forall n m k ops,
  env_run (fresh n m k) ops = true ->
  sn (final (fresh n m k) ops) <= (n + 1) * (m + 1).
Proof.
  intros n m k ops E. pose proof (run_budget ops _ (wf_fresh n m k) E) as H.
  unfold budget at 2 in H. cbn in H. rewrite Nat.sub_0_r in H.
  assert ((n + 1) * (m + 1) = 1 + m + n * (m + 1)) by lia. lia.
Qed.

(* the potential decreases along every such step, from any reachable state *)
Theorem c02_step_budget : forall t o, wf t -> env_c02 t o = true ->
  sn (fst (step t o)) + budget (fst (step t o)) <= sn t + budget t.
Proof. exact step_budget. Qed.

(* The statement without the environment hypothesis: *)
Definition c02_submit_bound_unrestricted : Prop :=
  forall n m k ops, sn (final (fresh n m k) ops) <= (n + 1) * (m + 1).
(* is false of the code: 'started' resets the submission try number; a failed
   submit-command result that is processed after the job's 'started' message
   then consumes a submission retry again and the running task is resubmitted
   (N=0, M=1: three submissions; finding "submit-fail-after-start"). *)
Theorem c02_submit_bound_unrestricted_refuted : ~ c02_submit_bound_unrestricted.
Proof.
  intros H. specialize (H 0 1 0 sfstart_ops). pose proof submit_bound_needs_env. lia.
Qed.

(* "its failed or submit-failed output is completed (and the corresponding
   children spawned) only when no retry remains": in any step in which the
   failed output becomes complete or its children are spawned, next() of the
   execution timer returned None (no timer, or num >= len(delays)). *)
Theorem c02_failed_only_when_exhausted : forall t m f n,
  let p := process_message t m f n in
  (In (ESpawn OFailed) (snd p) \/ (In OFailed (outs (fst p)) /\ ~ In OFailed (outs t))) ->
  no_next (texec t) = true.
Proof. exact (pm_fail_only_exhausted false). Qed.
Theorem c02_submit_failed_only_when_exhausted : forall t m f n,
  let p := process_message t m f n in
  (In (ESpawn OSubmitFailed) (snd p) \/
   (In OSubmitFailed (outs (fst p)) /\ ~ In OSubmitFailed (outs t))) ->
  no_next (tsub t) = true.
Proof. exact (pm_fail_only_exhausted true). Qed.

(* and in every reachable state the final failure statuses mean "exhausted" *)
Theorem c02_failure_status_exhausted : forall n m k ops,
  let t := final (fresh n m k) ops in
  (st t = Failed -> no_next (texec t) = true) /\
  (st t = SubmitFailed -> no_next (tsub t) = true).
Proof.
  intros. pose proof (wf_run n m k ops) as W. fold t in W.
  split; [apply (wf_failed t W)|apply (wf_subfailed t W)].
Qed.

(* a retry is scheduled exactly by one successful next() of its timer, and puts
   the task back to waiting *)
Theorem c02_retry_effect : forall t m f n b,
  In (ERetry b) (snd (process_message t m f n)) ->
  let t' := fst (process_message t m f n) in
  st t' = Waiting /\
  exists x', next_of (if b then tsub t else texec t) = Some x' /\
             (if b then tsub t' else texec t') = Some x'.
Proof. exact pm_retry_effect. Qed.

(* "no task instance is submitted more than once per flow, except for
   configured automatic retries" (task level): the submit number changes only
   by a job preparation of a waiting task, by one, and after the first
   submission only when a retry is lined up. *)
Theorem c02_resubmission_only_by_retry : forall n m k pre o,
  let t := final (fresh n m k) pre in
  sn (fst (step t o)) <> sn t ->
  o = OpPrep /\ st t = Waiting /\ sn (fst (step t o)) = S (sn t) /\
  (sn t = 0 \/ retry_lined_up t = true).
Proof. intros n m k pre o t. apply step_new_submission. apply wf_run. Qed.

(* N=1, M=1: the bound 4 is attained by a consistent history *)
Example c02_ex_bound_attained :
  let ops := [OpPrep; OpSubRes false; OpPrep; OpSubRes true; OpMsg MStarted Received 0%Z;
              OpMsg MFailed Received 0%Z; OpPrep; OpSubRes false; OpPrep;
              OpMsg MFailed Polled 0%Z; OpPrep] in
  env_run (fresh 1 1 0) ops = true /\ sn (final (fresh 1 1 0) ops) = 4 /\
  st (final (fresh 1 1 0) ops) = Failed.
Proof. vm_compute. auto. Qed.
Example c02_ex_failed_children :
  snd (process_message (final (fresh 0 0 0) [OpPrep; OpMsg MStarted Received 0%Z]) MFailed Received 1%Z)
  = [ESpawn OFailed].
Proof. vm_compute. reflexivity. Qed.

(* Scheduler level, over the pool automaton (Model/Pool.v); names are qualified because Pool.v and
   TaskMsg.v share some identifiers. *)
From Cylc Require Model.Pool Proofs.PoolProofs Proofs.PoolTheorems.

(* In every reachable state of the pool automaton the submission log has no
   repetition: no instance is ever submitted twice under one submit number. *)
Theorem c02_pool_submissions_distinct : forall c tr s,
  PoolProofs.exec c (Pool.init_state c) tr = Some s -> NoDup (Pool.subs s).
Proof. exact PoolTheorems.submissions_distinct. Qed.

(* A submission is accepted only while the instance has been submitted fewer
   than (N+1)(M+1) times, unless it was manually triggered. *)
Theorem c02_pool_submit_within_try_bound : forall c s t sn0 s',
  Pool.step c s (Pool.ESubmit t sn0) = Pool.Ok s' ->
  exists p i, Pool.find_task (Pool.pool s) t = Some p /\ Pool.find_inst (Pool.c_insts c) t = Some i /\
    (Pool.p_manual p = true \/
     (count_true (fun x => Pool.tid_eqb (fst x) t) (Pool.subs s) < Pool.i_tries i)%nat) /\
    ~ In (t, sn0) (Pool.subs s).
Proof. exact PoolTheorems.submit_within_try_bound. Qed.
