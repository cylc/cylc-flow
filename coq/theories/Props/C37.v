(* Props/C37.v — C37 "Template variables survive restart unchanged".
   Property theorems; the lemmas behind them are in Proofs/PyLitProofs.v.  The model
   (Model/PyLit.v: CPython repr of literal values, the canonical sub-language
   of ast.literal_eval, eval_var with its acceptance check, the restart loader)
   is tied to workflow_db_mgr.put_workflow_template_vars, templatevars.eval_var
   and Scheduler._load_template_vars by the C37 correspondence stream.

   Since /repo 7f9125e eval_var refuses a value whose repr it cannot read back,
   so "accepted at first start" already excludes inf, -inf, nan and Ellipsis.

   External behaviour enters as Section variables, never as axioms:
     F, frepr, fparse   CPython floats, float.__repr__ and float(token)
     printable          str.isprintable
     ffinite            CPython's classification of floats
   with the single hypothesis H_float: a finite float prints as a number token
   (digits . e + -, not an integer literal) which float() maps back to it, and
   the other floats print as inf, -inf or nan. *)
From Coq Require Import List Bool Arith ZArith Lia.
From Cylc Require Import Base.Util Model.PyLit Proofs.PyLitProofs.
Import ListNotations.

(* Every value ACCEPTED by eval_var at first start - whatever text it was
   written as, and with no restriction on its floats - is read back from the
   text stored in the database (its repr) as the identical value of the
   identical type, and eval_var accepts that text again on restart.  Values:
   None, bool, int of any size, float, str over all code points with any
   quotes / backslashes / control / non-printable characters, list / tuple /
   set / dict nested to any depth.  [swf] only asks for code points in
   0..0x10FFFF. *)
Theorem c37_roundtrip :
  forall (F : Type) (frepr : F -> text) (fparse : text -> option F)
         (printable : Z -> bool) (ffinite : F -> bool),
    (forall f, if ffinite f
               then float_token (frepr f) = true /\ fparse (frepr f) = Some f
               else nonfinite_text (frepr f) = true) ->
    forall v, accepted F frepr fparse printable v -> swf F v = true ->
      parse F fparse (repr F frepr printable v) = Some v /\
      eval_var F frepr fparse printable (repr F frepr printable v) = Some v.
Proof. exact accepted_roundtrip. Qed.

(* The acceptance check refuses nothing it should keep: the canonical text of
   every value with finite floats is accepted (and read as that value). *)
Theorem c37_finite_values_accepted :
  forall (F : Type) (frepr : F -> text) (fparse : text -> option F)
         (printable : Z -> bool) (ffinite : F -> bool),
    (forall f, if ffinite f
               then float_token (frepr f) = true /\ fparse (frepr f) = Some f
               else nonfinite_text (frepr f) = true) ->
    forall v, vwf F ffinite v = true ->
      eval_var F frepr fparse printable (repr F frepr printable v) = Some v.
Proof.
  intros F frepr fparse printable ffinite H v Hw. unfold eval_var.
  now rewrite !(parse_repr F frepr fparse printable ffinite H v Hw).
Qed.

(* Restart: with the accepted variables [vs] stored at first start and [cli]
   given again on the command line, the loader succeeds and every name has the
   command-line value if there is one (precedence), else the original value. *)
Theorem c37_restart_restores_and_cli_wins :
  forall (F : Type) (frepr : F -> text) (fparse : text -> option F)
         (printable : Z -> bool) (ffinite : F -> bool),
    (forall f, if ffinite f
               then float_token (frepr f) = true /\ fparse (frepr f) = Some f
               else nonfinite_text (frepr f) = true) ->
    forall vs, vars_ok F frepr fparse printable vs -> forall cli,
      exists tv, restart F frepr fparse printable cli (store F frepr printable vs) = Some tv /\
        forall k, assoc Nat.eqb k tv =
                  match assoc Nat.eqb k cli with Some v => Some v | None => assoc Nat.eqb k vs end.
Proof. exact restart_store. Qed.

(* a name given again on the command line is not even evaluated from the DB *)
Theorem c37_cli_precedence :
  forall (F : Type) (frepr : F -> text) (fparse : text -> option F) (printable : Z -> bool)
         tv k v s rows,
    assoc Nat.eqb k tv = Some v ->
    restart F frepr fparse printable tv ((k, s) :: rows) = restart F frepr fparse printable tv rows.
Proof. intros F frepr fparse printable tv k v s rows H. cbn [restart]. now rewrite H. Qed.

(* Regression statement for the former findings (before 7f9125e these values
   were accepted and the restart then failed): a value containing the float
   whose repr is inf is refused at first start, whatever text it is written as
   and whatever float() and isprintable are (corpus "witness-inf"). *)
Theorem c37_nonfinite_rejected :
  forall (fparse : text -> option text) (printable : Z -> bool) s,
    eval_var text (fun t => t) fparse printable s <> Some (VFloat t_inf) /\
    eval_var text (fun t => t) fparse printable s <> Some (VList [VInt 1%Z; VFloat t_inf]).
Proof.
  intros fparse printable s.
  split; intros H; apply eval_var_inv in H as [_ [v' E]]; vm_compute in E; discriminate.
Qed.

(* non-vacuity: H_float is satisfiable, values are accepted, and the theorems
   apply to a nested value with every kind of string escape.
   A two-float world: true is the float 1.5e-07, false is inf *)
Definition c37_ex_tok : text := [49; 46; 53; 101; 45; 48; 55]%Z.      (* 1.5e-07 *)
Definition c37_ex_frepr (b : bool) : text := if b then c37_ex_tok else t_inf.
Definition c37_ex_ffinite (b : bool) : bool := b.
Definition c37_ex_fparse (t : text) : option bool := if text_eqb t c37_ex_tok then Some true else None.
Example c37_ex_H_float : forall f,
  if c37_ex_ffinite f
  then float_token (c37_ex_frepr f) = true /\ c37_ex_fparse (c37_ex_frepr f) = Some f
  else nonfinite_text (c37_ex_frepr f) = true.
Proof. intros [|]; vm_compute; auto. Qed.

Definition c37_ex_val : pyval bool :=
  VDict [(VStr [97; 39; 34; 92; 10; 0; 127; 160; 233; 8232; 55296; 128512; 917505]%Z,
          VList [VInt (-12345678901234567890123456789012345678901234567890)%Z;
                 VFloat true; VNone; VBool true; VTuple [VInt 1%Z]; VTuple []; VSet [];
                 VSet [VInt 1%Z; VStr []]; VDict []])].
Definition c37_ex_printable (c : Z) : bool := negb (mem Z.eqb c [160; 8232; 55296; 917505]%Z).
Example c37_ex_wf : vwf bool c37_ex_ffinite c37_ex_val = true /\ swf bool c37_ex_val = true.
Proof. vm_compute. auto. Qed.
Example c37_ex_accepted :
  eval_var bool c37_ex_frepr c37_ex_fparse c37_ex_printable
           (repr bool c37_ex_frepr c37_ex_printable c37_ex_val) = Some c37_ex_val.
Proof. vm_compute. reflexivity. Qed.
(* the text 1e999 reads as the float inf (float() of it is inf), whose repr is
   not readable: refused at first start *)
Example c37_ex_inf_rejected :
  eval_var bool c37_ex_frepr (fun t => Some false) c37_ex_printable [49; 101; 57; 57; 57]%Z = None.
Proof. vm_compute. reflexivity. Qed.
