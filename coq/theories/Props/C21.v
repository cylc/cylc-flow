(* Props/C21.v — C21 "Database writes are atomic and the public database converges".
   The lemmas behind the property theorems are in Proofs/DbProofs.v.  The model
   (Model/Db.v) is tied to cylc/flow/rundb.py and workflow_db_mgr.py by the C21
   correspondence stream (real DAO/manager on sqlite files, faults injected at
   every statement/row position, real EXCLUSIVE locks).

   Vocabulary (Proofs/DbProofs.v):
     apply_batch sch d b   the batch b executed on its own in one transaction
     apply_seq sch d bs    the batches bs executed one after the other
     commutes sch d bs     the merged batch (concat bs) has the same effect on d as apply_seq
     synced sch m          private = public, both queues empty, n_tries = 0
     run_hist sch max m [] h   the manager after the history h of HProc batch public-fault
                           (process_queued_ops, private write succeeds) and HHealth
                           (recover_pub_from_pri) events, with the batches still outstanding for public *)
From Coq Require Import List Bool Arith ZArith Lia.
From Cylc Require Import Base.Util Model.Db Proofs.DbProofs.
Import ListNotations.

(* A failure at ANY statement index k of the batch (k = number of statements:
   the commit), after ANY number j of rows of that statement, makes
   process_queued_ops raise and leaves the private (and the public) database
   exactly as it was; the batch stays queued. *)
Theorem c21_private_atomic : forall sch ops k j fpub m m' o,
  stmts (enq_all sch (d_q (m_pri m)) ops) <> [] ->
  k <= length (stmts (enq_all sch (d_q (m_pri m)) ops)) ->
  process sch ops (Some (k, j)) fpub m = (m', o) ->
  o = ORaised /\ d_db (m_pri m') = d_db (m_pri m) /\ d_db (m_pub m') = d_db (m_pub m) /\
  d_q (m_pri m') = enq_all sch (d_q (m_pri m)) ops.
Proof.
  intros sch ops k j fpub m m' o Hne Hk. unfold process.
  rewrite (exec_fault_outcome sch false k j (with_q (m_pri m) (enq_all sch (d_q (m_pri m)) ops)) Hne Hk).
  intros [= <- <-]. cbn. auto.
Qed.

(* For either DAO: whatever the fault, a write that does not commit changes
   neither the database nor the queues; a write that commits has executed
   every queued statement (all or nothing). *)
Theorem c21_write_all_or_nothing : forall sch pub f d d' o,
  exec_queued sch pub f d = (d', o) ->
  (o <> OOk -> d_db d' = d_db d /\ d_q d' = d_q d) /\
  (o = OOk -> d_db d' = run sch (d_db d) (flat (stmts (d_q d))) /\
              d_q d' = clear_queues (d_q d) /\ d_tries d' = 0).
Proof.
  intros sch pub f d d' o H. apply exec_queued_cases in H. split.
  - intros Ho. destruct o; [congruence|destruct H as [_ ->]|destruct H as (_ & _ & ->)|destruct H as (_ & _ & _ & ->)];
      auto.
  - intros ->. destruct H as [_ ->]. auto.
Qed.

(* Along every history: the public DAO's queue is exactly the outstanding
   batches merged, n_tries is their number, a failed public write changes
   nothing but n_tries, and the next public write that goes through applies the
   retained items together with the new ones and resets n_tries. *)
Theorem c21_public_retry : forall sch max m0 h m pend,
  synced sch m0 -> run_hist sch max m0 [] h = (m, pend) ->
  d_q (m_pub m) = enq_all sch (qempty sch) (concat pend) /\
  d_tries (m_pub m) = length pend /\
  forall b f m' o, process sch b None f m = (m', o) ->
    match o with
    | ORetry => d_db (m_pub m') = d_db (m_pub m) /\
                d_q (m_pub m') = enq_all sch (qempty sch) (concat (pend ++ [b])) /\
                d_tries (m_pub m') = S (length pend)
    | ORaised => False
    | _ => d_db (m_pub m') = apply_batch sch (d_db (m_pub m)) (concat (pend ++ [b])) /\
           d_q (m_pub m') = qempty sch /\ d_tries (m_pub m') = 0
    end.
Proof.
  intros sch max m0 h m pend Hs Hr.
  pose proof (hist_inv _ _ _ _ _ _ _ (synced_hinv _ _ Hs) Hr) as Hi.
  split; [apply Hi|]. split; [apply Hi|]. intros b f m' o Hp.
  destruct (process_step _ _ _ _ _ _ _ Hi Hp) as [_ Hst].
  destruct o; [| |exact Hst|].
  - destruct Hst as [(_ & Q & T & _) D]. auto.
  - destruct Hst as [(_ & Q & T & _) D]. auto.
  - destruct Hst as (_ & (_ & Q & T & _) & D). rewrite T, app_length, Nat.add_1_r. auto.
Qed.

(* The property as written: whenever no public write is outstanding, the
   public database equals the private one. *)
Definition c21_public_converges : Prop :=
  forall sch max m0 h m, synced sch m0 -> run_hist sch max m0 [] h = (m, []) ->
    d_db (m_pub m) = d_db (m_pri m).

(* It is FALSE of the faithful model (and of the code: corpus case
   "witness-merged-reorder"): one table (key, value) with primary key `key`;
   batch 1 inserts (1,5) while the public DB is locked, batch 2 deletes key 1.
   The public DAO executes the merged queue deletes-first, so (1,5) stays in
   the public DB and n_tries is back to 0. *)
Definition c21_w_sch : schema := [(2, [0])].
Definition c21_w_hist : hist :=
  [HProc [OInsD 0 [(0, Some 1%Z); (1, Some 5%Z)]] (Some (0, 0));
   HHealth;
   HProc [ODel 0 [(0, Some 1%Z)]] None].

Theorem c21_public_converges_refuted : ~ c21_public_converges.
Proof.
  intros H.
  specialize (H c21_w_sch 100 (init_mgr c21_w_sch) c21_w_hist
                (fst (run_hist c21_w_sch 100 (init_mgr c21_w_sch) [] c21_w_hist))).
  assert (S : synced c21_w_sch (init_mgr c21_w_sch)) by (repeat split).
  assert (R : run_hist c21_w_sch 100 (init_mgr c21_w_sch) [] c21_w_hist =
              (fst (run_hist c21_w_sch 100 (init_mgr c21_w_sch) [] c21_w_hist), []))
    by (vm_compute; reflexivity).
  specialize (H S R). vm_compute in H. discriminate.
Qed.

(* What holds instead: along histories in which every public write that went
   through had a commuting merged batch, private = public + outstanding
   batches; in particular they are equal whenever nothing is outstanding.
   Histories include the health check at any point, for any MAX_TRIES, so this
   holds across recoveries.  (Reordering inside the merged batch is the ONLY
   way to diverge: nothing is lost, duplicated or applied early.) *)
Theorem c21_public_converges_if_commuting : forall sch max m0 h m pend,
  synced sch m0 -> commuting_hist sch max m0 [] h -> run_hist sch max m0 [] h = (m, pend) ->
  d_db (m_pri m) = apply_seq sch (d_db (m_pub m)) pend.
Proof.
  intros sch max m0 h m pend Hs Hc Hr.
  apply (hist_converges _ _ _ _ _ _ _ (synced_hinv _ _ Hs) (proj1 Hs) Hc Hr).
Qed.

(* A syntactic sufficient condition for [commutes]: for every table the merged
   queue issues the same single-row statements in the same order as the
   batches would one after the other (e.g. insert-only tables, or batches
   touching different tables, or later batches that only add statement kinds
   executed later: deletes < inserts < updates). *)
Theorem c21_commuting_if_order_preserved : forall sch d bs,
  order_preserved sch (length d) bs -> commutes sch d bs.
Proof.
  intros sch d bs H. unfold commutes. rewrite apply_seq_run. unfold apply_batch. fold (batch_prims sch (concat bs)).
  apply run_ext. intros t Ht. rewrite (H t Ht), proj_concat, map_map. reflexivity.
Qed.

(* After max consecutive failed public writes recover_pub_from_pri
   re-synchronises: public = private, both queues empty (the retained public
   queue is dropped: fix fc5ba1e), n_tries = 0; the private side is untouched.
   Below the threshold it does nothing. *)
Theorem c21_converges_after_recover : forall sch max m0 h m pend,
  synced sch m0 -> run_hist sch max m0 [] h = (m, pend) -> max <= length pend ->
  synced sch (health max m) /\ m_pri (health max m) = m_pri m.
Proof.
  intros sch max m0 h m pend Hs Hr Hl.
  pose proof (hist_inv _ _ _ _ _ _ _ (synced_hinv _ _ Hs) Hr) as Hi.
  apply (health_synced sch max m pend Hi). destruct Hi as (_ & _ & -> & _). exact Hl.
Qed.

Theorem c21_no_recover_below_threshold : forall max m,
  d_tries (m_pub m) < max -> health max m = m.
Proof. exact health_below. Qed.

(* ... and the write after a recovery converges (before fix fc5ba1e this was
   refuted: the stale public queue was replayed on top of the copy; the witness
   is kept as corpus case "witness-stale-replay"). *)
Theorem c21_recovered_write_converges : forall sch max m0 h m pend b m' o,
  synced sch m0 -> run_hist sch max m0 [] h = (m, pend) -> max <= length pend ->
  process sch b None None (health max m) = (m', o) ->
  d_db (m_pub m') = d_db (m_pri m').
Proof.
  intros sch max m0 h m pend b m' o Hs Hr Hl Hp.
  destruct (c21_converges_after_recover sch max m0 h m pend Hs Hr Hl) as [Hsy _].
  exact (synced_write sch _ b m' o Hsy Hp).
Qed.

(* a history with a failed public write whose merged retry commutes:
   insert (1,5) [public locked], then insert (2,6) and update key 1 (its fault index 5
   lies beyond the two merged statements and the commit, so it does not fire) *)
Definition c21_ex_hist : hist :=
  [HProc [OInsD 0 [(0, Some 1%Z); (1, Some 5%Z)]] (Some (0, 0));
   HHealth;
   HProc [OInsD 0 [(0, Some 2%Z); (1, Some 6%Z)]; OUpd 0 [(1, Some 9%Z)] [(0, Some 1%Z)]] (Some (5, 0))].
Example c21_ex_commuting : commuting_hist c21_w_sch 3 (init_mgr c21_w_sch) [] c21_ex_hist.
Proof. vm_compute. repeat split. Qed.
Example c21_ex_result :
  let '(m, pend) := run_hist c21_w_sch 3 (init_mgr c21_w_sch) [] c21_ex_hist in
  pend = [] /\ d_db (m_pub m) = [[[Some 1%Z; Some 9%Z]; [Some 2%Z; Some 6%Z]]]
  /\ d_db (m_pri m) = d_db (m_pub m).
Proof. vm_compute. repeat split. Qed.
Example c21_ex_order_preserved :
  order_preserved c21_w_sch 1
    [[OInsD 0 [(0, Some 1%Z); (1, Some 5%Z)]];
     [OInsD 0 [(0, Some 2%Z); (1, Some 6%Z)]; OUpd 0 [(1, Some 9%Z)] [(0, Some 1%Z)]]].
Proof. intros t Ht. destruct t; [vm_compute; reflexivity|lia]. Qed.
(* the failing position really fails: fault at the commit of a one-statement batch
   (k = 1 = number of statements) *)
Example c21_ex_fault :
  snd (process c21_w_sch [OInsD 0 [(0, Some 1%Z); (1, Some 5%Z)]] (Some (1, 0)) None (init_mgr c21_w_sch)) = ORaised.
Proof. vm_compute. reflexivity. Qed.
(* the former stale-replay witness now converges: one insert outstanding, the
   public write fails once, MAX_TRIES = 1, recovery, then an empty write *)
Example c21_ex_recovery :
  let '(m, pend) := run_hist [(2, [])] 1 (init_mgr [(2, [])]) []
                      [HProc [OInsL 0 [Some 7%Z; Some 8%Z]] (Some (0, 0)); HHealth; HProc [] None] in
  pend = [] /\ d_db (m_pub m) = [[[Some 7%Z; Some 8%Z]]] /\ d_db (m_pri m) = d_db (m_pub m).
Proof. vm_compute. repeat split. Qed.
