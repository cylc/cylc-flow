(* Props/C46.v — C46 "Warm starts and start tasks run only what follows the start".
   In the pool automaton the configuration carries the start point [c_start];
   in the instance graph every dependency of an instance at or after the start
   point on an instance before it is marked pre-satisfied (like pre-initial ones). *)
From Coq Require Import List Bool ZArith.
From Cylc Require Import Base.Util Model.Pool Proofs.PoolProofs Proofs.PoolTheorems Props.C01.
Import ListNotations.
Open Scope Z_scope.

(* No task instance before the start point is ever spawned ... *)
Theorem c46_nothing_spawned_before_start_point : forall c s t fl sat0 held s',
  step c s (ESpawn t fl sat0 held) = Ok s' -> c_start c <= fst t.
Proof. intros c s t fl sat0 held s' H. apply step_spawn in H. tauto. Qed.

(* ... and a submission needs every prerequisite expression true over outputs
   really completed in the run or atoms marked pre-satisfied (pre-initial, or
   before the start point): dependencies on instances before the start point
   count as satisfied, and nothing else does. *)
Theorem c46_submit_needs_only_post_start_outputs : forall c tr1 tr2 t sn sf,
  exec c (init_state c) (tr1 ++ ESubmit t sn :: tr2) = Some sf ->
  exists s1 p i,
    exec c (init_state c) tr1 = Some s1 /\
    find_task (pool s1) t = Some p /\ find_inst (c_insts c) t = Some i /\
    valid_id c t /\ p_status p = Preparing /\
    (p_manual p = true \/
     forall e, In e (i_pre i) ->
       bx_holds (fun k => emitted tr1 k \/ In k (p_forced p)) e).
Proof. exact submit_only_when_satisfied. Qed.

(* Start tasks (--start-task) are not modelled: partial. *)

Example c46_ex_pre_start_spawn_rejected :
  run {| c_insts := c_insts C01.ex_cfg; c_points := [1; 2]; c_runahead := 1%nat; c_qlimits := [0%nat];
         c_icp := 1; c_fcp := 2; c_start := 2; c_future := [] |}
      [ESpawn C01.a [1%nat] [] false] = Some (0%nat, 106%nat).
Proof. vm_compute. reflexivity. Qed.
