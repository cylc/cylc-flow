(* Props/C22.v — C22 "Broadcasts override in precedence order and persist exactly".
   The lemmas the theorems share are in Proofs/BroadcastProofs.v.  The model
   (Model/Broadcast.v) is tied to cylc/flow/broadcast_mgr.py,
   broadcast_report.py and workflow_db_mgr.py by the C22 correspondence stream.

   Vocabulary.  The in-memory state [.broadcasts] is a dict point -> namespace
   -> nested settings; [get_leaf (pt :: ns :: path) (Node m)] is the value of
   the setting [path] broadcast to namespace [ns] at point [pt] (None if
   there is none).  [wf]: dict keys are unique.  [conf sect t]: the nested
   dict [t] follows a section/setting schema [sect] (the runtime spec that
   BroadcastConfigValidator enforces: a key path is either always a section
   or always a setting); [full sect] extends it with the point and namespace
   levels.  [inv (full sect) m] = wf + conf, an invariant of every reachable
   state (c22_reachable_inv). *)
From Coq Require Import List ZArith NArith Bool Arith.
From Cylc Require Import Base.Util Model.C3 Model.Broadcast Proofs.BroadcastProofs.
Import ListNotations.

(* The broadcast a task receives: for every setting path, the value is the
   LAST defined one in the order
     ('*', root) ... ('*', task), (cycle, root) ... (cycle, task)
   where root ... task is the reversed list of linearized ancestors:
   all-cycle broadcasts first, then the task's own cycle, each from root
   through the ancestors to the task itself. *)
Theorem c22_precedence : forall sect m anc cycle,
  inv (full sect) m -> sect [] = true -> forall p,
  get_leaf p (Node (get_broadcast m anc cycle)) =
  last_defined (map (fun cn => get_leaf (fst cn :: snd cn :: p) (Node m)) (prec_order anc cycle)) None.
Proof.
  intros sect m anc cycle Hi Hs p. unfold get_broadcast.
  rewrite (proj2 (fold_addict_spec sect _ Hs (sources_ok sect m anc cycle Hi Hs))).
  rewrite bc_sources_prec, map_flat_map. apply apply_leaf_flat_map.
  intros cn b. apply (source_spec sect m _ _ Hi Hs).
Qed.

(* ... and the runtime configuration is the static one overridden by it. *)
Theorem c22_rtconfig_overrides : forall sect static m anc cycle,
  inv (full sect) m -> sect [] = true -> wf (Node static) -> conf sect (Node static) -> forall p,
  get_leaf p (Node (updated_rtconfig static m anc cycle)) =
  orelse (get_leaf p (Node (get_broadcast m anc cycle))) (get_leaf p (Node static)).
Proof.
  intros sect static m anc cycle Hi Hs Hws Hcs p. unfold updated_rtconfig.
  destruct (fold_addict_spec sect _ Hs (sources_ok sect m anc cycle Hi Hs)) as [[Hwg Hcg] _].
  destruct (leafstep_addict sect (get_broadcast m anc cycle) Hwg Hcg static (conj Hws Hcs)) as [_ G].
  apply G.
Qed.

(* Highest precedence: a setting broadcast to the task itself at its own
   cycle always wins. *)
Theorem c22_own_cycle_task_wins : forall sect m task rest cycle p v,
  inv (full sect) m -> sect [] = true ->
  get_leaf (cycle :: task :: p) (Node m) = Some v ->
  get_leaf p (Node (get_broadcast m (task :: rest) cycle)) = Some v.
Proof.
  intros sect m task rest cycle p v Hi Hs E. rewrite (c22_precedence sect) by assumption.
  (* (cycle, task) comes last in the order *)
  unfold prec_order. cbn [rev]. rewrite (map_app (pair cycle)), app_assoc, map_app, last_defined_app.
  unfold last_defined at 1. cbn [map fold_left fst snd]. now rewrite E.
Qed.

(* Clearing removes exactly the targeted settings: a leaf disappears iff its
   point is selected (or no points given), its namespace is selected (or
   none given) and its key path is one of the cancel settings' (or none
   given); every other leaf keeps its value.  Holds for either iterator. *)
Theorem c22_clear_exact : forall ci pts nss cancel st, wf (Node (s_mem st)) -> forall p,
  get_leaf p (Node (s_mem (fst (clear_with ci pts nss cancel st)))) =
  if targeted pts nss (cancel_keys cancel) p then None else get_leaf p (Node (s_mem st)).
Proof.
  intros ci pts nss cancel st Hw p. rewrite clear_with_mem.
  exact (proj2 (clear_mem_spec _ _ Hw) p).
Qed.

(* Expiry removes only the settings of cycle-specific points earlier than
   the cutoff ([expired (Some c) k] is true exactly for [k = KInt z], z < c;
   never for '*'); with no cutoff everything goes. *)
Theorem c22_expire_exact : forall ci cutoff st, wf (Node (s_mem st)) -> forall pt ns rest,
  get_leaf (pt :: ns :: rest) (Node (s_mem (fst (expire_with ci cutoff st)))) =
  if expired cutoff pt then None else get_leaf (pt :: ns :: rest) (Node (s_mem st)).
Proof.
  intros ci cutoff st Hw pt ns rest. unfold expire_with.
  remember (filter (expired cutoff) (map fst (s_mem st))) as pts eqn:Ep.
  (* the points cleared are the expired ones that have an entry; an expired
     point without an entry has no leaves anyway *)
  assert (Hpts : mem key_eqb pt pts = true <-> In pt (map fst (s_mem st)) /\ expired cutoff pt = true)
    by (rewrite Ep, mem_key_In; apply filter_In).
  assert (E : (if mem key_eqb pt pts then None else get_leaf (pt :: ns :: rest) (Node (s_mem st))) =
              if expired cutoff pt then None else get_leaf (pt :: ns :: rest) (Node (s_mem st))).
  { destruct (mem key_eqb pt pts).
    - destruct Hpts as [[_ ->] _]; reflexivity.
    - destruct (expired cutoff pt); [|reflexivity]. apply get_leaf_absent_key.
      intros Hin. destruct Hpts as [_ Hpts]. discriminate Hpts. auto. }
  rewrite <- E. destruct pts as [|k0 l]; [reflexivity|].
  rewrite c22_clear_exact by exact Hw. cbn [targeted cancel_keys flat_map sel sel_path].
  now rewrite !andb_true_r.
Qed.

Theorem c22_expired_only_earlier_points : forall c k,
  expired (Some c) k = true <-> exists z, k = KInt z /\ (z < c)%Z.
Proof.
  intros c k. destruct k as [|z|n]; cbn; split; try discriminate.
  - intros [z [E _]]. discriminate.
  - intros H. exists z. split; [reflexivity|now apply Z.ltb_lt].
  - intros [z' [E H]]. inversion E; subst. now apply Z.ltb_lt.
  - intros [z [E _]]. discriminate.
Qed.

(* A history is admissible for a schema when every setting that the
   validator accepted is a well-formed dict following the schema (and is
   [good]). *)
Definition c22_history_ok (sect : path -> bool) (good : tree -> Prop) (h : list op) : Prop :=
  sect [] = true /\ Forall (op_ok sect good) h.

(* The property as written: after ANY admissible history (multi-key setting
   dicts and empty dicts included) the state reloaded from the DB has
   exactly the leaves of the in-memory state. *)
Definition c22_db_roundtrip_statement : Prop :=
  forall sect tr h, c22_history_ok sect (fun _ => True) h ->
  forall p, get_leaf p (Node (load (s_db (run tr h)))) = get_leaf p (Node (s_mem (run tr h))).

(* It holds of the current code (get_broadcast_change_iter yields every leaf
   of each modified setting since repo commit bdf8ea5), for all histories of
   put/clear/expire/flush with any points, namespaces and nested settings. *)
Theorem c22_db_roundtrip : c22_db_roundtrip_statement.
Proof.
  intros sect tr h [Hs F]. apply (roundtrip_gen change_iter (fun _ => True) sect tr h); auto.
  exact ci_ok_current.
Qed.

(* Every reachable state satisfies the invariant the theorems above assume,
   and the DB holds exactly the in-memory leaves. *)
Theorem c22_reachable_inv : forall sect tr h, c22_history_ok sect (fun _ => True) h ->
  inv (full sect) (s_mem (run tr h)) /\
  forall p, db_get p (s_db (run tr h)) = get_leaf p (Node (s_mem (run tr h))).
Proof.
  intros sect tr h [Hs F].
  destruct (run_inv change_iter (fun _ => True) sect tr h ci_ok_current (fun _ _ _ => I) Hs F)
    as (I0 & _ & E).
  split; assumption.
Qed.

(* HISTORICAL: the iterator before the fix ([change_iter_pre_fix]).
   These theorems are about the OLD get_broadcast_change_iter, which followed
   only the first key of each nested dict.  They document the defect that
   was found (known finding, now fixed) and say nothing about the current
   code.  Witness: one put of {100: {101: v0, 102: v1}}
   (e.g. {'environment': {'A': .., 'B': ..}}) to point 3, namespace 1; with
   the old iterator the leaf 102 is in memory but not in the DB.  The same
   witness is a regression case in corpus() of vp/props/c22.py. *)
Definition c22_witness_sect : path -> bool :=
  fun p => match p with [] => true | [KName 100%N] => true | _ => false end.
Definition c22_witness_tree : C3.tree := [(0, []); (1, [0])].
Definition c22_witness_setting : tree :=
  Node [(KName 100%N, Node [(KName 101%N, Leaf 0%N); (KName 102%N, Leaf 1%N)])].
Definition c22_witness_hist : list op :=
  [Put [Some (KInt 3)] [KName 1%N] [Some c22_witness_setting]].

Lemma c22_witness_ok : c22_history_ok c22_witness_sect (fun _ => True) c22_witness_hist.
Proof.
  split; [reflexivity|]. constructor; [|constructor]. constructor; [|constructor].
  split; [|split; [|exact I]].
  - apply wf_single. constructor; [|repeat constructor].
    repeat constructor; cbn; [intros [[=]|[]]|intros []].
  - apply conf_single; [reflexivity|]. repeat constructor.
Qed.

Theorem c22_pre_fix_roundtrip_multikey_refuted :
  exists sect tr h, c22_history_ok sect (fun _ => True) h /\
  exists p, get_leaf p (Node (load (s_db (run_with change_iter_pre_fix tr h)))) <>
            get_leaf p (Node (s_mem (run_with change_iter_pre_fix tr h))).
Proof.
  exists c22_witness_sect, c22_witness_tree, c22_witness_hist. split; [exact c22_witness_ok|].
  exists [KInt 3; KName 1%N; KName 100%N; KName 102%N]. vm_compute. discriminate.
Qed.

(* the old iterator was right for histories whose accepted settings have
   exactly one leaf each ([single]: what `cylc broadcast -s` sends) *)
Theorem c22_pre_fix_roundtrip_single_leaf : forall sect tr h, c22_history_ok sect single h ->
  forall p, get_leaf p (Node (load (s_db (run_with change_iter_pre_fix tr h)))) =
            get_leaf p (Node (s_mem (run_with change_iter_pre_fix tr h))).
Proof.
  intros sect tr h [Hs F]. apply (roundtrip_gen change_iter_pre_fix single sect tr h); auto.
  - exact ci_ok_pre_fix.
  - exact single_chain.
Qed.

(* hierarchy root(0) <- FAM(1) <- a(2); settings {100: {101: v}} ("[environment]A") *)
Definition ex_tree : C3.tree := [(0, []); (1, [0]); (2, [1])].
Definition ex_env (v : N) : tree := Node [(KName 100%N, Node [(KName 101%N, Leaf v)])].
Definition ex_hist : list op :=
  [Put [Some KStar] [KName 0%N] [Some (ex_env 7)];              (* '*'/root  A=7 *)
   Put [Some (KInt 3)] [KName 1%N] [Some (ex_env 8)];           (* 3/FAM     A=8 *)
   Put [Some KStar; Some (KInt 1)] [KName 2%N] [Some (ex_env 9)];(* '*'/a, 1/a A=9 *)
   Flush].

Lemma ex_env_ok v : put_setting_ok c22_witness_sect single (Some (ex_env v)).
Proof.
  split; [|split].
  - apply (wf_chain [KName 100%N; KName 101%N]).
  - apply (conf_chain [KName 100%N; KName 101%N]). repeat split.
  - apply (single_chain (KName 100%N) [KName 101%N]).
Qed.
Example c22_ex_hist_ok : c22_history_ok c22_witness_sect single ex_hist.
Proof.
  split; [reflexivity|]. unfold ex_hist.
  repeat (apply Forall_cons;
          [cbn; try exact I; repeat (apply Forall_cons; [apply ex_env_ok|]); apply Forall_nil|]).
  apply Forall_nil.
Qed.
(* task a at cycle 3 gets FAM's cycle-3 value (own cycle beats '*' at the task itself) *)
Example c22_ex_get :
  get_leaf [KName 100%N; KName 101%N]
    (Node (get_broadcast (s_mem (run ex_tree ex_hist)) (ancestors ex_tree 2) (KInt 3))) = Some 8%N
  /\ get_leaf [KName 100%N; KName 101%N]
    (Node (get_broadcast (s_mem (run ex_tree ex_hist)) (ancestors ex_tree 2) (KInt 1))) = Some 9%N
  /\ get_leaf [KName 100%N; KName 101%N]
    (Node (get_broadcast (s_mem (run ex_tree ex_hist)) (ancestors ex_tree 1) (KInt 5))) = Some 7%N.
Proof. vm_compute. repeat split. Qed.
(* expire 2 removes point 1 only; '*' and point 3 stay *)
Example c22_ex_expire :
  flatten (Node (s_mem (fst (expire (Some 2%Z) (run ex_tree ex_hist))))) =
  [([KStar; KName 0%N; KName 100%N; KName 101%N], 7%N);
   ([KStar; KName 2%N; KName 100%N; KName 101%N], 9%N);
   ([KInt 3; KName 1%N; KName 100%N; KName 101%N], 8%N)].
Proof. vm_compute. reflexivity. Qed.
(* the current iterator writes both leaves of the old witness *)
Example c22_ex_witness_now :
  s_db (run c22_witness_tree c22_witness_hist) =
  [([KInt 3; KName 1%N; KName 100%N; KName 101%N], 0%N);
   ([KInt 3; KName 1%N; KName 100%N; KName 102%N], 1%N)].
Proof. vm_compute. reflexivity. Qed.
