(* Props/C04.v — C04 "Runahead limit is respected and never deadlocks a completable run". *)
From Coq Require Import List Bool ZArith.
From Cylc Require Import Base.Util Model.Pool Proofs.PoolProofs Proofs.PoolTheorems.
Import ListNotations.
Open Scope Z_scope.

(* [spec_limit] is the specification: with base = earliest pool point, the
   (n+1)-th smallest point of the workflow's recurrences at or after base (the
   last one if fewer, base itself if none), capped at the stop point. *)

(* The limit the scheduler computes is accepted only if it equals the
   specification for the current pool (with an empty pool any value is
   accepted: nothing can be released) -- or, faithfully to the code's early
   return (FINDING, see c04_limit_always_spec_refuted), if the previous limit
   already sits at the stop point and is simply kept. *)
Theorem c04_limit_is_spec : forall c s l s',
  step c s (ELimit l) = Ok s' -> pool s <> [] ->
  (l = spec_limit c s \/ (limit s = Some (stop_point s) /\ l = limit s)) /\ limit s' = l.
Proof.
  intros c s l s' H Hp. apply step_limit in H. destruct H as [[?|H] ->]; [contradiction|]. now split.
Qed.

(* A task leaves the runahead pool only if its point is within the limit last
   computed, unless it was manually triggered (or is an already finished task
   reloaded by a restart, which will not run). *)
Theorem c04_release_within_limit : forall c s t st h q s' p inp,
  step c s (EState t st h q false) = Ok s' ->
  lookup s t = Some (p, inp) -> p_runahead p = true -> p_manual p = false ->
  is_final (p_status p) = false ->
  exists l, limit s = Some l /\ fst (p_id p) <= l.
Proof. exact runahead_release_within_limit. Qed.

(* The limit is never below the earliest pool point: the earliest incomplete
   cycle is never blocked by the runahead limit ... *)
Theorem c04_limit_ge_base : forall c s b l,
  min_point (pool s) = Some b -> b <= stop_point s -> spec_limit c s = Some l -> b <= l.
Proof.
  unfold spec_limit. intros c s b l -> Hs [= <-]. apply Z.min_glb; [|exact Hs].
  etransitivity; [|apply Z.add_le_mono_l, max_future_nonneg]. rewrite Z.add_0_r.
  apply nth_or_last_ge; [|apply Z.le_refl]. intros x Hx. apply filter_In in Hx. destruct Hx as [_ Hx]. now apply Z.leb_le.
Qed.

(* ... it is a recurrence point at or after the base (or the base itself), pushed
   out by the largest future-trigger offset (a[+Pn] => t) among the pooled
   tasks -- which is what keeps a tight limit from deadlocking a task that waits
   for a future instance -- or the stop point ... *)
Theorem c04_limit_on_sequence : forall c s b l,
  min_point (pool s) = Some b -> spec_limit c s = Some l ->
  l = stop_point s \/ l = b + max_future c (pool s) \/
  (exists x, In x (c_points c) /\ b <= x /\ l = x + max_future c (pool s)).
Proof.
  unfold spec_limit. intros c s b l -> [= <-].
  destruct (Z.min_spec (nth_or_last (c_runahead c) (filter (fun x => b <=? x) (c_points c)) b + max_future c (pool s))
                       (stop_point s))
    as [[_ ->]|[_ ->]]; [|now left]. right.
  destruct (filter (fun x => b <=? x) (c_points c)) as [|x r] eqn:Ef.
  - left. destruct (c_runahead c); reflexivity.
  - right. assert (Hin : In (nth_or_last (c_runahead c) (x :: r) b) (x :: r)) by (apply nth_or_last_In; discriminate).
    rewrite <- Ef in Hin at 2. apply filter_In in Hin. destruct Hin as [H1 H2].
    eexists. split; [exact H1|]. split; [now apply Z.leb_le|reflexivity].
Qed.

(* ... where the adjustment is never negative and vanishes when no pooled task
   has a future trigger ... *)
Theorem c04_future_adjust_nonneg : forall c pl, 0 <= max_future c pl.
Proof. exact max_future_nonneg. Qed.
Theorem c04_future_adjust_none : forall c pl,
  (forall p, In p pl -> fut_of c p = 0) -> max_future c pl = 0.
Proof.
  unfold max_future. intros c pl. induction pl as [|p r IH]; cbn [fold_right]; intros H; [reflexivity|].
  rewrite (H p (or_introl eq_refl)), IH; [reflexivity|]. intros q Hq. apply H. now right.
Qed.

(* ... and a task within the limit is not left unreleased: every accepted tick
   end bounds the number of consecutive iterations a task may sit in the
   runahead pool although its point is within the limit (and likewise a ready
   task unqueued). *)
Theorem c04_no_starvation : forall c s snap hl hp s',
  step c s (ETickEnd snap hl hp) = Ok s' ->
  forall p, In p (pool s') -> (p_idle p < max_idle)%nat /\ (p_lag p < max_idle)%nat.
Proof. exact tick_end_progress. Qed.

(* base 2, P0, task 0 has a future trigger [+P1]: the limit is 3, so that 3/... can run for 2/0 *)
Example c04_ex_future :
  spec_limit {| c_insts := []; c_points := [1;2;3;4]; c_runahead := 0%nat; c_qlimits := [];
                c_icp := 1; c_fcp := 4; c_start := 1; c_future := [1] |}
    {| pool := [new_task (2, 0%nat) [1%nat] [] false]; limbo := []; hist := [];
       subs := []; limit := None; relq := []; abs_done := []; stop_point := 4; done := []; to_hold := []; hold_pt := None; saved := []; stop_mode := None; stop_task := None; crash_mode := false; bcast := 0%nat |} = Some 3.
Proof. vm_compute. reflexivity. Qed.

Example c04_ex_spec : 
  spec_limit {| c_insts := []; c_points := [1;2;3;4;5;6]; c_runahead := 2%nat; c_qlimits := [];
                c_icp := 1; c_fcp := 6; c_start := 1; c_future := [] |}
    {| pool := [new_task (2, 0%nat) [1%nat] [] false; new_task (3, 0%nat) [1%nat] [] false]; limbo := []; hist := [];
       subs := []; limit := None; relq := []; abs_done := []; stop_point := 6; done := []; to_hold := []; hold_pt := None; saved := []; stop_mode := None; stop_task := None; crash_mode := false; bcast := 0%nat |} = Some 4.
Proof. vm_compute. reflexivity. Qed.

(* FINDING (known, open): the full statement "the limit always equals the
   specification for the current pool" is false of the code, hence of the
   faithful automaton: compute_runahead returns early when the limit already
   equals the stop point, even if the earliest pool point has moved back since
   (which needs a manual trigger / set of an instance in an earlier cycle). *)
Definition c04_limit_always_spec_statement : Prop :=
  forall c tr s l s', exec c (init_state c) tr = Some s ->
    step c s (ELimit l) = Ok s' -> pool s <> [] -> l = spec_limit c s.

Definition c04_cfg : cfg :=
  {| c_insts := [ {| i_id := (1, 0%nat); i_pre := []; i_comp := CAtom 4%nat; i_queue := 0%nat; i_tries := 1%nat |};
                  {| i_id := (3, 0%nat); i_pre := []; i_comp := CAtom 4%nat; i_queue := 0%nat; i_tries := 1%nat |} ];
     c_points := [1; 2; 3]; c_runahead := 0%nat; c_qlimits := [0%nat]; c_icp := 1; c_fcp := 3; c_start := 1; c_future := [] |}.
Definition c04_witness : list event :=
  [ ESpawn (3, 0%nat) [1%nat] [] false; EAdd (3, 0%nat); ELimit (Some 3);
    ESpawn (1, 0%nat) [1%nat] [] false; EAdd (1, 0%nat) ].

Theorem c04_limit_always_spec_refuted : ~ c04_limit_always_spec_statement.
Proof.
  intros H.
  assert (Hr : run c04_cfg c04_witness = None) by (vm_compute; reflexivity).
  apply run_accepts in Hr. destruct Hr as [s Hs].
  assert (Hstep : exists s', step c04_cfg s (ELimit (Some 3)) = Ok s' /\ pool s <> [] /\ spec_limit c04_cfg s = Some 1).
  { revert Hs. vm_compute. intros [= <-]. eexists. split; [reflexivity|]. split; [discriminate|reflexivity]. }
  destruct Hstep as [s' [H1 [H2 H3]]].
  specialize (H c04_cfg c04_witness s (Some 3) s' Hs H1 H2). rewrite H3 in H. discriminate.
Qed.
