(* Props/C48.v — C48 "Installed run directories are numbered and runN tracks
   the latest".  The invariants and their preservation are in Proofs/InstallProofs.v.
   Model/Install.v models one workflow directory (numbered run dirs with a
   content stamp each, the runN symlink, named runs, a flat run, the
   _cylc-install/source link) and the operations install (numbered,
   --run-name, --no-run-name), reinstall, clean (run<k>, runN, named run, the
   whole workflow) and the two manual user actions `rm runN`, `rm -rf run<k>`.
   The model is tied to install.py / pathutil.get_next_rundir_number /
   clean.py by the C48 correspondence stream (outcome and directory listing
   compared after every step of generated histories).

   [run empty ops] is the state after the history [ops] starting from a
   workflow that has never been installed; [created s o] is the number K of
   the run dir that operation [o] creates in state [s] (None if it creates
   none; only numbered installs create numbered dirs). *)
From Coq Require Import List NArith Bool Arith.
From Cylc Require Import Base.Util Model.Install Proofs.InstallProofs.
Import ListNotations.
Open Scope N_scope.

(* The chosen run number is fresh: in every state reachable by ANY history of
   the modelled operations (manual removals included), if an install creates
   run K then K is exactly get_next_rundir_number's answer, run K does not
   exist, K exceeds every existing run number, K exceeds runN's target when
   that target exists; and when nothing was removed by hand runN never
   dangles, so K exceeds runN's target outright. *)
Theorem c48_fresh : forall ops o k,
  let s := run empty ops in
  created s o = Some k ->
  k = next_num s /\ ~ In k (nums s) /\ (forall j, In j (nums s) -> j < k) /\
  (forall t, runN s = Some t -> In t (nums s) -> t < k) /\
  (forallb (fun o => negb (manual_rm o)) ops = true -> forall t, runN s = Some t -> t < k).
Proof.
  intros ops o k s C. pose proof (inv_run ops empty inv_empty) as I. fold s in I.
  destruct (created_spec s o k C) as (-> & Hf & _).
  repeat split; auto.
  - apply next_above. exact I.
  - intros t R Ht. apply next_above; assumption.
  - intros F t R. apply next_above; [exact I|].
    apply (linked_run ops empty F linked_empty). exact R.
Qed.

(* A numbered install that reports success did create a run dir (so c48_fresh
   and c48_runN_latest apply to it). *)
Theorem c48_ok_install_creates : forall s src c,
  snd (step s (Install src c)) = Ok -> created s (Install src c) = Some (next_num s).
Proof.
  intros s src c H. cbn [step] in H.
  destruct (install_cases s src c) as (_ & _ & [(_ & [E|[E|E]] & _)|(C & _)]); [congruence..|exact C].
Qed.

(* runN tracks the latest: right after an install that creates run K, runN
   points to run K, run K exists, and K is the highest run number. *)
Theorem c48_runN_latest : forall ops o k,
  let s := run empty ops in
  created s o = Some k ->
  let s' := fst (step s o) in
  runN s' = Some k /\ In k (nums s') /\ (forall j, In j (nums s') -> j <= k).
Proof.
  intros ops o k s C s'. pose proof (inv_run ops empty inv_empty) as I. fold s in I.
  destruct (created_spec s o k C) as (E & Hf & R & c & En). subst s'.
  assert (Hin : In k (nums (fst (step s o)))).
  { unfold nums. rewrite En, map_app. apply in_or_app. right. left. reflexivity. }
  repeat split; auto.
  apply (inv_step s o I k R Hin).
Qed.

(* ... and between installs: after any history, a runN whose target exists
   points at the highest existing run; if no run dir was removed by hand, runN
   (when present) always has an existing target, which is the highest run.
   (Cleaning the latest run removes runN — clean.py "Remove runN symlink if
   it's now broken" — it is not re-pointed to an older run.) *)
Theorem c48_runN_invariant : forall ops,
  let s := run empty ops in
  (forall t, runN s = Some t -> In t (nums s) -> forall k, In k (nums s) -> k <= t) /\
  (forallb (fun o => negb (manual_rm o)) ops = true ->
   forall t, runN s = Some t -> In t (nums s) /\ forall k, In k (nums s) -> k <= t).
Proof.
  intros ops s. pose proof (inv_run ops empty inv_empty) as I. fold s in I. split; [exact I|].
  intros F t R. pose proof (linked_run ops empty F linked_empty t R) as L. fold s in L.
  split; [exact L|]. apply (I t R L).
Qed.

(* An install never overwrites (or removes) an existing run directory: in ANY
   state, reachable or not, after any kind of install — successful or failed —
   every numbered run, named run and flat run that existed still exists with
   the same content stamp, run numbers stay unique, and so the stamp found
   under an old number is the old stamp. *)
Theorem c48_no_overwrite : forall s o, is_install o = true ->
  let s' := fst (step s o) in
  (forall k c, In (k, c) (numbered s) -> In (k, c) (numbered s')) /\
  (forall j c, In (j, c) (named s) -> In (j, c) (named s')) /\
  (forall c, flat s = Some c -> flat s' = Some c) /\
  (forall k c c', In (k, c) (numbered s) -> In (k, c') (numbered s') -> NoDup (nums s) -> c' = c) /\
  (NoDup (nums s) -> NoDup (nums s')).
Proof.
  intros s o Hi s'. destruct (install_keeps s o Hi) as (E1 & E2 & E3). fold s' in E1, E2, E3.
  assert (A : forall k c, In (k, c) (numbered s) -> In (k, c) (numbered s')).
  { intros k c H. destruct E1 as [->|(k' & c' & -> & _)]; [|apply in_or_app]; auto. }
  assert (B : NoDup (nums s) -> NoDup (nums s')).
  { unfold nums. destruct E1 as [->|(k' & c' & -> & F)]; [auto|].
    intros N. rewrite map_app. apply NoDup_snoc; [exact N|exact F]. }
  repeat split.
  - exact A.
  - intros j c H. destruct E2 as [->|(e & ->)]; [|apply in_or_app]; auto.
  - intros c F. destruct E3 as [->|E3]; congruence.
  - (* run numbers are unique in [s'], so the stamp of run k is well defined *)
    intros k c c' H H' N.
    pose proof (NoDup_map_inj fst _ _ _ (B N) (A k c H) H' eq_refl) as E. congruence.
  - exact B.
Qed.

(* Numbers are never re-used: in every history that never removes the
   currently highest run (by cylc clean of it / of runN / of the whole
   workflow, or by hand), the numbers of the run dirs created, in order of
   creation, are strictly increasing starting above 0 — hence pairwise
   distinct.  (Re-use of the number of a removed highest run is by design:
   get_next_rundir_number only looks at what exists; see c48_ex_reuse.) *)
Theorem c48_no_reuse : forall ops, safe empty ops = true ->
  increasing_from 0 (created_list empty ops) /\ NoDup (created_list empty ops).
Proof.
  intros ops S.
  assert (H : increasing_from 0 (created_list empty ops)).
  { apply no_reuse_gen; [apply inv_empty|apply N.le_0_l|exact S]. }
  split; [exact H|]. eapply increasing_NoDup; eauto.
Qed.

Definition I0 := Install 0%nat.

(* run1, run2, run3 are created in order; cleaning run1 (not the highest) is a
   safe history; the next install is run4 and runN follows *)
Example c48_ex_numbering :
  let ops := [I0 1%nat; I0 2%nat; I0 3%nat; Clean (TNum 1); I0 5%nat] in
  safe empty ops = true /\ created_list empty ops = [1; 2; 3; 4] /\
  listing_of (run empty ops) =
    ([(2, 2%nat); (3, 3%nat); (4, 5%nat)], Some 4, [], None, Some 0%nat).
Proof. vm_compute. auto. Qed.

(* by design: after cleaning the highest run its number is used again (this
   history is not [safe], so c48_no_reuse does not apply to it) *)
Example c48_ex_reuse :
  let ops := [I0 1%nat; I0 2%nat; Clean (TNum 2); I0 4%nat] in
  safe empty ops = false /\ created_list empty ops = [1; 2; 2].
Proof. vm_compute. auto. Qed.

(* a manual `rm -rf run2` leaves runN dangling; the next install falls back to
   the directory names *)
Example c48_ex_dangling :
  let ops := [I0 1%nat; I0 2%nat; RmRun 2] in
  runN (run empty ops) = Some 2 /\ nums (run empty ops) = [1] /\ next_num (run empty ops) = 2.
Proof. vm_compute. auto. Qed.

(* named and numbered runs exclude each other; an install from another source
   fails only after creating the run dir *)
Example c48_ex_outcomes :
  map (fun p => outcome_code (snd p))
      [step (run empty [I0 1%nat]) (InstallNamed 0 0 2);
       step (run empty [InstallNamed 0 0 1]) (I0 2%nat);
       step (run empty [I0 1%nat]) (Install 1 2)]
  = [2; 1; 5]%nat /\
  nums (fst (step (run empty [I0 1%nat]) (Install 1 2))) = [1; 2].
Proof. vm_compute. auto. Qed.
