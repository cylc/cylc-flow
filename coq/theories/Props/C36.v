(* Props/C36.v — C36 "Configuration processing is idempotent".
   Model: Model/Parsec.v (fileparse.read_and_proc = read lines, inline include
   files, Jinja2, _concatenate, rstrip; the processed dump written by parse();
   parse()'s line parser), tied to cylc/flow/parsec/fileparse.py and include.py
   by the correspondence stream of vp/props/c36.py.  Jinja2 is the arbitrary
   function J, include files the arbitrary table fs; fuel bounds include nesting
   (S f = at least the top-level file can be read).

   [read_and_proc fuel fs J text]   the processed lines of a source text
   [dump L]                         the processed file parse() writes for lines L
   [parse fuel fs J text]           the parsed configuration *)
From Coq Require Import List ZArith Bool Lia.
From Cylc Require Import Base.Util Model.Parsec Proofs.ParsecProofs.
Import ListNotations.
Open Scope Z_scope.

(* The property as stated: parsing the processed dump gives the same
   configuration as parsing the source.  FALSE of the code as it is (see
   c36_idempotent_refuted), hence only a Definition. *)
Definition c36_parse_idempotent_unrestricted : Prop :=
  forall f fs J text L,
    read_and_proc (S f) fs J text = Ok L ->
    parse (S f) fs J (dump L) = parse (S f) fs J text.

(* witness:   [a]
              # see C:\dir\<space>
              x = 1
              y = 2                                                         *)
Definition w_text : str :=
  [91;97;93;10; 35;32;115;101;101;32;67;58;92;100;105;114;92;32;10; 120;32;61;32;49;10; 121;32;61;32;50;10].
Definition w_lines : list str :=
  [[91;97;93]; [35;32;115;101;101;32;67;58;92;100;105;114;92]; [120;32;61;32;49]; [121;32;61;32;50]].
Definition noJ : list str -> option (list str) := fun _ => None.

(* Refutation (the finding): the comment line ends in backslash + space, so it
   is not a continuation in the source, but rstrip (applied after _concatenate)
   leaves it ending in a backslash in the processed dump; processing the dump
   joins it with "x = 1", and the item x disappears from the configuration. *)
Theorem c36_idempotent_refuted :
  read_and_proc 1 [] noJ w_text = Ok w_lines /\
  read_and_proc 1 [] noJ (dump w_lines) <> Ok w_lines /\
  parse 1 [] noJ w_text = Ok [([97], Sect [([120], Leaf [49]); ([121], Leaf [50])])] /\
  parse 1 [] noJ (dump w_lines) = Ok [([97], Sect [([121], Leaf [50])])] /\
  ~ c36_parse_idempotent_unrestricted.
Proof.
  assert (A1 : read_and_proc 1 [] noJ w_text = Ok w_lines) by (vm_compute; reflexivity).
  assert (A3 : parse 1 [] noJ w_text = Ok [([97], Sect [([120], Leaf [49]); ([121], Leaf [50])])])
    by (vm_compute; reflexivity).
  assert (A4 : parse 1 [] noJ (dump w_lines) = Ok [([97], Sect [([121], Leaf [50])])])
    by (vm_compute; reflexivity).
  split; [exact A1|]. split; [vm_compute; discriminate|]. split; [exact A3|]. split; [exact A4|].
  intros H. specialize (H O [] noJ w_text w_lines A1). rewrite A3, A4 in H. discriminate.
Qed.

(* The restricted statement that holds, for every source, include table and
   Jinja2 behaviour: if no processed line ends in a backslash — and (what the
   include and Jinja2 steps cannot re-trigger) no processed line is an %include
   directive or contains a newline, and the first one is not a Jinja2 shebang:
   hypothesis [good_lines] — then processing the dump reproduces the processed
   lines exactly ... *)
Theorem c36_idempotent : forall f fs J text L,
  read_and_proc (S f) fs J text = Ok L -> L <> [] -> good_lines L = true ->
  read_and_proc (S f) fs J (dump L) = Ok L.
Proof. exact idempotent. Qed.

(* ... and parsing the dump yields exactly the configuration (or the error) that
   parsing the source yields — also for the empty file, whose dump is one
   empty line. *)
Theorem c36_parse_idempotent : forall f fs J text L,
  read_and_proc (S f) fs J text = Ok L -> good_lines L = true ->
  parse (S f) fs J (dump L) = parse (S f) fs J text.
Proof.
  intros f fs J text L Hrun Hg. unfold parse. rewrite Hrun. destruct L as [|x r].
  - rewrite dump_nil_lines. reflexivity.
  - rewrite (idempotent f fs J text (x :: r) Hrun) by (try discriminate; exact Hg). reflexivity.
Qed.

(* The same holds for ANY function of the processed lines that treats "no lines"
   like "one empty line" — so the result does not rest on the details (or the
   modelled fragment) of the line parser. *)
Theorem c36_any_parser_idempotent : forall (C : Type) (P : list str -> C) f fs J text L,
  P [[]] = P [] ->
  read_and_proc (S f) fs J text = Ok L -> good_lines L = true ->
  rmap P (read_and_proc (S f) fs J (dump L)) = rmap P (read_and_proc (S f) fs J text).
Proof.
  intros C P f fs J text L HP Hrun Hg. rewrite Hrun. destruct L as [|x r].
  - rewrite dump_nil_lines. cbn. now rewrite HP.
  - rewrite (idempotent f fs J text (x :: r) Hrun) by (try discriminate; exact Hg). reflexivity.
Qed.

(* Ingredients with their own meaning: processed lines never carry trailing
   whitespace, and a second rstrip changes nothing. *)
Theorem c36_output_rstripped : forall fuel fs J text L,
  read_and_proc fuel fs J text = Ok L -> forall x, In x L -> rstrip x = x.
Proof. intros fuel fs J text L. unfold read_and_proc. apply proc_lines_rstripped. Qed.

(* Non-vacuity: a source with an include, Jinja2 (oracle), a continuation line and a
   multi-line string whose processed lines satisfy [good_lines]:
     #!jinja2 / [a] / %include i / k = 1, \ /   2 / m = '''x / y'''          *)
Definition e_text : str :=
  [35;33;106;105;110;106;97;50;10; 91;97;93;10; 37;105;110;99;108;117;100;101;32;105;10;
   107;32;61;32;49;44;32;92;10; 32;32;50;10; 109;32;61;32;39;39;39;120;10; 121;39;39;39;10].
Definition e_files : files := [([105], [122;32;61;32;51;32;32;10])].       (* i: "z = 3  " *)
(* the Jinja2 oracle drops the shebang line *)
Definition e_J : list str -> option (list str) := fun l => Some (tl l).

Example c36_example :
  exists L, read_and_proc 2 e_files e_J e_text = Ok L /\ good_lines L = true /\
            List.length L = 5%nat /\
            parse 2 e_files e_J e_text =
              Ok [([97], Sect [([122], Leaf [51]); ([107], Leaf [49;44;32;32;32;50]);
                               ([109], Leaf [39;39;39;120;10;121;39;39;39])])] /\
            parse 2 e_files e_J (dump L) = parse 2 e_files e_J e_text.
Proof.
  eexists. split; [vm_compute; reflexivity|]. split; [vm_compute; reflexivity|].
  split; [reflexivity|]. split; [vm_compute; reflexivity|].
  apply c36_parse_idempotent; vm_compute; reflexivity.
Qed.

(* the witness is excluded by the hypothesis, and only by its backslash clause *)
Example c36_witness_excluded :
  good_lines w_lines = false /\ existsb ends_bs w_lines = true.
Proof. vm_compute. auto. Qed.
