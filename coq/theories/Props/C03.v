(* Props/C03.v — C03 "No premature shutdown and no false stall". *)
From Coq Require Import List Bool ZArith.
From Cylc Require Import Base.Util Model.Pool Proofs.PoolProofs Proofs.PoolTheorems.
Import ListNotations.
Open Scope Z_scope.

(* An automatic shutdown is accepted only when no pooled task is preparing,
   submitted or running, no waiting task has been released from the runahead
   pool, and nothing at or before the stop point is finished-but-incomplete
   (finished tasks that are complete are never retained, see C11) or waiting
   with partially satisfied prerequisites. *)
Theorem c03_no_premature_shutdown : forall c s s',
  step c s EShutdownAuto = Ok s' ->
  forall p, In p (pool s) ->
    is_active (p_status p) = false /\
    (p_status p = Waiting -> p_runahead p = true) /\
    (fst (p_id p) <= stop_point s ->
       is_final (p_status p) = false /\ (p_status p = Waiting -> p_sat p = [])).
Proof. exact auto_shutdown_guard. Qed.

(* One-step progress: every accepted tick end guarantees that no task has
   been ready (waiting, not held, not runahead-limited, all prerequisites
   true) yet unqueued for [max_idle] consecutive main-loop iterations, and
   queued tasks leave their queue as soon as the limit allows (C05). *)
Theorem c03_ready_tasks_get_queued : forall c s snap hl hp s',
  step c s (ETickEnd snap hl hp) = Ok s' ->
  forall p, In p (pool s') -> (p_idle p < max_idle)%nat.
Proof. intros c s snap hl hp s' H p Hp. exact (proj1 (tick_end_progress c s snap hl hp s' H p Hp)). Qed.

(* A task is queued only when it is really ready. *)
Theorem c03_queued_only_when_ready : forall c s t st h r s' p inp i,
  step c s (EState t st h true r) = Ok s' -> lookup s t = Some (p, inp) -> p_queued p = false ->
  p_manual p = false ->
  find_inst (c_insts c) t = Some i ->
  ready i (set_flags p h false r) = true.
Proof.
  intros c s t st h r s' p inp i H El Hq Hm Hi.
  destruct (step_state _ _ _ _ _ _ _ _ _ _ H El) as (i' & Hi' & _ & Hr & _).
  rewrite Hi in Hi'. injection Hi' as <-. destruct (Hr eq_refl Hq) as [?|R]; [congruence|exact R].
Qed.

(* The stall verdict itself (is_stalled) is checked on the implementation by
   the C03 oracle at every tick; it is not part of the automaton: partial. *)
