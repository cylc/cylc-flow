(* Props/C27.v — C27 "Reload preserves task state".

   Property text: reloading a workflow definition preserves every pooled task's status, flow numbers, submit
   number, held/queued/runahead flags and completed outputs, keeps the satisfaction of prerequisites that still
   exist in the new definition, and satisfies new prerequisites only from outputs already recorded.  Tasks whose
   definitions were removed are dropped only if they have not started.

   The model (Model/Reload.v: TaskPool._reload_taskdefs, TaskProxy.copy_to_reload_successor,
   TaskPool.check_task_output, queue_if_ready) is tied to /repo by the C27 correspondence streams: every real
   reload of the generated runs is recomputed by [reload_pool] and compared with the real pool inside Coq.
   All theorems quantify over ALL pools, definitions and database contents.

   "Dropped only if not started" is a theorem for all pools since /repo 9a9212a (before, a HELD orphan was
   dropped even when submitted/running: the removal test was `waiting or is_held or is_queued`; the old
   witness is kept as the regression Example [c27_ex_held_orphan_kept] and as a corpus case of the stream).

   One clause of the text is FALSE of the code (and of the faithful model); it is stated in full, refuted by
   a witness, and proved in the restricted form:
   - "queued flag preserved": the reload itself clears is_queued of every task ([c27_queued_refuted]); the main
     loop re-queues the ready ones later in the same iteration ([c27_requeue_restores]) but a task that was
     queued and held stays un-queued ([c27_held_queued_lost_refuted]). *)
From Coq Require Import List Bool NArith.
From Cylc Require Import Base.Util Model.Reload Proofs.ReloadProofs.
Import ListNotations.

(* The pool after the reload consists, in the same order, of exactly the tasks that are not (orphaned and
   waiting); ids are unchanged and stay unique; nothing is added. *)
Theorem c27_pool_after : forall d db pool,
  map p_id (reload_pool d db pool)
  = map p_id (filter (fun p => negb (orphan d p && removable p)) pool).
Proof. exact reload_pool_ids. Qed.

Theorem c27_pool_no_duplicates : forall d db pool,
  NoDup (map p_id pool) -> NoDup (map p_id (reload_pool d db pool)).
Proof. intros d db pool H. rewrite reload_pool_ids. apply NoDup_map_filter, H. Qed.

(* a task is dropped iff its definition was removed and it is waiting *)
Theorem c27_dropped_iff : forall d db pool p,
  NoDup (map p_id pool) -> In p pool ->
  (~ In (p_id p) (map p_id (reload_pool d db pool)) <-> orphan d p = true /\ p_status p = st_waiting).
Proof.
  intros d db pool p ND H. rewrite (dropped_spec d db pool p ND H). unfold removable.
  rewrite N.eqb_eq. tauto.
Qed.

(* a task that is still defined is never dropped *)
Theorem c27_defined_never_dropped : forall d db pool p,
  In p pool -> mem N.eqb (p_name p) (d_new d) = true ->
  In (p_id p) (map p_id (reload_pool d db pool)).
Proof.
  intros d db pool p H D. apply reload_pool_id_In. exists p. split; [exact H|split; [|reflexivity]].
  apply defined_survives; exact D.
Qed.

(* Every task that stays in the pool keeps its id, status, flow numbers, submit number, held and runahead flags,
   manual-submit flag and completed outputs ... *)
Theorem c27_task_state_preserved : forall d db pool p,
  In p pool -> negb (orphan d p && removable p) = true ->
  exists q, In q (reload_pool d db pool) /\
    p_id q = p_id p /\ p_status q = p_status p /\ p_flows q = p_flows p /\ p_submit q = p_submit p /\
    p_held q = p_held p /\ p_runahead q = p_runahead p /\ p_manual q = p_manual p /\ p_outputs q = p_outputs p.
Proof.
  intros d db pool p H S. exists (image d db p). split; [|apply image_core].
  apply reload_pool_In. eauto.
Qed.

(* ... and every task in the pool afterwards is such a task (nothing is invented). *)
Theorem c27_nothing_new : forall d db pool q,
  In q (reload_pool d db pool) ->
  exists p, In p pool /\ negb (orphan d p && removable p) = true /\
    p_id q = p_id p /\ p_status q = p_status p /\ p_flows q = p_flows p /\ p_submit q = p_submit p /\
    p_held q = p_held p /\ p_runahead q = p_runahead p /\ p_manual q = p_manual p /\ p_outputs q = p_outputs p.
Proof.
  intros d db pool q H. apply reload_pool_In in H. destruct H as (p & H1 & H2 & ->).
  exists p. split; [exact H1|]. split; [exact H2|]. apply image_core.
Qed.

(* A reloaded task has exactly the prerequisite keys of the new definition (same grouping, same order):
   removed prerequisites disappear, added ones appear. *)
Theorem c27_prereq_keys_are_the_new_definition : forall d db p,
  orphan d p = false ->
  map (map fst) (p_prereqs (image d db p)) = newpre_of d p.
Proof. intros d db p O. rewrite (image_defined _ _ _ O). apply reload_proxy_keys. Qed.

(* A key that existed before the reload keeps its satisfaction (when the old prerequisites agree on it; in
   general it takes the value of its last old occurrence, [c27_prereq_existing_general]). *)
Theorem c27_prereq_existing_kept : forall d db p k v v',
  orphan d p = false -> functional (concat (p_prereqs p)) ->
  In (k, v) (concat (p_prereqs p)) -> In (k, v') (concat (p_prereqs (image d db p))) -> v' = v.
Proof.
  intros d db p k v v' O F H H'. apply (image_prereqs _ _ _ _ _ O) in H'.
  destruct H' as [_ ->]. apply new_value_kept; assumption.
Qed.

Theorem c27_prereq_existing_general : forall d db p k v v',
  orphan d p = false ->
  In (k, v) (concat (p_prereqs p)) -> In (k, v') (concat (p_prereqs (image d db p))) ->
  In (k, v') (concat (p_prereqs p)).
Proof.
  intros d db p k v v' O H H'. apply (image_prereqs _ _ _ _ _ O) in H'.
  destruct H' as [_ ->]. exact (new_value_old db p k v H).
Qed.

(* and it is still there if the new definition has it *)
Theorem c27_prereq_existing_present : forall d db p k v,
  orphan d p = false -> functional (concat (p_prereqs p)) ->
  In (k, v) (concat (p_prereqs p)) -> In k (concat (newpre_of d p)) ->
  In (k, v) (concat (p_prereqs (image d db p))).
Proof.
  intros d db p k v O F H N. apply (image_prereqs _ _ _ _ _ O).
  split; [exact N|]. symmetry. apply new_value_kept; assumption.
Qed.

(* A NEW key is satisfied only if the output is recorded in task_outputs for flow numbers overlapping the task's. *)
Theorem c27_prereq_new_only_from_recorded : forall d db p k,
  orphan d p = false -> ~ In k (map fst (concat (p_prereqs p))) ->
  In (k, true) (concat (p_prereqs (image d db p))) -> recorded db k (p_flows p).
Proof.
  intros d db p k O N H. apply (image_prereqs _ _ _ _ _ O) in H.
  destruct H as [_ H]. rewrite (new_value_new db p k N) in H. apply check_output_sound. symmetry; exact H.
Qed.

(* ... and, when at most one row per task instance overlaps the task's flows, exactly then. *)
Theorem c27_prereq_new_iff_recorded : forall d db p k v,
  orphan d p = false -> ~ In k (map fst (concat (p_prereqs p))) -> one_overlap db (p_flows p) ->
  In (k, v) (concat (p_prereqs (image d db p))) -> (v = true <-> recorded db k (p_flows p)).
Proof.
  intros d db p k v O N U H. apply (image_prereqs _ _ _ _ _ O) in H.
  destruct H as [_ ->]. rewrite (new_value_new db p k N). split.
  - apply check_output_sound.
  - apply check_output_complete; exact U.
Qed.

(* a task in no flow never gets a new prerequisite satisfied *)
Theorem c27_prereq_new_no_flow : forall d db p k v,
  orphan d p = false -> ~ In k (map fst (concat (p_prereqs p))) -> p_flows p = [] ->
  In (k, v) (concat (p_prereqs (image d db p))) -> v = false.
Proof.
  intros d db p k v O N F H. apply (image_prereqs _ _ _ _ _ O) in H.
  destruct H as [_ ->]. rewrite (new_value_new db p k N), F. reflexivity.
Qed.

(* the clause of the property text: a task is dropped only if it has not started (for all pools) *)
Theorem c27_orphans_dropped_only_if_not_started : forall d db pool,
  NoDup (map p_id pool) ->
  forall p, In p pool -> ~ In (p_id p) (map p_id (reload_pool d db pool)) -> started p = false.
Proof.
  intros d db pool ND p H C. apply (dropped_spec d db pool p ND H) in C.
  destruct C as [_ R]. unfold removable in R. unfold started. rewrite R. reflexivity.
Qed.

(* the witness that refuted this clause before 9a9212a: task 1/1 is submitted (status 4) and held, its
   definition is removed *)
Definition c27_held_orphan : proxy := mkProxy (1, 1)%N 4%N [1%N] 1%N true false false false [0%N] [] false.

(* a started orphan stays (held or not), unchanged except that it will not spawn children *)
Theorem c27_started_orphan_kept : forall d db pool p,
  In p pool -> orphan d p = true -> started p = true ->
  exists q, In q (reload_pool d db pool) /\ p_id q = p_id p /\ p_status q = p_status p /\
            p_flows q = p_flows p /\ p_submit q = p_submit p /\ p_held q = p_held p /\ p_queued q = p_queued p /\
            p_runahead q = p_runahead p /\ p_outputs q = p_outputs p /\ p_prereqs q = p_prereqs p /\
            p_cut q = true.
Proof.
  intros d db pool p H O S. exists (image d db p). split.
  - apply reload_pool_In. exists p. split; [exact H|split; [|reflexivity]].
    unfold survives, removable. unfold started in S. apply negb_true_iff in S. rewrite O, S. reflexivity.
  - unfold image. rewrite O. cbn. repeat split; reflexivity.
Qed.

(* Reloading an unchanged definition (every pooled task defined, same prerequisite keys) changes nothing but
   the queued flag, which is cleared. *)
Theorem c27_unchanged_definition : forall d db pool,
  (forall p, In p pool -> mem N.eqb (p_name p) (d_new d) = true /\
                          newpre_of d p = map (map fst) (p_prereqs p) /\
                          functional (concat (p_prereqs p)) /\ p_cut p = false) ->
  reload_pool d db pool = map (fun p => set_queued p false) pool.
Proof.
  intros d db pool H. apply flat_map_single. intros p Hp.
  destruct (H p Hp) as (D & NP & F & C). apply reload_same_one; assumption.
Qed.

(* Reloading the same definition again (whatever the database has become) changes nothing more, except that
   the orphans kept by the first reload lose their (irrelevant) prerequisites and queued flag: the second time
   they are no longer recognised as orphans and are rebuilt from an empty implicit definition. *)
Theorem c27_reload_twice : forall d db db' pool,
  wf_def d ->
  reload_pool (settled d) db' (reload_pool d db pool) = map (forget_undefined d) (reload_pool d db pool).
Proof.
  intros d db db' pool W. unfold reload_pool at 1. apply flat_map_single. intros q Hq.
  apply reload_pool_In in Hq. destruct Hq as (p & _ & _ & ->). apply reload_twice_one, W.
Qed.

(* idempotence proper, when the first reload kept no orphan *)
Theorem c27_reload_idempotent : forall d db db' pool,
  wf_def d -> (forall p, In p pool -> orphan d p = true -> removable p = true) ->
  reload_pool (settled d) db' (reload_pool d db pool) = reload_pool d db pool.
Proof.
  intros d db db' pool W H. rewrite (c27_reload_twice _ _ _ _ W).
  rewrite <- (map_id (reload_pool d db pool)) at 2. apply map_ext_in. intros q Hq.
  apply reload_pool_In in Hq. destruct Hq as (p & Hp & S & ->). apply forget_id_when; [exact W|].
  destruct (orphan d p) eqn:O; [|reflexivity].
  unfold survives in S. rewrite O, (H p Hp O) in S. discriminate.
Qed.

Definition c27_queued_flag_preserved (d : newdef) (db : dbrows) (pool : list proxy) : Prop :=
  forall p q, In p pool -> In q (reload_pool d db pool) -> p_id q = p_id p -> p_queued q = p_queued p.

(* FALSE of TaskPool.reload: a queued waiting task of an unchanged definition comes out un-queued *)
Definition c27_queued_task (held : bool) : proxy :=
  mkProxy (1, 0)%N 0%N [1%N] 0%N held true false false [] [] false.

Theorem c27_queued_refuted : exists d db pool,
  NoDup (map p_id pool) /\ ~ c27_queued_flag_preserved d db pool.
Proof.
  exists (mkDef [0%N] [0%N] []), [], [c27_queued_task false]. split.
  - repeat constructor; intros [].
  - intros H. specialize (H (c27_queued_task false) (set_queued (c27_queued_task false) false)
                            (or_introl eq_refl) (or_introl eq_refl) eq_refl).
    vm_compute in H. discriminate.
Qed.

(* Later in the same main-loop iteration the scheduler visits the task again: a still-defined task that is
   waiting, not held, not runahead-limited, not manually triggered and ready is queued again. *)
Theorem c27_requeue_restores : forall d db p,
  mem N.eqb (p_name p) (d_new d) = true -> p_status p = st_waiting -> p_held p = false ->
  p_runahead p = false -> p_manual p = false ->
  p_queued (mainloop_visit true (image d db p)) = true.
Proof.
  intros d db p D W Hh Hr Hm. rewrite (image_defined _ _ _ (defined_not_orphan _ _ D)).
  unfold mainloop_visit, queue_if_ready. cbn. rewrite W, Hh, Hr, Hm. reflexivity.
Qed.

(* that visit changes nothing else *)
Theorem c27_iteration_end_state : forall r q,
  let q' := mainloop_visit r q in
  p_id q' = p_id q /\ p_status q' = p_status q /\ p_flows q' = p_flows q /\ p_submit q' = p_submit q /\
  p_held q' = p_held q /\ p_runahead q' = p_runahead q /\ p_manual q' = p_manual q /\
  p_outputs q' = p_outputs q /\ p_prereqs q' = p_prereqs q.
Proof.
  intros r q q'. subst q'. unfold mainloop_visit, queue_if_ready.
  destruct (negb (N.eqb (p_status q) st_waiting) || p_queued q || p_runahead q); [repeat split; reflexivity|].
  destruct (negb (p_queued q) && negb (p_runahead q) && negb (p_manual q) && (negb (p_held q) && r));
    repeat split; reflexivity.
Qed.

(* but a task that was queued AND held is not re-queued, whatever the rest of is_ready_to_run says:
   at the end of the iteration the queued flag is lost *)
Theorem c27_held_never_requeued : forall d db p r,
  mem N.eqb (p_name p) (d_new d) = true -> p_held p = true ->
  p_queued (mainloop_visit r (image d db p)) = false.
Proof.
  intros d db p r D Hh. rewrite (image_defined _ _ _ (defined_not_orphan _ _ D)).
  unfold mainloop_visit, queue_if_ready. cbn. rewrite Hh. cbn. rewrite andb_false_r.
  destruct (negb (N.eqb (p_status p) st_waiting) || false || p_runahead p); reflexivity.
Qed.

Theorem c27_held_queued_lost_refuted : exists d db p,
  p_queued p = true /\ defined d p = true /\
  forall r, p_queued (mainloop_visit r (image d db p)) <> p_queued p.
Proof.
  exists (mkDef [0%N] [0%N] []), [], (c27_queued_task true). split; [reflexivity|split; [reflexivity|]].
  intros r. rewrite c27_held_never_requeued; [discriminate|reflexivity|reflexivity].
Qed.

(* non-vacuity.  names: 0 = a, 1 = b (removed), 2 = c; messages: 0 = succeeded, 1 = started.
   Pool: 1/a waiting+queued with prerequisites (1/c:succeeded satisfied) and (0/b:succeeded unsatisfied);
         1/b running (orphan, kept); 2/b waiting (orphan, dropped); 1/c succeeded.
   New definition: b removed; 1/a now depends on 1/c:succeeded (kept) and 1/c:started (new, recorded in the DB)
   and no longer on 0/b. *)
Definition ex_pool : list proxy :=
  [ mkProxy (1, 0)%N 0%N [1%N] 0%N false true false false []
            [[((1, 2, 0)%N, true)]; [((0, 1, 0)%N, false)]] false;
    mkProxy (1, 1)%N 5%N [1%N] 1%N false false false false [1%N] [] false;
    mkProxy (2, 1)%N 0%N [1%N] 0%N false false true false [] [] false;
    mkProxy (1, 2)%N 7%N [1%N] 1%N false false false false [1; 0]%N [] false ].
Definition ex_def : newdef :=
  mkDef [0; 1; 2]%N [0; 2]%N [((1, 0)%N, [[(1, 2, 0)%N; (1, 2, 1)%N]]); ((1, 2)%N, [])].
Definition ex_db : dbrows := [((1, 2)%N, [([1%N], [1; 0]%N)])].

Example c27_ex_reload :
  reload_pool ex_def ex_db ex_pool =
  [ mkProxy (1, 0)%N 0%N [1%N] 0%N false false false false []
            [[((1, 2, 0)%N, true); ((1, 2, 1)%N, true)]] false;
    mkProxy (1, 1)%N 5%N [1%N] 1%N false false false false [1%N] [] true;
    mkProxy (1, 2)%N 7%N [1%N] 1%N false false false false [1; 0]%N [] false ].
Proof. vm_compute. reflexivity. Qed.

Example c27_ex_wf : wf_def ex_def.
Proof. intros i l [H|[H|[]]]; inversion H; reflexivity. Qed.

Example c27_ex_functional : forall p, In p ex_pool -> functional (concat (p_prereqs p)).
Proof.
  intros p [<-|[<-|[<-|[<-|[]]]]]; apply NoDup_keys_functional; cbn;
    repeat constructor; cbn; intuition discriminate.
Qed.

Example c27_ex_one_overlap : one_overlap ex_db [1%N].
Proof.
  intros i rows r1 r2 H. cbn in H. destruct (tid_eqb i (1, 2)%N); [|discriminate]. inversion H; subst.
  intros [<-|[]] [<-|[]] _ _. reflexivity.
Qed.

(* regression: the held, submitted orphan is kept (it was dropped before 9a9212a) *)
Example c27_ex_held_orphan_kept :
  reload_pool (mkDef [0; 1]%N [0%N] []) [] [c27_held_orphan]
  = [mkProxy (1, 1)%N 4%N [1%N] 1%N true false false false [0%N] [] true].
Proof. vm_compute. reflexivity. Qed.

(* an orphan is indeed dropped in the example, and it had not started *)
Example c27_ex_orphans : forall p, In p ex_pool ->
  ~ In (p_id p) (map p_id (reload_pool ex_def ex_db ex_pool)) -> started p = false.
Proof.
  apply c27_orphans_dropped_only_if_not_started.
  vm_compute. repeat constructor; cbn; intuition discriminate.
Qed.

Example c27_ex_dropped : ~ In (2, 1)%N (map p_id (reload_pool ex_def ex_db ex_pool)).
Proof. vm_compute. intuition discriminate. Qed.

(* the first task is re-queued later in the iteration *)
Example c27_ex_requeued :
  map p_queued (map (mainloop_visit true) (reload_pool ex_def ex_db ex_pool)) = [true; false; false].
Proof. vm_compute. reflexivity. Qed.

(* reloading twice: the kept orphan 1/b has no prerequisites here, so the pool is unchanged *)
Example c27_ex_twice :
  reload_pool (settled ex_def) [] (reload_pool ex_def ex_db ex_pool) = reload_pool ex_def ex_db ex_pool.
Proof. vm_compute. reflexivity. Qed.
