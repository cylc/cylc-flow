(* Props/C12.v — C12 "Required/optional output classification matches the
   expression".  The lemmas about the model are in Proofs/OptOutputsProofs.v.
   The model (Model/OptOutputs.v) is tied to task_outputs.get_optional_outputs,
   TaskOutputs.iter_required_messages, WorkflowConfig._check_completion_expression
   and run_modes.skip.process_outputs by the C12 correspondence streams. *)
From Coq Require Import List Bool Arith.
From Cylc Require Import Base.Util Model.BExpr Model.Completion Model.OptOutputs
  Proofs.BExprProofs Proofs.CompletionProofs Proofs.OptOutputsProofs.
Import ListNotations.

(* "For any valid completion expression, an output is classified required
   exactly when the expression is false whenever that output alone is missing
   (treating expired and submit-failed as absent), optional when it is
   referenced but not required, and unreferenced otherwise."

   What the code computes, for every And/Or expression whose names are
   outputs, every output set and every output: the truth value of the
   expression in the single state where everything except [o], expired and
   submit-failed (and the disabled output) is complete. *)
Theorem c12_classify_computes : forall e outs disable o,
  valid e outs ->
  classify (Some e) outs disable o =
  if uses e o then Opt (eval (missing_with disable o) e) else Unref.
Proof. exact classify_valid. Qed.

(* ... and because And/Or expressions are monotone, being false in that one
   state is the same as being false in EVERY state in which [o] is missing and
   the task neither expired nor submit-failed ([necessary]).  So:
   required  <=> referenced and necessary;
   optional  <=> referenced and not necessary;
   None      <=> not referenced. *)
Theorem c12_classification : forall e outs o,
  valid e outs ->
  (classify (Some e) outs None o = Opt false <-> In o (vars e) /\ necessary e o) /\
  (classify (Some e) outs None o = Opt true <-> In o (vars e) /\ ~ necessary e o) /\
  (classify (Some e) outs None o = Unref <-> ~ In o (vars e)).
Proof. exact classification. Qed.

(* The dict returned by get_optional_outputs holds exactly that classification
   for every output of the task and every name used, and nothing else. *)
Theorem c12_returned_dict : forall e outs disable r o,
  get_optional_outputs e outs disable = Some r ->
  assoc Nat.eqb o r =
  if mem Nat.eqb o (evars e ++ outs) then Some (classify e outs disable o) else None.
Proof. exact goo_lookup. Qed.

(* a valid expression never raises NameError *)
Theorem c12_valid_no_nameerror : forall e outs disable,
  valid e outs ->
  get_optional_outputs (Some e) outs disable =
  Some (map (fun o => (o, classify (Some e) outs disable o)) (keys (Some e) outs)).
Proof. exact goo_valid_some. Qed.

(* iter_required_messages yields exactly the registered outputs classified required *)
Theorem c12_iter_required : forall e outs d req o,
  iter_required e outs d = Some req ->
  (In o req <-> In o outs /\ classify e outs d o = Opt false).
Proof. exact iter_required_In. Qed.

(* "Validation accepts a user completion expression only if it is consistent
   with the optionality declared in the graph."  The four raise-tests of the
   consistency loop are the documented 9-row table, for every output and every
   (graph, expression) pair; [pre_exec v] is footnote [1]. *)
Theorem c12_validation_table : forall v g e,
  pair_ok v g e = table (pre_exec v) g e.
Proof. exact pair_ok_table. Qed.

(* the whole decision: accepted iff the expression evaluates and every output
   passes the table *)
Theorem c12_accept_iff_table : forall t e,
  check_completion t e = Accept <->
  exists r, get_optional_outputs (Some e) (map fst t) None = Some r /\
            forall v, In v (keys (Some e) (map fst t)) ->
                      table (pre_exec v) (gopt t v) (eopt (lookup_cls r v)) = true.
Proof. exact check_completion_accept. Qed.

(* consequence in semantic terms: in an accepted expression every output the
   graph requires is referenced and necessary for completion, and no
   referenced output the graph marks optional is necessary (outputs other than
   expired / submit-failed). *)
Theorem c12_accept_sound : forall t e o,
  valid e (map fst t) ->
  check_completion t e = Accept ->
  In o (map fst t) -> pre_exec o = false ->
  (gopt t o = Some false -> In o (vars e) /\ necessary e o) /\
  (gopt t o = Some true -> In o (vars e) -> ~ necessary e o).
Proof.
  intros t e o Hv (r & Hr & Hall)%check_completion_accept Ho Hpre.
  specialize (Hall o (proj2 (keys_In _ _ _) (or_intror Ho))).
  unfold lookup_cls in Hall.
  rewrite (goo_lookup _ _ _ _ o Hr), (proj2 (mem_nat_In _ _)), Hpre in Hall
    by (apply in_or_app; now right).
  destruct (classification e (map fst t) o Hv) as (Hreq & _ & _).
  split; intros Hg; rewrite Hg in Hall.
  - now apply Hreq, table_graph_required.
  - intros Hin Hnec. apply (table_graph_optional _ Hall). now apply Hreq.
Qed.

(* "the outputs that skip mode generates by default include every required
   output plus exactly one of succeeded/failed".

   Exactly one of succeeded/failed, for any [skip]outputs setting that does
   not name both (check_task_skip_config rejects that); `failed` is the one
   produced iff it is configured, or nothing is configured and `failed` is
   itself a required output ([emit_failed]; fix ac1cb29): *)
Theorem c12_skip_exactly_one : forall e outs conf l,
  skip_outputs e outs conf = Some l ->
  ~ (In SUCCEEDED conf /\ In FAILED conf) ->
  exists ef, emit_failed e outs conf = Some ef /\
    if ef then In FAILED l /\ ~ In SUCCEEDED l
    else In SUCCEEDED l /\ ~ In FAILED l.
Proof.
  intros e outs conf l (ef & req & Hef & _ & HI)%skip_outputs_Some Hnb.
  exists ef. split; [exact Hef|]. apply emit_failed_conf in Hef.
  (* the chosen outcome is put in; the other one could only come from the
     configured outputs, every other alternative is refuted by computation *)
  destruct ef; (split; [apply HI; auto 6|]);
    intros [H|[H|[[_ H]|[[_ H]|H]]]]%HI; try discriminate H.
  - destruct Hef as [Hf| ->]; [auto|destruct H].
  - now destruct Hef.
Qed.

(* Every required output is generated by default skip mode (this uses
   monotonicity: disabling one of succeeded/failed can only make more outputs
   required).  The only exclusion is an expression that requires BOTH
   succeeded and failed: then the two halves of the sentence contradict each
   other for any output set, and the code keeps "exactly one". *)
Theorem c12_skip_contains_all_required : forall e outs l o,
  valid e outs ->
  skip_outputs (Some e) outs [] = Some l ->
  ~ (In SUCCEEDED outs /\ classify (Some e) outs None SUCCEEDED = Opt false /\
     In FAILED outs /\ classify (Some e) outs None FAILED = Opt false) ->
  In o outs -> classify (Some e) outs None o = Opt false -> In o l.
Proof.
  intros e outs l o Hv (ef & req & Hef%emit_failed_default & Hreq & HI)%skip_outputs_Some
    Hboth Ho Hc.
  apply HI.
  destruct (Nat.eq_dec o FAILED) as [->|Hnf].
  { do 4 right. now rewrite (proj2 Hef). }
  destruct (Nat.eq_dec o SUCCEEDED) as [->|Hns].
  { do 4 right. destruct ef; [|reflexivity].
    exfalso. apply Hboth. destruct (proj1 Hef eq_refl). auto. }
  right; right; left. split; [|now apply skip_keeps_default].
  apply (iter_required_In _ _ _ _ o Hreq). split; [exact Ho|].
  now apply required_mono_disable.
Qed.

(* Link with C11: when the task has no user expression, every output that the
   GRAPH marks required (other than succeeded/failed) is generated by default
   skip mode — even when success is optional and the default expression
   "(x and succeeded) or failed" therefore classifies x as optional; this is
   what the `disable` argument is for.  (Excluded: the degenerate flag
   combination in which failure is tolerated and yet `failed` is necessary,
   e.g. succeeded optional + failed required: `failed` alone completes.) *)
Theorem c12_skip_default_expr_contains_graph_required : forall (t : tdef) e l o,
  In SUCCEEDED (map fst t) -> In FAILED (map fst t) ->
  default_expr t = Some e ->
  (fail_tolerated t = true -> classify (Some e) (map fst t) None FAILED <> Opt false) ->
  skip_outputs (Some e) (map fst t) [] = Some l ->
  In o (required t) -> o <> SUCCEEDED -> o <> FAILED -> In o l.
Proof. exact skip_default_graph_required. Qed.

Theorem c12_skip_defined : forall e outs conf,
  valid e outs -> exists l, skip_outputs (Some e) outs conf = Some l.
Proof.
  intros e outs conf Hv. unfold skip_outputs.
  destruct (emit_failed_valid e outs conf Hv) as [ef ->].
  destruct (iter_required_valid e outs (Some (skip_disable ef)) Hv) as [req ->]. eauto.
Qed.

(* non-vacuity: the doctests of get_optional_outputs.
   '(succeeded and (x or y)) or failed' : nothing is required *)
Definition ex1 := BOr (BAnd (BVar 4) (BOr (BVar 6) (BVar 7))) (BVar 5).
Example c12_ex1 :
  get_optional_outputs (Some ex1) [4;6;7;5;0] None =
  Some [(0, Unref); (4, Opt true); (5, Opt true); (6, Opt true); (7, Opt true)].
Proof. vm_compute. reflexivity. Qed.
(* '(succeeded and x and y) or expired' : succeeded, x, y required *)
Definition ex2 := BOr (BAnd (BAnd (BVar 4) (BVar 6)) (BVar 7)) (BVar 0).
Example c12_ex2 :
  get_optional_outputs (Some ex2) [4;6;7;5;0] None =
  Some [(0, Opt true); (4, Opt false); (5, Unref); (6, Opt false); (7, Opt false)].
Proof. vm_compute. reflexivity. Qed.
Example c12_ex2_valid : valid ex2 [4;6;7;5;0].
Proof. intros a Ha. cbn in Ha. right. cbn. tauto. Qed.
(* disable='failed' *)
Definition ex3 := BOr (BAnd (BVar 4) (BVar 6)) (BAnd (BVar 5) (BVar 7)).
Example c12_ex3 :
  get_optional_outputs (Some ex3) [4;6;5;7] (Some 5) =
  Some [(4, Opt false); (5, Opt true); (6, Opt false); (7, Opt true)].
Proof. vm_compute. reflexivity. Qed.
Example c12_ex_skip :
  skip_outputs (Some ex2) [0;1;2;3;4;5;6;7] [] = Some [1;3;4;6;7].
Proof. vm_compute. reflexivity. Qed.
(* regression witness of the fixed finding: completion "failed" (graph `a:fail => b`) *)
Example c12_ex_skip_failed_required :
  skip_outputs (Some (BVar FAILED)) [0;1;2;3;4;5] [] = Some [1;3;5].
Proof. vm_compute. reflexivity. Qed.
(* validation: x (6) required in the graph, succeeded optional *)
Definition ex_t : tdef :=
  [(0, None); (1, None); (2, None); (3, None); (4, Some false); (5, None); (6, Some true)].
Example c12_ex_reject :
  check_completion ex_t (BOr (BAnd (BVar 4) (BVar 6)) (BVar 5)) = RejectInconsistent.
Proof. vm_compute. reflexivity. Qed.
Example c12_ex_accept :
  check_completion ex_t (BAnd (BOr (BVar 4) (BVar 5)) (BVar 6)) = Accept.
Proof. vm_compute. reflexivity. Qed.
