(* Props/C15.v — C15 "Family triggers expand to all/any of the members' outputs".

   Model: Model/GraphBase.v (token-level model of GraphParser._proc_dep_pair,
   _families_all_to_all, _compute_triggers, _set_triggers, _set_output_opt) with
   the tables of Gen/FamTables.v, which vp/gen/famtables.py prints from the
   current source on every run.  The model is tied to graph_parser.py by the
   C15 correspondence stream (real parse_graph, compared inside Coq).

   "Documented" meaning of the qualifiers (Model/GraphExpr.v): for every entry
   q -> o of task_qualifiers.ALT_QUALIFIERS (succeed, fail, finish, start,
   submit, submit-fail, expire), FAM:q-all is the AND and FAM:q-any the OR, over
   the members m of FAM, of "m has output o" (finished = succeeded or failed).

   All theorems are statements about the *generated* tables: they are re-proved
   against whatever the source contains. *)
From Coq Require Import List Bool Arith String.
From Cylc Require Import Base.Util Gen.FamTables Model.GraphBase Model.GraphExpr Model.FamTrig
  Proofs.FamTrigProofs.
Import ListNotations.

(* The two family tables define exactly the 14 documented qualifiers. *)
Theorem c15_tables_cover_documented_qualifiers :
  let keys := map fst doc_fam_table in
  forallb (fun k => mem String.eqb k keys) (map fst fam_to_mem_trigger_map) = true
  /\ forallb (fun k => mem String.eqb k (map fst fam_to_mem_trigger_map)) keys = true
  /\ forallb (fun k => mem String.eqb k keys) (map fst fam_to_mem_output_map) = true
  /\ forallb (fun k => mem String.eqb k (map fst fam_to_mem_output_map)) keys = true.
Proof. vm_compute. auto. Qed.

(* LEFT SIDE, one family node.  For every qualifier q (with documented member
   output o), every family (any size >= 1: the proof is an induction on the
   member list), every offset and with or without "?": the text that replaces
   FAM[off]:q-all / FAM[off]:q-any in the trigger expression evaluates, under
   every assignment v of truth values to member outputs, to the AND / OR over
   the members of "member has o".
   This holds for all 14 qualifiers.  (Until /repo commit 399a6c1 the entry
   submit-fail-any mapped to member:submitted; the theorem then carried the
   exclusion `(q, all) <> ("submit-fail", false)` and a refutation theorem for
   that entry - finding c15:lhs-submit-fail-any-expands-to-submitted, fixed.) *)
Theorem c15_family_lhs : forall fm F ms off q o all opt v,
  In (q, o) alt_qualifiers ->
  fam_members fm F = Some ms -> ms <> [] ->
  exists toks atoms,
    expand_left fm [TN (mkNode F off (Some (fam_qual q all)) opt)] = Ok (toks, atoms)
    /\ eval_toks v toks
       = Some (if all then forallb (member_holds v off o) ms
               else existsb (member_holds v off o) ms).
Proof.
  intros fm F ms off q o all opt v Hq. apply family_lhs; [exact Hq|].
  exact (lhs_entries_ok q o all Hq).
Qed.

(* LEFT SIDE, any expression: family nodes (nested/overlapping families are just
   other entries of the family map), offsets, plain task triggers with alias /
   standard / custom qualifiers, combined with & | ( ).  If every node is
   accepted by the parser and every family node's table entry is the documented
   one ([left_node_ok]), the stored expression denotes the written expression
   with every node read by its documented meaning ([doc_node]). *)
Theorem c15_left_expression : forall fm e v,
  wf_lvl 0 e = true ->
  forallb (left_node_ok fm) (nodes_e e) = true ->
  exists toks atoms,
    expand_left fm (print_e e) = Ok (toks, atoms)
    /\ eval_toks v toks = Some (eval_e (doc_node fm v) e).
Proof. exact left_expression_meaning. Qed.

(* every documented entry satisfies [fam_entry_ok] (hence [left_node_ok]) *)
Theorem c15_lhs_entries_ok : forall q o all,
  In (q, o) alt_qualifiers ->
  fam_entry_ok (fam_qual q all) = true.
Proof. exact lhs_entries_ok. Qed.

(* RIGHT SIDE.  A family node FAM:q-all / FAM:q-any (optionally "!FAM...",
   optionally "?") on the right of a trigger [expr]: whenever the parser accepts
   it, every member (families of every size; members not mentioned before in
   the graph) has received exactly that trigger with that suicide flag, and -
   unless it is a suicide trigger - every documented member output
   (finish: succeeded and failed, made optional) carries the declared
   optionality as its family default (optional, default, not fixed).
   This holds for all 14 qualifiers with today's fam_to_mem_output_map. *)
Theorem c15_family_rhs : forall fm eoc expr atoms st F ms q o all opt (suicide : bool) st',
  In (q, o) alt_qualifiers ->
  fam_members fm F = Some ms -> NoDup ms -> (forall m, In m ms -> fresh_member st m) ->
  proc_right fm eoc expr atoms st
    ((if suicide then [TBang] else []) ++ [TN (mkNode F 0 (Some (fam_qual q all)) opt)]) = Ok st' ->
  forall m, In m ms ->
    assoc Nat.eqb m (ps_trig st') = Some [mkTrig expr atoms suicide]
    /\ (suicide = false ->
        forall o', In o' (doc_outputs o) ->
          assoc optkey_eqb (m, o') (ps_opt st')
          = Some (let d := if String.eqb o TASK_OUTPUT_FINISHED then true else opt in (d, d, false))).
Proof.
  intros fm eoc expr atoms st F ms q o all opt suicide st' Hq Hf Hnd Hfr H m Hm.
  destruct (family_rhs fm eoc expr atoms st F ms q o all opt suicide st' Hq
              (rhs_entries_ok q o all Hq) Hf Hnd Hfr H) as [Ht Ho].
  destruct (Hfr m Hm) as [Ft Fo]. split.
  - rewrite Ht. now apply assoc_app_members.
  - intros -> o' Ho'. rewrite Ho. now apply assoc_app_fam_entries.
Qed.

(* A bare family name on the right ("a => FAM"): every member gets the trigger,
   optionality is untouched. *)
Theorem c15_family_rhs_plain : forall fm eoc expr atoms st F ms opt (suicide : bool) st',
  expr <> [] ->
  fam_members fm F = Some ms -> NoDup ms -> (forall m, In m ms -> fresh_member st m) ->
  proc_right fm eoc expr atoms st
    ((if suicide then [TBang] else []) ++ [TN (mkNode F 0 None opt)]) = Ok st' ->
  (forall m, In m ms -> assoc Nat.eqb m (ps_trig st') = Some [mkTrig expr atoms suicide])
  /\ ps_opt st' = ps_opt st.
Proof.
  intros fm eoc expr atoms st F ms opt suicide st' Hne Hf Hnd Hfresh H.
  rewrite (proc_right_family fm eoc expr atoms st F ms None opt suicide [] Hf (conj Hne eq_refl)) in H.
  apply (fam_fold_fresh expr atoms suicide opt []) in H;
    [|constructor|intros _ []|exact Hnd|exact Hfresh].
  destruct H as [Ht Ho]. split.
  - intros m Hm. rewrite Ht. apply assoc_app_members; [apply Hfresh, Hm|exact Hm].
  - rewrite Ho. replace (if suicide then [] else []) with (@nil string) by now destruct suicide.
    clear. induction ms as [|m r IH]; [apply app_nil_r|exact IH].
Qed.

(* non-vacuity: whole lines through the model of parse_graph *)
Local Open Scope string_scope.
Definition ex_fm : family_map := [(20, [1; 2; 3]); (21, [2; 3]); (22, [7; 8])].
(* F20[-P1]:fail-any? & t5 | (F21:finish-all | t6:x) => F22:succeed-all? & !t9 *)
Definition ex_left : lexpr :=
  LOr (LAnd (LN (mkNode 20 1 (Some "fail-any") true)) (LN (mkNode 5 0 None false)))
      (LPar (LOr (LN (mkNode 21 0 (Some "finish-all") false)) (LN (mkNode 6 0 (Some "x") false)))).
Definition ex_right : list tok :=
  [TN (mkNode 22 0 (Some "succeed-all") true); TAnd; TBang; TN (mkNode 9 0 None false)].

Example c15_ex_wf : wf_lvl 0 ex_left = true /\ forallb (left_node_ok ex_fm) (nodes_e ex_left) = true.
Proof. vm_compute. auto. Qed.

(* the line is accepted; members t7, t8 of F22 and the suicide target t9 get
   one trigger each; t7/t8:succeeded are optional family defaults *)
Example c15_ex_line :
  match run_line ex_fm (print_e ex_left) ex_right [] with
  | Ok st =>
      map (fun n => option_map (@List.length trig) (assoc Nat.eqb n (ps_trig st))) [7; 8; 9]
        = [Some 1; Some 1; Some 1]
      /\ assoc optkey_eqb (7, "succeeded") (ps_opt st) = Some (true, true, false)
      /\ assoc optkey_eqb (8, "succeeded") (ps_opt st) = Some (true, true, false)
      /\ assoc optkey_eqb (2, "failed") (ps_opt st) = Some (true, true, false)
  | _ => False
  end.
Proof. vm_compute. auto. Qed.

(* the right-hand theorem's hypotheses are satisfiable for every qualifier *)
Example c15_ex_rhs_all_qualifiers :
  forallb (fun qo =>
    forallb (fun all =>
      match proc_right ex_fm [] [TN (mkNode 5 0 (Some "succeeded") false)] [(5, 0, "succeeded")] empty_state
              [TN (mkNode 20 0 (Some (fam_qual (fst qo) all))
                     (String.eqb (snd qo) "expired" || String.eqb (snd qo) "submit-failed"))] with
      | Ok _ => true | _ => false end) [true; false]) alt_qualifiers = true.
Proof. vm_compute. reflexivity. Qed.
