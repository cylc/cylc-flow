(* Props/C11.v — C11 "Completion: tasks are retained exactly when incomplete".
   The lemmas about the default expression are in Proofs/CompletionProofs.v.
   The model (Model/Completion.v) is tied to cylc/flow/task_outputs.py
   (get_completion_expression, TaskOutputs.is_complete) and
   cylc/flow/task_pool.py (remove_if_complete) by the C11 correspondence
   streams, which compare truth tables / outcomes inside Coq. *)
From Coq Require Import List Bool Arith.
From Cylc Require Import Base.Util Model.BExpr Model.Completion
  Proofs.BExprProofs Proofs.CompletionProofs.
Import ListNotations.

(* "Without a user completion expression, the expression requires every
   required output, tolerates failure only when succeeded or failed is
   optional, and tolerates submit-failure and expiry only when those are
   optional": for EVERY task definition (any required/optional/unset flags,
   any custom outputs) and EVERY truth assignment to the outputs, the
   expression built by get_completion_expression (or FINAL_OUTPUT_COMPLETION
   when it is blank) has exactly the value of the documented rule
   [spec_complete]. *)
Theorem c11_default_expr_semantics : forall (t : tdef) (s : nat -> bool),
  eval s (completion_expr t None) = spec_complete t s.
Proof. exact default_expr_semantics. Qed.

(* ... and is_complete, which evaluates it Python-style over the registered
   outputs only, never raises NameError and returns that value, for every set
   of completed outputs. *)
Theorem c11_is_complete_default : forall (t : tdef) (done : list nat),
  std_registered t ->
  is_complete t None done = Some (spec_complete t (env_of done)).
Proof.
  intros t done Hstd. rewrite <- default_expr_semantics.
  apply is_complete_registered. intros a. now apply completion_expr_vars.
Qed.

(* With a user expression whose names are registered outputs, is_complete is
   the truth value of that expression over the completed outputs. *)
Theorem c11_is_complete_user : forall (t : tdef) (e : bexpr) (done : list nat),
  (forall a, In a (vars e) -> registered t a) ->
  is_complete t (Some e) done = Some (eval (env_of done) e).
Proof. intros t e. exact (is_complete_registered t (Some e)). Qed.

(* The rule in the words of the property.  A task judged complete has all of
   its required outputs unless a tolerated outcome occurred, and an outcome is
   tolerated only if the corresponding output is optional. *)
Theorem c11_complete_implies : forall (t : tdef) (s : nat -> bool),
  nonempty (default_parts t) = true ->
  spec_complete t s = true ->
  (forall a, In a (required t) -> s a = true)
  \/ (fail_tolerated t = true /\ s FAILED = true)
  \/ (submit_fail_tolerated t = true /\ s SUBMIT_FAILED = true)
  \/ (expiry_tolerated t = true /\ s EXPIRED = true).
Proof. intros t s _. apply complete_implies. Qed.

(* When neither succeeded nor failed is optional, and no tolerated
   pre-execution outcome occurred, complete <=> every required output. *)
Theorem c11_failure_not_tolerated : forall (t : tdef) (s : nat -> bool),
  fail_tolerated t = false -> nonempty (required t) = true ->
  submit_fail_tolerated t = false \/ s SUBMIT_FAILED = false ->
  expiry_tolerated t = false \/ s EXPIRED = false ->
  (spec_complete t s = true <-> forall a, In a (required t) -> s a = true).
Proof.
  intros t s Hf Hr Hs He. unfold spec_complete. rewrite Hf, Hr. cbn.
  rewrite <- forallb_forall.
  destruct Hs as [->| ->], He as [->| ->]; cbn; rewrite ?andb_false_r, ?orb_false_r; tauto.
Qed.

(* "A finished task is removed from the pool exactly when its completion
   expression evaluates true over its completed outputs, and is otherwise
   retained (and logged) as incomplete": for a task in a final status
   (outside Cylc 7 compatibility mode) remove_if_complete removes it iff
   is_complete; otherwise it is retained, and the warning is logged whenever
   the call was made for a final output. *)
Theorem c11_retention : forall st out_final complete,
  status_final st = true ->
  remove_if_complete st false out_final (Some complete) =
  if complete then Removed else Retained out_final.
Proof. unfold remove_if_complete. intros st out_final complete ->. reflexivity. Qed.

(* Both halves together for the default expression. *)
Theorem c11_removed_iff_rule : forall (t : tdef) (done : list nat) st out_final,
  std_registered t -> status_final st = true ->
  (remove_if_complete st false out_final (is_complete t None done) = Removed
   <-> spec_complete t (env_of done) = true).
Proof.
  intros t done st out_final Hstd Hst.
  rewrite (c11_is_complete_default t done Hstd), (c11_retention st out_final _ Hst).
  destruct (spec_complete t (env_of done)); split; congruence.
Qed.

(* A task that has not finished is never removed by this function. *)
Theorem c11_unfinished_retained : forall st compat out_final complete,
  status_final st = false ->
  remove_if_complete st compat out_final complete = Retained false.
Proof. unfold remove_if_complete. intros st compat out_final complete ->. reflexivity. Qed.

(* non-vacuity: x (6) required, succeeded optional, submission optional:
   "(x and succeeded) or failed or submit_failed" *)
Definition ex_t : tdef :=
  [(EXPIRED, None); (SUBMITTED, Some false); (SUBMIT_FAILED, None); (STARTED, None);
   (SUCCEEDED, Some false); (FAILED, None); (6, Some true)].
Example c11_ex_expr :
  default_expr ex_t =
  Some (BOr (BOr (BAnd (BVar 6) (BVar SUCCEEDED)) (BVar FAILED)) (BVar SUBMIT_FAILED)).
Proof. vm_compute. reflexivity. Qed.
Example c11_ex_registered : std_registered ex_t.
Proof. repeat split; vm_compute; discriminate. Qed.
Example c11_ex_incomplete : is_complete ex_t None [SUBMITTED; STARTED; SUCCEEDED] = Some false.
Proof. vm_compute. reflexivity. Qed.
Example c11_ex_complete : is_complete ex_t None [SUBMITTED; STARTED; FAILED] = Some true.
Proof. vm_compute. reflexivity. Qed.
Example c11_ex_retained :
  remove_if_complete ST_SUCCEEDED false true
    (is_complete ex_t None [SUBMITTED; STARTED; SUCCEEDED]) = Retained true.
Proof. vm_compute. reflexivity. Qed.

(* scheduler level: the pool automaton (Model/Pool.v) *)
From Cylc Require Model.Pool Proofs.PoolProofs Proofs.PoolTheorems.

(* In a real run a task leaves the pool "as completed" only if it is finished
   and its completion expression (computed by the harness from the documented
   rule, independently of cylc) is true over its completed outputs ... *)
Theorem c11_pool_removed_as_complete_is_complete : forall c s t s',
  Pool.step c s (Pool.ERemove t true) = Pool.Ok s' ->
  exists p i, Pool.find_task (Pool.pool s) t = Some p /\ Pool.find_inst (Pool.c_insts c) t = Some i /\
    Pool.is_final (Pool.p_status p) = true /\
    Pool.cx_eval (Pool.has_out (Pool.p_outs p)) (Pool.i_comp i) = true.
Proof. exact PoolTheorems.removed_as_complete_is_complete. Qed.

(* ... and at the end of every main-loop iteration no finished task whose
   completion expression is true is still in the pool. *)
Theorem c11_pool_finished_complete_not_retained : forall c s snap hl hp s',
  Pool.step c s (Pool.ETickEnd snap hl hp) = Pool.Ok s' ->
  forall p i, In p (Pool.pool s) -> Pool.find_inst (Pool.c_insts c) (Pool.p_id p) = Some i ->
    Pool.is_final (Pool.p_status p) = true ->
    Pool.cx_eval (Pool.has_out (Pool.p_outs p)) (Pool.i_comp i) = false.
Proof. exact PoolTheorems.finished_complete_not_retained. Qed.
