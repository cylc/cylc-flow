(* Props/C45.v — C45 "Absolute-trigger outputs satisfy every dependent instance".
   Pool automaton: [abs_done] is the set of completed outputs referenced by
   absolute triggers (foo[^], foo[2], foo[^+P1]); EAbs records one. *)
From Coq Require Import List Bool ZArith.
From Cylc Require Import Base.Util Model.Pool Proofs.PoolProofs Proofs.PoolTheorems.
Import ListNotations.

(* An absolute output is recorded only once it has really been completed ... *)
Theorem c45_abs_output_really_done : forall c s k s',
  step c s (EAbs k) = Ok s' -> In k (done s).
Proof.
  intros c s k s'. cbn [step]. destruct (out_done s (fst k) (snd k)) eqn:E; [|discriminate].
  intros _. now apply out_done_In.
Qed.

(* ... in every reachable state each recorded absolute output has been completed
   (invariant over all accepted traces, restarts included) ... *)
Theorem c45_abs_done_sound : forall c tr s k,
  exec c (init_state c) tr = Some s -> In k (abs_done s) -> In k (done s).
Proof. intros c tr s k H. apply (inv_abs c s). eapply reachable_Inv; eauto. Qed.

(* ... a newly spawned instance starts with only such outputs (and pre-initial
   ones) satisfied ... *)
Theorem c45_spawn_satisfied_only_by_abs_done : forall c s t fl sat0 h s' i,
  step c s (ESpawn t fl sat0 h) = Ok s' -> find_inst (c_insts c) t = Some i ->
  forall k, In k sat0 -> In k (abs_done s).
Proof.
  intros c s t fl sat0 h s' i H _. apply step_spawn in H. tauto.
Qed.

(* ... and at every accepted tick end every pooled dependent instance reflects
   every recorded absolute output: counting the recorded outputs as satisfied
   changes the truth of none of its prerequisite expressions (so an instance
   spawned later, or reloaded after a restart, is as satisfied as one that was
   in the pool when the output was completed). *)
Theorem c45_every_dependent_reflects_abs_outputs : forall c s snap hl hp s',
  step c s (ETickEnd snap hl hp) = Ok s' ->
  forall p i, In p (pool s) -> find_inst (c_insts c) (p_id p) = Some i -> abs_reflected s i p = true.
Proof.
  intros c s snap hl hp s' H p i Hp Hi. apply step_tick in H. destruct H as (_ & _ & _ & _ & _ & _ & H & _).
  now apply (H p i).
Qed.

(* The record survives a restart. *)
Theorem c45_abs_done_survives_restart : forall c s s',
  step c s ERestart = Ok s' -> abs_done s' = abs_done s.
Proof.
  intros c s s' H. destruct (restart_keeps_persistent_state c s s' H) as [_ [_ [_ [_ [_ [_ [_ [_ [A _]]]]]]]]]. exact A.
Qed.
