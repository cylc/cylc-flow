(* Props/C42.v — C42 "The subprocess pool runs every command once, within its bounds".
   Model: Model/SubProc.v (hand model of SubProcPool), tied to the real class by
   the "subproc" correspondence stream (real processes).
   Property text: every command put into the pool gets exactly one callback
   (including when it times out or the pool is stopping), no more than the
   configured pool size run concurrently, and job-submission commands are not
   started once the pool is stopping.
   Histories: any list of events put / process(done) / set_stopping / close /
   terminate(done), where [done] is ANY set of command ids (what the OS reports
   as exited or past the timeout) — the theorems quantify over it. *)
From Coq Require Import List Bool Arith Lia.
From Cylc Require Import Base.Util Model.SubProc Proofs.SubProcProofs.
Import ListNotations.

(* Within bounds: after every history, no more than [size] commands are in the running list *)
Theorem c42_bound : forall fx size es p os,
  run fx (new_pool size) es = (p, os) -> length (p_running p) <= size.
Proof.
  intros fx size es p os E.
  destruct (run_bound fx es _ _ _ E) as [H1 H2]; [cbn; lia|]. cbn in H2. lia.
Qed.

(* (the invariant, for an arbitrary step) *)
Theorem c42_bound_step : forall fx p e p' o,
  step fx p e = (p', o) -> length (p_running p) <= p_size p ->
  length (p_running p') <= p_size p' /\ p_size p' = p_size p.
Proof. exact step_bound. Qed.

(* No job submission once stopping: a command enters the running list only out of the queue and only in process();
   if the pool was stopping it is not a jobs-submit command; terminate() and the
   other events start nothing *)
Theorem c42_no_submit_when_stopping : forall fx p e p' o,
  step fx p e = (p', o) ->
  forall c, In c (p_running p') -> In c (p_running p) \/
    (In c (p_queue p) /\ (exists done, e = EProcess done) /\ c_bad c = false
     /\ (p_stopping p = true -> c_submit c = false)).
Proof.
  intros fx p e p' o E. destruct (step_cases _ _ _ _ _ E) as [|done ? ? Ep|done ? ? Ep].
  - cbn. auto.
  - intros c Hc. destruct (process_launched _ _ _ _ _ Ep c Hc) as [H|(H1 & H2 & H3)]; [auto|].
    right. split; [exact H1|]. split; [exists done; reflexivity|]. auto.
  - (* process() runs on the emptied queue *)
    intros c Hc. destruct (process_launched _ _ _ _ _ Ep c Hc) as [H|[[] _]]. now left.
Qed.

(* stopping and closed are never reset *)
Theorem c42_stopping_is_final : forall fx p e p' o,
  step fx p e = (p', o) ->
  (p_stopping p = true -> p_stopping p' = true) /\ (p_closed p = true -> p_closed p' = true).
Proof.
  intros fx p e p' o E. destruct (step_cases _ _ _ _ _ E) as [|done ? ? Ep|done ? ? Ep].
  - cbn. auto.
  - destruct (process_spec _ _ _ _ _ Ep) as (q' & r' & cbs & dr & _ & -> & _). cbn. auto.
  - destruct (process_spec _ _ _ _ _ Ep) as (q' & r' & cbs & dr & _ & -> & _). cbn. auto.
Qed.

(* Callbacks.  The full statement of the property: whenever the pool is done (nothing queued,
   nothing running) every command that was put got exactly one callback. *)
Definition c42_one_callback_stmt (fx : bool) : Prop :=
  forall size es p os,
    run fx (new_pool size) es = (p, os) -> NoDup (puts_of es) ->
    p_queue p = [] -> p_running p = [] ->
    forall i, In i (puts_of es) -> occ i (callbacks_of os) = 1.

(* For both variants of the code: *)
(* (a) conservation: commands put = queued + running + called back + dropped *)
Theorem c42_conservation : forall fx size es p os i,
  run fx (new_pool size) es = (p, os) ->
  occ i (puts_of es)
  = occ i (ids (p_queue p)) + occ i (ids (p_running p)) + occ i (callbacks_of os) + occ i (dropped_of os).
Proof.
  intros fx size es p os i E. pose proof (run_count fx i _ _ _ _ E) as H.
  cbn [new_pool p_queue p_running map] in H. rewrite !occ_nil in H. lia.
Qed.

(* (b) at most one callback, ever; nobody is called back while still
   queued/running (or, pre-fix, both called back and dropped) *)
Theorem c42_at_most_one_callback : forall fx size es p os,
  run fx (new_pool size) es = (p, os) -> NoDup (puts_of es) ->
  NoDup (ids (p_queue p) ++ ids (p_running p) ++ callbacks_of os ++ dropped_of os).
Proof.
  intros fx size es p os E Hnd. apply NoDup_occ. intros i. rewrite !occ_app.
  pose proof (c42_conservation _ _ _ _ _ i E). pose proof (proj1 (NoDup_occ _) Hnd i). lia.
Qed.

(* (c) exactly one callback when the pool is done — unless the command was dropped *)
Theorem c42_one_callback_unless_dropped_while_stopping : forall fx size es p os,
  run fx (new_pool size) es = (p, os) -> NoDup (puts_of es) ->
  p_queue p = [] -> p_running p = [] ->
  forall i, In i (puts_of es) ->
    (occ i (callbacks_of os) = 1 /\ ~ In i (dropped_of os))
    \/ (occ i (callbacks_of os) = 0 /\ In i (dropped_of os)).
Proof.
  intros fx size es p os E Hnd Hq Hr i Hi.
  pose proof (c42_conservation _ _ _ _ _ i E) as H. rewrite Hq, Hr in H. cbn [map] in H.
  rewrite !occ_nil in H. pose proof (proj1 (NoDup_occ _) Hnd i). rewrite occ_In in Hi.
  rewrite !occ_In. lia.
Qed.

(* nothing is ever dropped by the code as it is now *)
Theorem c42_nothing_dropped : forall size es p os,
  run drops_call_back (new_pool size) es = (p, os) -> dropped_of os = [].
Proof. intros size es p os E. exact (run_fixed_no_drop _ _ _ _ E). Qed.

(* The full statement holds for the code as it is now (fix 2237225: process() and terminate()
   pass the callbacks to _run_command_exit when they take a command off the queue
   while stopping; the model's [drops_call_back] = true is what the correspondence
   stream validates).  Commands still RUNNING at terminate() are outside it
   (p_running p = [] is a hypothesis): see the open finding in
   known_findings.json. *)
Theorem c42_one_callback : c42_one_callback_stmt drops_call_back.
Proof.
  intros size es p os E Hnd Hq Hr i Hi.
  destruct (c42_one_callback_unless_dropped_while_stopping _ _ _ _ _ E Hnd Hq Hr i Hi) as [[H _]|[_ H]];
    [exact H|].
  rewrite (c42_nothing_dropped _ _ _ _ E) in H. destruct H.
Qed.

(* PRE-FIX CODE ONLY (parameter value false = `self._run_command_exit(ctx)`
   without the callbacks, before 2237225).  The full statement was false.
   Witness 1: pool size 1, jobs-submit commands 0 (running) and 1 (queued),
   set_stopping, 0 exits: process() dropped 1 with ret_code 999 and no callback.
   Witness 2: any queued command at terminate().  Kept as the record of the fixed
   finding; both witnesses stay in the stream's corpus as regression cases. *)
Theorem c42_one_callback_refuted_for_prefix_code : ~ c42_one_callback_stmt false.
Proof.
  intros H.
  pose (c i := {| c_id := i; c_submit := true; c_bad := false |}).
  pose (es := [EPut (c 0); EPut (c 1); EProcess []; ESetStopping; EProcess [0]]).
  destruct (run false (new_pool 1) es) as [p os] eqn:E.
  specialize (H 1 es p os E). vm_compute in E. injection E as <- <-.
  assert (Hn : NoDup [0; 1]).
  { constructor; [intros [E|[]]; discriminate E|]. constructor; [intros []|constructor]. }
  specialize (H Hn eq_refl eq_refl 1 (or_intror (or_introl eq_refl))). discriminate H.
Qed.

Theorem c42_one_callback_refuted_terminate_for_prefix_code :
  exists es p os, run false (new_pool 1) es = (p, os) /\ NoDup (puts_of es) /\
    p_queue p = [] /\ p_running p = [] /\ In 1 (puts_of es) /\
    occ 1 (callbacks_of os) = 0 /\ In 1 (dropped_of os).
Proof.
  exists [EPut {| c_id := 0; c_submit := false; c_bad := false |};
          EPut {| c_id := 1; c_submit := false; c_bad := false |};
          EProcess []; ETerminate [0]].
  eexists. eexists. split; [vm_compute; reflexivity|].
  repeat split; try (vm_compute; tauto).
  repeat constructor; cbn; intuition discriminate.
Qed.

(* pre-fix code: drops happened in exactly two places: terminate() (any queued
   command) and process() while stopping (queued jobs-submit commands) *)
Theorem c42_dropped_only_in_two_places_for_prefix_code : forall p e p' o,
  step false p e = (p', o) ->
  forall i, In i (o_dropped o) ->
    (exists done, e = ETerminate done /\ In i (ids (p_queue p)))
    \/ (exists done, e = EProcess done /\ p_stopping p = true /\
        exists c, In c (p_queue p) /\ c_id c = i /\ c_submit c = true).
Proof.
  intros p e p' o E. destruct (step_cases _ _ _ _ _ E) as [|done ? ? Ep|done ? ? Ep].
  - intros i [].
  - intros i Hi. right. exists done. split; [reflexivity|].
    exact (process_drop_reason _ _ _ _ _ Ep i Hi).
  - intros i Hi. left. exists done. split; [reflexivity|]. cbn in Hi. apply in_app_iff in Hi.
    destruct Hi as [Hi|Hi]; [exact Hi|].
    destruct (process_drop_reason _ _ _ _ _ Ep i Hi) as (_ & c & [] & _).
Qed.

(* non-vacuity: a history with a full pool, an OSError, exits and a late put
   (pre-fix variant: command 1 is dropped) *)
Example c42_ex_history_prefix_code :
  let c i s b := {| c_id := i; c_submit := s; c_bad := b |} in
  let '(p, os) := run false (new_pool 1)
     [EPut (c 0 false false); EPut (c 1 true false); EPut (c 2 false true);
      EProcess []; EClose; EPut (c 3 false false); EProcess [0]] in
  (p_queue p, p_running p, callbacks_of os, dropped_of os) = ([], [], [3; 0; 2], [1]).
Proof. vm_compute. reflexivity. Qed.

(* the code as it is now *)
Example c42_ex_history :
  let c i s b := {| c_id := i; c_submit := s; c_bad := b |} in
  let '(p, os) := run drops_call_back (new_pool 2)
     [EPut (c 0 false false); EPut (c 1 true false); EPut (c 2 false true); EPut (c 3 true false);
      EProcess []; EProcess [0]; EClose; EPut (c 4 false false); EProcess [1; 3]] in
  (p_queue p, p_running p, callbacks_of os, dropped_of os) = ([], [], [0; 2; 4; 1; 3], []).
Proof. vm_compute. reflexivity. Qed.
