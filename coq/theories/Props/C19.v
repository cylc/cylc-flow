(* Props/C19.v — C19 "Stop-and-restart preserves the workflow state".
   In the pool automaton a restart is the event sequence
     ERestart ; ERestore v1 ; ... ; ERestore vn ; ERestartDone
   where each [vi] is what the real scheduler reloaded from its database for
   one task.  ERestart computes, from the abstract pool, what must come back
   ([restored]); ERestore accepts a reloaded task only if it equals that;
   ERestartDone is accepted only if nothing is missing. *)
From Coq Require Import List Bool ZArith.
From Cylc Require Import Base.Util Model.Pool Proofs.PoolProofs Proofs.PoolTheorems Props.C01.
Import ListNotations.

(* What must come back for one task: the same id, held flag, flow numbers,
   satisfied prerequisites, completed outputs and manual flag; a preparing
   task comes back waiting under the previous submit number (so that it is
   prepared again under the same one); any other status and submit number
   unchanged. *)
Theorem c19_restored_spec : forall p,
  p_id (restored p) = p_id p /\ p_held (restored p) = p_held p /\ p_flows (restored p) = p_flows p /\
  p_sat (restored p) = p_sat p /\ p_outs (restored p) = p_outs p /\ p_manual (restored p) = p_manual p /\
  (p_status p = Preparing -> p_status (restored p) = Waiting /\ p_sn (restored p) = Nat.pred (p_sn p)) /\
  (p_status p <> Preparing -> p_status (restored p) = p_status p /\ p_sn (restored p) = p_sn p).
Proof.
  intros p. unfold restored. repeat split; cbn; destruct (p_status p); cbn; try reflexivity; try congruence.
Qed.

(* Every task the restart gives back equals the expectation for a pooled task ... *)
Theorem c19_each_reloaded_task_is_expected : forall c s v s',
  crash_mode s = false ->
  step c s (ERestore v) = Ok s' ->
  exists p, find_task (saved s) (v_id v) = Some p /\ view_matches p v = true /\
            pool s' = pool s ++ [p] /\ saved s' = remove_task (saved s) (v_id v) /\ crash_mode s' = false.
Proof. exact restore_matches_expected. Qed.

(* ... and, end to end, an accepted restart leaves exactly the old pool, task
   by task as [restored] says: nothing lost, nothing added, nothing altered. *)
Theorem c19_restart_roundtrip : forall c s vs s',
  exec c s (ERestart :: map ERestore vs ++ [ERestartDone]) = Some s' ->
  forall q, In q (pool s') <-> In q (map restored (pool s)).
Proof. exact restart_roundtrip. Qed.

(* The hold set, hold point, stop point, stop task, the record of completed
   outputs, absolute outputs, submissions and task history are carried over. *)
Theorem c19_persistent_state_kept : forall c s s',
  step c s ERestart = Ok s' ->
  saved s' = map restored (pool s) /\ pool s' = [] /\
  to_hold s' = to_hold s /\ hold_pt s' = hold_pt s /\ stop_point s' = stop_point s /\
  stop_task s' = stop_task s /\ subs s' = subs s /\ done s' = done s /\ abs_done s' = abs_done s /\
  hist s' = hist s.
Proof. exact restart_keeps_persistent_state. Qed.

(* The invariants behind C01/C02/C07/C26 hold across any number of restarts:
   the reachable-state invariant is preserved by the restart events too. *)
Theorem c19_invariant_across_restarts : forall c tr s,
  exec c (init_state c) tr = Some s -> Inv c s.
Proof. exact reachable_Inv. Qed.

(* "The continued run runs the same instances to the same outputs as an
   uninterrupted run" is checked per scenario by the oracle (both runs are
   executed); as a theorem it would need a deterministic scheduler model:
   partial. *)

Example c19_ex_lost_output_rejected :
  run C01.ex_cfg
    [ ESpawn C01.a [1%nat] [] false; EAdd C01.a; ELimit (Some 1%Z);
      EState C01.a Waiting false false false; EState C01.a Waiting false true false;
      EReleaseBegin; EState C01.a Waiting false false false; ERelease [C01.a];
      EState C01.a Preparing false false false; ESubmit C01.a 1%nat;
      EOutput C01.a 1%nat; EState C01.a Submitted false false false;
      ERestart;
      ERestore {| v_id := C01.a; v_status := Submitted; v_held := false; v_queued := false; v_runahead := true;
                  v_flows := [1%nat]; v_sat := []; v_outs := []; v_sn := 1%nat; v_fsat := [] |} ] = Some (13%nat, 222%nat).
Proof. vm_compute. reflexivity. Qed.

(* Broadcasts.  The broadcast settings in force are an opaque identifier in the
   automaton (the harness interns the canonical table).  At the end of every
   accepted iteration the database holds exactly the settings in force ... *)
Theorem c19_database_holds_broadcasts : forall c s n s',
  step c s (EBcastDb n) = Ok s' -> n = bcast s /\ s' = s.
Proof.
  intros c s n s'. cbn [step]. destruct (Nat.eqb n (bcast s)) eqn:E; [|discriminate].
  intros [= <-]. split; [now apply Nat.eqb_eq|reflexivity].
Qed.

(* ... nothing but a broadcast event changes them ... *)
Theorem c19_broadcasts_frame : forall c tr s s',
  exec c s tr = Some s' ->
  (forall n, ~ In (EBcast n) tr) -> (forall n, ~ In (EBcastLoaded n) tr) -> bcast s' = bcast s.
Proof. exact bcast_frame. Qed.

(* ... so what an accepted (clean) restart loads is what was in force before
   the stop, however long the stop/restart stretch of events is. *)
Theorem c19_restart_gives_broadcasts_back : forall c tr s0 s1 n s2,
  exec c s0 tr = Some s1 -> step c s1 (EBcastLoaded n) = Ok s2 -> crash_mode s1 = false ->
  (forall m, ~ In (EBcast m) tr) -> (forall m, ~ In (EBcastLoaded m) tr) ->
  n = bcast s0 /\ bcast s2 = bcast s0.
Proof. exact restart_gives_broadcasts_back. Qed.
