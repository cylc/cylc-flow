(* Props/C09.v — C09 "Task status transitions follow the lifecycle; outputs are
   monotone" at the task level: one TaskProxy driven through
   TaskEventsManager.process_message, job preparation and the submit-command
   callback, for any unforced op sequence with any flags and submit numbers.
   Model: Model/TaskMsg.v (tied to the code by the "taskmsg" correspondence
   stream); tables: Gen/TaskMsgTables.v (regenerated from /repo).
   Scheduler-level scenario streams are separate. *)
From Coq Require Import List Bool Arith ZArith Lia.
From Cylc Require Import Base.Util Gen.TaskMsgTables Model.TaskMsg
  Proofs.TaskMsgProofs Proofs.TaskMsgInv Proofs.TaskMsgEdges.
Import ListNotations.

(* The model's recursion through the whole of process_message for implied
   outputs is equal to a closed form (status/timers: ctl_next, outputs: adds,
   effects: eff_next): the internal 'submitted'/'started' messages are never
   dropped by the ignore rules and never answered with a poll. *)
Theorem c09_process_message_closed_form : forall t m f n,
  process_message t m f n = pm_closed t m f n.
Proof. exact pm_closed_eq. Qed.

(* "Each status change lies in the allowed relation": for every op sequence from
   the fresh task, every step either keeps the status or takes an edge of the
   table op_edge / edge_ok (Proofs/TaskMsgEdges.v):
     job preparation        waiting -> preparing
     submitted (any flag)   preparing -> submitted
     started                any -> running      (received: only from <= running)
     succeeded              any -> succeeded
     failed                 any -> failed | waiting(retry)   (received: not from succeeded)
     submission failed      any -> submit-failed | waiting(retry)
                            (received: only from waiting/expired/preparing/submit-failed)
     expired                any -> expired
     custom / other text    no change
   (never failed -> waiting, never submit-failed -> waiting). *)
Theorem c09_transitions : forall n m k ops, trace_edges (fresh n m k) ops.
Proof. intros. apply trace_edges_wf. apply wf_fresh. Qed.

Theorem c09_step_edges : forall t o, wf t ->
  st (fst (step t o)) = st t \/ op_edge o (st t) (st (fst (step t o))) = true.
Proof. exact step_edges. Qed.

(* ... and the table is exact: each of its edges is taken in some run from the
   fresh task (so started-before-submitted preparing -> running, polled jumps
   submitted -> succeeded, and the backward edges of non-received messages are
   all real). *)
Theorem c09_transitions_exact : forall m r a b,
  edge_ok m r a b = true -> a <> b ->
  exists n mm pre f,
    flag_received f = r /\
    st (final (fresh n mm 1) pre) = a /\
    st (fst (step (final (fresh n mm 1) pre) (OpMsg m f 0%Z))) = b.
Proof. exact edges_reachable. Qed.

(* A received message (whatever its submit number) only moves the status
   forward in the lifecycle order, or back to waiting (which is a retry, next
   theorem).  'expired' is raised by the scheduler for waiting tasks. *)
Theorem c09_received_forward : forall n m k pre msg num,
  let t := final (fresh n m k) pre in
  (msg = MExpired -> st t = Waiting) ->
  let t' := fst (process_message t msg Received num) in
  st t' = st t \/ status_rank (st t) < status_rank (st t') \/ st t' = Waiting.
Proof. intros. apply pm_received_forward; [apply wf_run|assumption]. Qed.

(* "a return to waiting only for an automatic retry": whenever a step enters
   waiting, _retry_task ran and the corresponding timer's next() succeeded. *)
Theorem c09_waiting_only_by_retry : forall t o,
  st (fst (step t o)) = Waiting -> st t <> Waiting ->
  retried t (fst (step t o)) (snd (step t o)).
Proof.
  intros t o. destruct o as [|ok|m f rel]; cbn [step].
  - destruct (preppable t); cbn [fst]; [rewrite prep_raw_st; discriminate|congruence].
  - apply pm_to_waiting.
  - apply pm_to_waiting.
Qed.

(* The lifecycle of the property text: if the environment is consistent
   (env_ok: 'expired' only for waiting tasks; 'submission failed' comes from the
   submit command / a poll while the job has not started; a polled/internal
   'started' or 'failed' does not contradict a finished state) every status
   change is forward in the lifecycle order (or submitted -> submit-failed),
   with submit-failed only from preparing|submitted and expired only from
   waiting, or is a retry back to waiting. *)
Theorem c09_lifecycle : forall n m k pre o,
  let t := final (fresh n m k) pre in
  env_ok t o = true ->
  let t' := fst (step t o) in
  st t' = st t \/ lifecycle_edge (st t) (st t') = true \/ st t' = Waiting.
Proof. intros. apply step_lifecycle; [apply wf_run|assumption]. Qed.

(* The full statement (no environment hypothesis): *)
Definition c09_lifecycle_unrestricted : Prop :=
  forall n m k pre o,
    let t := final (fresh n m k) pre in
    let t' := fst (step t o) in
    st t' = st t \/ lifecycle_edge (st t) (st t') = true \/ st t' = Waiting.
(* is false of the code: a poll result 'started' that is processed after the
   received 'succeeded' moves succeeded -> running (finding "late-poll-regress"). *)
Theorem c09_lifecycle_unrestricted_refuted : ~ c09_lifecycle_unrestricted.
Proof.
  intros H. specialize (H 0 0 0 late_poll_pre late_poll_op).
  destruct late_poll_regresses as [A B]. cbn zeta in H. rewrite A, B in H.
  destruct H as [H|[H|H]]; discriminate H.
Qed.

(* "completed outputs are never un-completed" *)
Theorem c09_outputs_monotone : forall t ops x,
  In x (outs t) -> In x (outs (final t ops)).
Proof.
  intros t ops x. revert t. induction ops as [|o r IH]; intros t H; [exact H|].
  rewrite final_cons. apply IH. apply step_outs_mono. exact H.
Qed.

(* "whenever succeeded or failed is complete, submitted and started are complete
   too"; moreover from submitted on 'submitted' is complete and from running on
   'started' is complete. *)
Theorem c09_implied : forall n m k ops,
  let t := final (fresh n m k) ops in
  (In OSucceeded (outs t) \/ In OFailed (outs t) -> In OSubmitted (outs t) /\ In OStarted (outs t)) /\
  (status_rank Submitted <= status_rank (st t) -> In OSubmitted (outs t)) /\
  (status_rank Running <= status_rank (st t) -> In OStarted (outs t)).
Proof.
  intros. pose proof (wf_run n m k ops) as W. fold t in W.
  split; [apply (wf_closed t W)|]. split; [apply (wf_hs t W)|apply (wf_ht t W)].
Qed.

(* the invariant is inductive over every step (not only from the fresh task) *)
Theorem c09_wf_step : forall t o, wf t -> wf (fst (step t o)).
Proof. exact wf_step. Qed.

(* started before submitted, then the submit result, a custom output, success *)
Example c09_ex_run :
  let t := final (fresh 1 1 1)
             [OpPrep; OpMsg MStarted Received 0%Z; OpSubRes true;
              OpMsg (MCustom 0) Received 0%Z; OpMsg MSucceeded Polled 0%Z] in
  st t = Succeeded /\ canon_outs t = [OSubmitted; OStarted; OSucceeded; OCustom 0].
Proof. vm_compute. auto. Qed.
(* a retry: failed with one execution retry delay goes back to waiting *)
Example c09_ex_retry :
  map (fun te => st (fst te))
      (snd (run (fresh 1 0 0) [OpPrep; OpMsg MFailed Polled 0%Z; OpPrep; OpMsg MFailed Received 0%Z]))
  = [Preparing; Waiting; Preparing; Failed].
Proof. vm_compute. reflexivity. Qed.
Example c09_ex_env : env_ok (final (fresh 0 0 0) [OpPrep]) (OpMsg MStarted Polled 0%Z) = true.
Proof. vm_compute. reflexivity. Qed.

From Cylc Require Model.Pool Proofs.PoolProofs Proofs.PoolTheorems.

(* Scheduler level: every status change the pool automaton (Model/Pool.v) accepts is an edge of the lifecycle
   relation; waiting -> preparing needs a queue release or a manual trigger,
   and a held task is not prepared unless manually triggered. *)
Theorem c09_pool_status_change_follows_lifecycle : forall c s t st0 h q r s' p inp,
  Pool.step c s (Pool.EState t st0 h q r) = Pool.Ok s' -> Pool.lookup s t = Some (p, inp) ->
  st0 = Pool.p_status p \/ Pool.p_manual p = true \/
  (PoolTheorems.lifecycle (Pool.p_status p) st0 /\
   (Pool.p_status p = Pool.Waiting -> st0 = Pool.Preparing -> Pool.p_rel p = true \/ Pool.p_manual p = true) /\
   (st0 = Pool.Preparing -> Pool.p_held p = true -> Pool.p_manual p = true)).
Proof. exact PoolTheorems.status_change_follows_lifecycle. Qed.
