(* Props/C05.v — C05 "Internal queue limits are never exceeded" (component level).
   Model: Model/Queues.v (hand model of task_queues/independent.py), tied to the
   real IndepQueueManager by the "queues" correspondence stream.
   Property text: each task name belongs to exactly one internal queue (the last
   queue that lists it, else default); a queue never releases a task while the
   number of its active members is at its limit; queued tasks are released in the
   order they were queued, skipping held ones. *)
From Coq Require Import List Bool Arith Lia Permutation.
From Cylc Require Import Base.Util Model.Queues Proofs.QueuesProofs.
Import ListNotations.

(* [owner inq t] is the specification: the last non-default queue of the
   (family-expanded) config that lists t, else default if t is a task name.
   After _make_indep, with `default` the first key and queue names distinct,
   t is a member of queue q  iff  q is its owner: exactly one queue per name. *)
Theorem c05_partition : forall d rest,
  let in_queues := (q_default, d) :: rest in
  NoDup (map fst in_queues) ->
  Forall (fun e => NoDup (qc_members (snd e))) rest ->
  forall q t, In t (mems (make_indep in_queues) q) <-> owner in_queues t = Some q.
Proof. exact make_indep_partition. Qed.

(* the same for what IndepQueueManager.__init__ really computes (default's
   members := all task names, families expanded, then _make_indep) *)
Theorem c05_partition_constructor : forall all d c0 rest,
  NoDup (map fst ((q_default, c0) :: rest)) ->
  init_config all d ((q_default, c0) :: rest) = Some (make_indep (prepared all d c0 rest)) /\
  forall q t, In t (mems (make_indep (prepared all d c0 rest)) q)
              <-> owner (prepared all d c0 rest) t = Some q.
Proof.
  intros all d c0 rest H. split; [now apply init_config_default_first|now apply init_config_partition].
Qed.

(* every task name (member of default's input) is in exactly one queue *)
Theorem c05_exactly_one_queue : forall d rest,
  let in_queues := (q_default, d) :: rest in
  NoDup (map fst in_queues) ->
  Forall (fun e => NoDup (qc_members (snd e))) rest ->
  forall t, In t (qc_members d) ->
  exists q, In t (mems (make_indep in_queues) q) /\
            forall q', In t (mems (make_indep in_queues) q') -> q' = q.
Proof.
  intros d rest in_queues Hnd Hm t Ht.
  assert (Ho : exists q, owner in_queues t = Some q).
  { unfold owner. destruct (owner_nd in_queues t); [eauto|].
    change (mems in_queues q_default) with (qc_members d).
    destruct (mem_nat_spec t (qc_members d)); [eauto|contradiction]. }
  destruct Ho as [q Hq]. exists q. split.
  - now apply make_indep_partition.
  - intros q' H'. apply (make_indep_partition d rest Hnd Hm) in H'. unfold in_queues in Hq. congruence.
Qed.

(* `default` first is a genuine precondition (established by the parsec spec /
   WorkflowConfig, not by this class): with default last, name 5 ends up in both
   queues.  A precondition of the API, not a finding. *)
Theorem c05_partition_refuted_without_default_first :
  exists in_queues t, NoDup (map fst in_queues) /\
    In t (mems (make_indep in_queues) 1) /\ In t (mems (make_indep in_queues) q_default).
Proof.
  exists [(1, {| qc_limit := 1; qc_members := [5] |}); (q_default, {| qc_limit := 0; qc_members := [5; 6] |})], 5.
  split; [repeat constructor; cbn; intuition discriminate|]. vm_compute. tauto.
Qed.

(* one queue: the loop releases at most (limit - active) tasks *)
Theorem c05_limit_one_queue : forall front held q a rel q' a',
  release_queue front held q a = (rel, q', a') ->
  q_limit q <> 0 ->
  n_active (q_members q) a + length rel <= Nat.max (q_limit q) (n_active (q_members q) a).
Proof.
  intros front held q a rel q' a' E Hl.
  destruct (release_queue_inv E) as (h & rest & Ep & _).
  eapply pop_loop_limit; eauto.
Qed.

(* the manager: after release_tasks the active count of every limited queue —
   now including the tasks just released, by ANY queue, through the shared
   counter — is at most its limit (or what it already was, if manual triggering
   had taken it above the limit) *)
Theorem c05_limit : forall front held qs a rel qs' a',
  release_all front held qs a = (rel, qs', a') ->
  wf qs ->
  forall q, In q qs -> q_limit q <> 0 ->
  n_active (q_members q) a' <= Nat.max (q_limit q) (n_active (q_members q) a).
Proof. exact release_all_limit. Qed.

(* well-formedness (distinct queue names, duplicate-free and pairwise disjoint
   memberships, every queued task sits in the queue owning its name) is an
   invariant of every op, hence of every history from the constructor's state *)
Theorem c05_invariant_step : forall front st o,
  wf (st_queues st) -> op_ok (st_queues st) o -> wf (st_queues (fst (step front st o))).
Proof. exact step_wf. Qed.

Theorem c05_invariant_all_histories : forall all d c0 rest front ops,
  NoDup (map fst ((q_default, c0) :: rest)) ->
  let st0 := init_state (make_indep (prepared all d c0 rest)) in
  ops_ok front st0 ops -> wf (st_queues (run front st0 ops)).
Proof. exact init_state_reachable_wf. Qed.

(* ... so the limit holds at every release of every history *)
Theorem c05_limit_all_histories : forall all d c0 rest front ops a rel qs' a',
  NoDup (map fst ((q_default, c0) :: rest)) ->
  let st0 := init_state (make_indep (prepared all d c0 rest)) in
  ops_ok front st0 ops ->
  let st := run front st0 ops in
  release_all front (st_held st) (st_queues st) a = (rel, qs', a') ->
  forall q, In q (st_queues st) -> q_limit q <> 0 ->
  n_active (q_members q) a' <= Nat.max (q_limit q) (n_active (q_members q) a).
Proof.
  intros all d c0 rest front ops a rel qs' a' Hnd st0 Hops st E.
  eapply release_all_limit; [exact E|]. now apply init_state_reachable_wf.
Qed.

(* a queued task sits in one deque only *)
Theorem c05_queued_in_one_queue : forall qs, wf qs -> forall q1 q2 t1 t2,
  In q1 qs -> In q2 qs -> In t1 (q_deque q1) -> In t2 (q_deque q2) -> t_name t1 = t_name t2 ->
  q_name q1 = q_name q2.
Proof.
  intros qs [_ _ Wdq Wdj] q1 q2 t1 t2 H1 H2 Ht1 Ht2 Hn.
  assert (M : forall q t, In q qs -> In t (q_deque q) -> In (t_name t) (q_members q)).
  { intros q t Hq. revert t. apply Forall_forall. exact (proj1 (Forall_forall _ _) Wdq q Hq). }
  f_equal. apply (pairwise_disjoint_unique _ Wdj _ _ (t_name t1)); auto.
  rewrite Hn. auto.
Qed.

(* release pops a prefix of the queue; the released tasks are the non-held tasks
   of that prefix in queued order = the first (limit - active) non-held tasks
   (all of them for an unlimited queue); it stops early only at the limit; held
   tasks that were passed over go back (relative order among them kept; where
   they go back — front = fixed code, back = pre-fix code — is the [front] flag) *)
Theorem c05_fifo : forall front held q a rel q' a',
  release_queue front held q a = (rel, q', a') ->
  let n := n_active (q_members q) a in
  exists popped rest,
    q_deque q = popped ++ rest
    /\ rel = filter (nonheld held) popped
    /\ q_deque q' = requeue front (filter (is_held held) popped) rest
    /\ (rest = [] \/ (q_limit q <> 0 /\ q_limit q <= n + length rel))
    /\ rel = (if Nat.eqb (q_limit q) 0 then filter (nonheld held) (q_deque q)
              else firstn (q_limit q - n) (filter (nonheld held) (q_deque q))).
Proof.
  intros front held q a rel q' a' E n.
  destruct (release_queue_inv E) as (h & rest & Ep & -> & _).
  destruct (pop_loop_split Ep) as (p & Hd & Hr & ->).
  exists p, rest. repeat split; auto.
  - exact (pop_loop_maximal Ep).
  - exact (pop_loop_released Ep).
Qed.

(* nothing is lost or duplicated by a release *)
Theorem c05_release_conserves : forall front held q a rel q' a',
  release_queue front held q a = (rel, q', a') -> deque_ok q ->
  Permutation (q_deque q) (rel ++ q_deque q').
Proof. intros front held q a rel q' a' E _. exact (release_queue_conserves E). Qed.

(* The full order statement of the property: the tasks left in the queue keep
   their queued order (so that a later release again takes the oldest first). *)
Definition c05_order_preserved_stmt (front : bool) : Prop :=
  forall held q a rel q' a',
    release_queue front held q a = (rel, q', a') -> sublist (q_deque q') (q_deque q).

(* It holds for the code as it is now (fix ffd4e73: held tasks that were passed
   over go back to the oldest end in their original order; the model's
   [held_requeue_front] = true is what the correspondence stream validates). *)
Theorem c05_order_preserved : c05_order_preserved_stmt held_requeue_front.
Proof.
  intros held q a rel q' a' E.
  destruct (c05_fifo _ _ _ _ _ _ _ E) as (p & rest & -> & _ & -> & _).
  apply sublist_filter_app.
Qed.

(* PRE-FIX CODE ONLY (parameter value false = `for itask in held:
   self.deque.appendleft(itask)`, before ffd4e73): the statement was false —
   limit 1, queue A(held) B C, nothing active: B is released and the queue
   became C A.  Kept as the record of the fixed finding; the witness stays in the
   stream's corpus as a regression case. *)
Theorem c05_order_preserved_refuted_for_prefix_code : ~ c05_order_preserved_stmt false.
Proof.
  intros H.
  specialize (H [0] {| q_name := 0; q_limit := 1; q_members := [0; 1; 2];
                       q_deque := [ {| t_id := 0; t_name := 0 |}; {| t_id := 1; t_name := 1 |};
                                    {| t_id := 2; t_name := 2 |} ] |} [] _ _ _ eq_refl).
  vm_compute in H.
  repeat match goal with
         | H : sublist _ _ |- _ => inversion H; subst; clear H
         end.
Qed.

(* the unit test's shape: foo (=3) listed by q1 and q2 ends up in q2 only *)
Example c05_ex_last_wins :
  init_config [0; 1; 2; 3] [(100, [0; 1]); (101, [2])]
    [(0, {| qc_limit := 2; qc_members := [] |});
     (1, {| qc_limit := 1; qc_members := [100; 3] |});
     (2, {| qc_limit := 3; qc_members := [101; 3] |})]
  = Some [(0, {| qc_limit := 2; qc_members := [] |});
          (1, {| qc_limit := 1; qc_members := [0; 1] |});
          (2, {| qc_limit := 3; qc_members := [2; 3] |})].
Proof. vm_compute. reflexivity. Qed.

(* a release at a state reached by a history: limit 2, one active, three queued
   (one held): exactly one is released *)
Example c05_ex_release :
  let st := run held_requeue_front (init_state [(0, {| qc_limit := 2; qc_members := [0; 1; 2] |})])
              [OSetHeld 10 true; OPush {| t_id := 10; t_name := 0 |};
               OPush {| t_id := 11; t_name := 1 |}; OPush {| t_id := 12; t_name := 2 |}] in
  snd (step held_requeue_front st (ORelease [(0, 1)])) = ObsReleased [11] [(0, 1); (1, 1)].
Proof. vm_compute. reflexivity. Qed.

(* the pool automaton (Model/Pool.v), by qualified names: Pool.v and Queues.v
   share some identifiers *)
From Cylc Require Model.Pool Proofs.PoolProofs Proofs.PoolTheorems.

(* Whenever the automaton accepts a queue release in a real run: no released
   task is held (unless manually triggered), and for every limited queue that
   gets a newly released non-triggered member, the members already active or
   released-awaiting-preparation plus the new ones stay within the limit. *)
Theorem c05_pool_release_respects_queue_limits : forall c s l s',
  Pool.step c s (Pool.ERelease l) = Pool.Ok s' ->
  (forall t, In t l -> exists p, Pool.find_task (Pool.pool s) t = Some p /\
                                 (Pool.p_held p = false \/ Pool.p_manual p = true)) /\
  forall q, (q < length (Pool.c_qlimits c))%nat -> Pool.qlimit c q <> 0%nat ->
    PoolTheorems.count_in_queue c q (PoolTheorems.newly_released s l) <> 0%nat ->
    (Pool.active_in c s q + PoolTheorems.count_in_queue c q (PoolTheorems.newly_released s l) <= Pool.qlimit c q)%nat.
Proof. exact PoolTheorems.release_respects_queue_limits. Qed.

(* A task that becomes queued is not held (unless manually triggered). *)
Theorem c05_pool_held_not_queued : forall c s t st h s' p inp r,
  Pool.step c s (Pool.EState t st h true r) = Pool.Ok s' -> Pool.lookup s t = Some (p, inp) ->
  Pool.p_queued p = false -> Pool.p_manual p = false -> h = false.
Proof. exact PoolTheorems.held_not_queued. Qed.
