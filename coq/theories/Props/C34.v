(* Props/C34.v — C34 "Parameter expansion yields exactly the Cartesian product".
   Model/Param.v is the hand model of
   cylc/flow/param_expand.py (GraphExpander, NameExpander) and of the removal of
   out-of-range offset nodes in cylc/flow/graph_parser.py; it is tied to the code
   by the three C34 correspondence streams (graph, name, drop).

   Vocabulary (Proofs/ParamProofs.v):
     assignment ps a   a gives each parameter of ps, in order, one of its values
     combos ps         the list of all assignments, first parameter outermost
     size_product ps   product of the lengths of the value lists
     line_items l      all items `p`, `p=v`, `p+k` of all groups of the line
     plain vs          no string of vs reads as an integer
     upd_all spec a    spec updated with the bindings of a, left to right
     two_leading_marked e   the first two nodes of e are both marked for removal
   and, from Model/Param.v:
     subst_line c env l   the line with every <...> group replaced, loop values env *)
From Coq Require Import List Bool ZArith Lia String Ascii.
From Cylc Require Import Base.Util Model.Param Proofs.ParamProofs.
Import ListNotations.
Open Scope Z_scope.

(* The set returned by GraphExpander.expand is, for the duplicate-free list
   [used] of the parameters that occur in the line, exactly the set of lines
   obtained from the assignments of [used] (and every assignment renders). *)
Theorem c34_graph_cartesian : forall c l ls,
  graph_expand c l = Ok ls ->
  exists used,
    check_line c l [] = Ok used /\ NoDup used /\
    (forall p, In p used <-> In p (map fst (line_items l))) /\
    (forall a, assignment (used_params c used) a -> exists s, subst_line c (rev a) l = Ok s) /\
    (forall s, In s ls <->
       s <> [] /\ exists a, assignment (used_params c used) a /\ subst_line c (rev a) l = Ok s).
Proof.
  intros c l ls. rewrite graph_expand_combos. intros H. apply bind_ok in H. destruct H as (used & Ec & H).
  exists used. split; [exact Ec|].
  rewrite check_line_items in Ec. destruct (check_items_used _ _ _ _ Ec (NoDup_nil _)) as [N1 N2].
  split; [exact N1|]. split; [exact N2|].
  apply collect_ok in H. destruct H as [H1 H2]. split.
  - intros a Ha. apply H1, combos_spec, Ha.
  - intros s. rewrite H2. split.
    + intros (a & s' & Ha & Es & Hs). apply In_nonempty in Hs. destruct Hs as [Hne ->].
      split; [exact Hne|]. exists a. split; [now apply combos_spec|exact Es].
    + intros (Hne & a & Ha & Es). exists a, s. split; [now apply combos_spec|].
      split; [exact Es|]. apply In_nonempty. auto.
Qed.

(* One line is generated per combination: the number of generated lines
   (before the Python set merges equal strings) is the product of the sizes. *)
Theorem c34_graph_size : forall c l ls used,
  graph_expand c l = Ok ls -> check_line c l [] = Ok used ->
  (forall a, assignment (used_params c used) a -> subst_line c (rev a) l <> Ok []) ->
  List.length ls = size_product (used_params c used).
Proof.
  intros c l ls used H Ec Hne. rewrite graph_expand_combos, Ec in H. cbn [bind] in H.
  rewrite <- combos_length. apply (collect_length _ _ _ _ H). intros a s Ha Es.
  destruct s; [|reflexivity].
  exfalso. apply (Hne a); [now apply combos_spec|exact Es].
Qed.

(* The combinations themselves: all assignments, each exactly once. *)
Theorem c34_combinations : forall ps,
  (forall a, In a (combos ps) <-> assignment ps a) /\
  List.length (combos ps) = size_product ps /\
  ((forall pv, In pv ps -> NoDup (snd pv)) -> NoDup (combos ps)).
Proof.
  intros ps. split; [intros a; apply combos_spec|]. split; [apply combos_length|apply combos_NoDup].
Qed.

(* `<p=v>` contributes exactly what `<p>` contributes in the one combination
   where the loop value of p is v. *)
Theorem c34_fixed_value_is_that_combination : forall c env p raw,
  item_value c env (p, SEq raw) = item_value c ((p, nval raw) :: env) (p, SFree).
Proof. intros c env p raw. cbn. now rewrite Nat.eqb_refl. Qed.

(* Full statement: an accepted fixed value is one of the parameter's values
   (so the instance is one of the instances of the free parameter). *)
Definition c34_fixed_value_member_all : Prop :=
  forall c l u used p raw vs,
    check_line c l u = Ok used -> NoDup u -> In (p, SEq raw) (line_items l) ->
    vals_of c p = Some vs -> In (nval raw) vs.

(* Proved for value lists none of whose strings reads as an integer ... *)
Theorem c34_fixed_value_member_partial : forall c l u used p raw,
  check_line c l u = Ok used -> NoDup u -> In (p, SEq raw) (line_items l) ->
  exists vs, vals_of c p = Some vs /\ in_iter (nval raw) vs = Ok true /\
             (plain vs -> In (nval raw) vs).
Proof.
  intros c l u used p raw H _ Hin. rewrite check_line_items in H.
  destruct (check_items_ok _ _ _ _ H _ Hin) as (vs & Hv & Hi).
  exists vs. split; [exact Hv|]. split; [exact Hi|]. intros Hp. now apply in_iter_plain.
Qed.

Definition s2t (s : string) : text := map (fun a => Z.of_N (N_of_ascii a)) (list_ascii_of_string s).

(* ... and false in general (finding): m = 072, a and foo<m=072>: the check
   passes (int('072') == 72) but the value rendered is the integer 72. *)
Definition cfg_padded : cfg :=
  [(0%nat, {| p_vals := [VStr (s2t "072"); VStr (s2t "a")];
              p_tmpl := [Lit (s2t "_"); Fld 0%nat FS] |})].
Definition line_padded : line := [TLit (s2t "foo"); TGrp [(0%nat, SEq (s2t "072"))]].
Theorem c34_fixed_value_member_refuted : ~ c34_fixed_value_member_all.
Proof.
  intros H.
  specialize (H cfg_padded line_padded [] [0%nat] 0%nat (s2t "072")
                [VStr (s2t "072"); VStr (s2t "a")] eq_refl (NoDup_nil _)
                (or_introl eq_refl) eq_refl).
  vm_compute in H. destruct H as [H|[H|[]]]; discriminate.
Qed.
(* (one line per loop value of m; the Python set merges the two equal strings) *)
Example c34_padded_expands_to_72 :
  graph_expand cfg_padded line_padded = Ok [s2t "foo_72"; s2t "foo_72"].
Proof. vm_compute. reflexivity. Qed.

(* `<p+k>` with the loop at the i-th value of p denotes the (i+k)-th value and
   the _REMOVE marker when there is no such value. *)
Theorem c34_offset_semantics : forall c env p k v pl i,
  assoc Nat.eqb p env = Some v -> vals_of c p = Some pl ->
  NoDup pl -> nthZ pl i = Some v ->
  item_value c env (p, SOff k) =
    Ok (match nthZ pl (i + k) with Some w => w | None => REMOVE end).
Proof.
  intros c env p k v pl i Ha Hv Hnd Hn. cbn. rewrite Ha, Hv.
  rewrite (index_of_NoDup v pl 0 i Hnd Hn). cbn [Z.add].
  destruct ((0 <=? i + k) && (i + k <? lenZ pl)) eqn:Er.
  - destruct (nthZ pl (i + k)); reflexivity.
  - assert (Hnone : nthZ pl (i + k) = None) by (apply nthZ_none; lia).
    now rewrite Hnone.
Qed.

(* `<p-1>` is the previous value; at the first value it is the marker. *)
Theorem c34_previous_value : forall c env p v pl i,
  assoc Nat.eqb p env = Some v -> vals_of c p = Some pl ->
  NoDup pl -> nthZ pl i = Some v ->
  (i = 0 -> item_value c env (p, SOff (-1)) = Ok REMOVE) /\
  (forall w, nthZ pl (i - 1) = Some w -> item_value c env (p, SOff (-1)) = Ok w).
Proof.
  intros c env p v pl i Ha Hv Hnd Hn.
  pose proof (c34_offset_semantics c env p (-1) v pl i Ha Hv Hnd Hn) as H.
  replace (i + -1) with (i - 1) in H by lia. split.
  - intros ->. rewrite H. assert (E : nthZ pl (0 - 1) = None) by (apply nthZ_none; lia).
    now rewrite E.
  - intros w Hw. now rewrite H, Hw.
Qed.

(* The out-of-range node is dropped (graph_parser.py).
   Full statement: after the removal pass exactly the unmarked nodes remain. *)
Definition c34_drop_exact_all : Prop :=
  forall e, expr_nodes (drop_nodes e) = drop_spec e.

(* Proved unless the first two nodes of the expression are both marked ... *)
Theorem c34_drop_exact_partial : forall e,
  ~ two_leading_marked e -> expr_nodes (drop_nodes e) = drop_spec e.
Proof.
  intros [[m1 t1] rest]. unfold two_leading_marked, drop_nodes, drop_spec. cbn [fst snd].
  intros Hn. destruct m1; cbn.
  - destruct rest as [|[op [m2 t2]] rest']; cbn; [reflexivity|].
    destruct m2; [exfalso; apply Hn; cbn; auto|]. cbn. f_equal. apply keep_rest_nodes.
  - f_equal. apply keep_rest_nodes.
Qed.

(* ... in which case the marked second node survives (finding):
   `foo<m-1> & bar<m-1> => ...` at the first value of m leaves bar_-32768. *)
Theorem c34_drop_two_leading_survives : forall e,
  two_leading_marked e ->
  exists n2, fst n2 = true /\ In (snd n2) (expr_nodes (drop_nodes e)).
Proof.
  intros [[m1 t1] rest]. unfold two_leading_marked. cbn [fst snd].
  intros [-> H]. destruct rest as [|[op n2] rest']; [destruct H|].
  exists n2. split; [exact H|]. cbn. now left.
Qed.

Definition expr_two : expr :=
  ((true, s2t "foo_-32768"), [(38, (true, s2t "bar_-32768"))]).
Theorem c34_drop_exact_refuted : ~ c34_drop_exact_all.
Proof. intros H. specialize (H expr_two). vm_compute in H. discriminate. Qed.

(* A name with <...> groups expands to one instance per assignment of the
   free parameters [used]: the instance dict is the fixed values [spec]
   updated with the assignment, the name is the template applied to it. *)
Theorem c34_name_cartesian : forall c l r,
  has_group l = true -> name_expand1 c l = Ok r ->
  exists tm spec used,
    name_scan c l [] [] [] = Ok (tm, spec, used) /\
    List.length r = size_product used /\
    (forall a, assignment used a -> exists s, apply_tmpl tm (upd_all spec a) = Ok s) /\
    (forall s d, In (s, d) r <->
       exists a, assignment used a /\ d = upd_all spec a /\ apply_tmpl tm d = Ok s).
Proof.
  intros c l r Hg. unfold name_expand1. rewrite Hg. intros H. apply bind_ok in H.
  destruct H as ([[tm spec] used] & Es & H). exists tm, spec, used. split; [exact Es|].
  rewrite expand_name_rec_combos in H. split; [|split].
  - rewrite <- combos_length. apply (collect_length _ _ _ _ H). reflexivity.
  - intros a Ha. apply collect_ok in H. apply H, combos_spec, Ha.
  - apply collect_ok in H. destruct H as [_ H2]. intros s d. rewrite H2. split.
    + intros (a & s' & Ha & Et & [[= <- <-]|[]]). exists a. apply combos_spec in Ha. auto.
    + intros (a & Ha & -> & Et). exists a, s. apply combos_spec in Ha. cbn. auto.
Qed.

(* In an instance every free parameter has its loop value ... *)
Theorem c34_name_free_bound : forall spec used a p v,
  assignment used a -> NoDup (map fst used) -> In (p, v) a ->
  assoc Nat.eqb p (upd_all spec a) = Some v.
Proof.
  intros spec used a p v Ha Hnd Hin. apply upd_all_bound; [|exact Hin].
  rewrite (assignment_names _ _ Ha). exact Hnd.
Qed.

(* ... and a fixed parameter keeps its fixed value, provided it is not also
   used free in the same name. *)
Definition c34_name_fixed_kept_all : Prop :=
  forall spec used a p v,
    assignment used a -> assoc Nat.eqb p spec = Some v ->
    assoc Nat.eqb p (upd_all spec a) = Some v.

Theorem c34_name_fixed_kept_partial : forall spec used a p v,
  assignment used a -> ~ In p (map fst used) -> assoc Nat.eqb p spec = Some v ->
  assoc Nat.eqb p (upd_all spec a) = Some v.
Proof.
  intros spec used a p v Ha Hp Hs. rewrite upd_all_other; [exact Hs|].
  rewrite (assignment_names _ _ Ha). exact Hp.
Qed.

(* finding: foo<i=0>bar<i> — one dict serves the whole name, the loop value
   overwrites the fixed one: foo_i1bar_i1 instead of foo_i0bar_i1. *)
Definition cfg_i : cfg :=
  [(0%nat, {| p_vals := [VInt 0; VInt 1]; p_tmpl := [Lit (s2t "_i"); Fld 0%nat (FD false 0)] |})].
Definition name_fixed_free : line :=
  [TLit (s2t "foo"); TGrp [(0%nat, SEq (s2t "0"))]; TLit (s2t "bar"); TGrp [(0%nat, SFree)]].
Theorem c34_name_fixed_kept_refuted : ~ c34_name_fixed_kept_all.
Proof.
  intros H.
  specialize (H [(0%nat, VInt 0)] [(0%nat, [VInt 0; VInt 1])] [(0%nat, VInt 1)] 0%nat (VInt 0)).
  assert (A : assignment [(0%nat, [VInt 0; VInt 1])] [(0%nat, VInt 1)]).
  { constructor; [cbn; auto|constructor]. }
  specialize (H A eq_refl). vm_compute in H. discriminate.
Qed.
Example c34_name_fixed_free_instances :
  name_expand1 cfg_i name_fixed_free =
  Ok [(s2t "foo_i0bar_i0", [(0%nat, VInt 0)]); (s2t "foo_i1bar_i1", [(0%nat, VInt 1)])].
Proof. vm_compute. reflexivity. Qed.

(* non-vacuity: tests/unit/test_param_expand.py test_graph_expand_offset_1 *)
Definition cfg_ij : cfg :=
  [(0%nat, {| p_vals := [VInt 0; VInt 1]; p_tmpl := [Lit (s2t "_i"); Fld 0%nat (FD false 0)] |});
   (1%nat, {| p_vals := [VInt 0; VInt 1; VInt 2]; p_tmpl := [Lit (s2t "_j"); Fld 1%nat (FD false 0)] |})].
Definition line_off : line :=
  [TLit (s2t "bar"); TGrp [(0%nat, SOff (-1)); (1%nat, SFree)];
   TLit (s2t "=>baz"); TGrp [(0%nat, SFree); (1%nat, SFree)]].
Example c34_offset_example :
  graph_expand cfg_ij line_off =
  Ok (map s2t ["bar_i-32768_j0=>baz_i0_j0"; "bar_i-32768_j1=>baz_i0_j1"; "bar_i-32768_j2=>baz_i0_j2";
               "bar_i0_j0=>baz_i1_j0"; "bar_i0_j1=>baz_i1_j1"; "bar_i0_j2=>baz_i1_j2"]%string).
Proof. vm_compute. reflexivity. Qed.
Example c34_offset_example_size :
  size_product (used_params cfg_ij [0%nat; 1%nat]) = 6%nat.
Proof. reflexivity. Qed.
Example c34_drop_example :
  expr_nodes (drop_nodes ((false, s2t "baz"), [(38, (true, s2t "foo_-32768")); (38, (false, s2t "pub"))]))
  = [s2t "baz"; s2t "pub"].
Proof. vm_compute. reflexivity. Qed.
