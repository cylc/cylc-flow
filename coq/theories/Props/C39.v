(* Props/C39.v — C39 "Workflow names cannot escape the cylc-run directory".
   The lemmas are in Proofs/WfNameProofs.v, except the two table sweeps
   [nonword_tbl] and [validate_tbl] below.
   The model (Model/WfName.v: validate_workflow_name, check_reserved_dir_names,
   the WorkflowNameValidator rules regenerated into Gen/WfNameRules.v, and
   posixpath isabs/join/normpath) is tied to the source by the C39
   correspondence stream.  Strings are lists of code points.

   The regex classes \w and \d are external behaviour of the regex engine: the
   theorems hold for *every* choice of them ([is_word], [is_digit] are
   universally quantified); the correspondence run instantiates them with the
   tables of the running CPython (Gen/UniClasses.v). *)
From Coq Require Import List ZArith Bool.
From Cylc Require Import Base.Util Gen.WfNameRules Gen.UniClasses Model.WfName Proofs.WfNameProofs.
Import ListNotations.
Open Scope Z_scope.

(* "Every workflow name that passes validation resolves to a path strictly
   inside the cylc-run directory and contains no reserved directory name when
   reserved names are checked."

   For every absolute cylc-run directory [run] (normalised or not) and every
   accepted [name]: the normalised path of run/name has the same leading
   slashes as that of [run], and its components are exactly the components
   of normpath(run) followed by a NON-EMPTY list [rest] of real directory
   names (not empty, not ".", not "..", without "/") — so it is a strict
   descendant of the cylc-run directory; [rest] is what the name itself
   normalises to; and when check_reserved_names is set no component of [rest]
   is in WorkflowFiles.RESERVED_NAMES (the regenerated table) or matches
   ^run\d+$. *)
Theorem c39_inside : forall (is_word is_digit : Z -> bool) chk name run,
  validate is_word is_digit chk name = Ok -> isabs run = true ->
  exists rest,
    rest <> [] /\ Forall real_comp rest /\
    normpath name = join_with 47 rest /\
    initial_slashes (pjoin run name) = initial_slashes run /\
    path_comps (pjoin run name) = path_comps run ++ rest /\
    (chk = true -> Forall (fun c => mem codes_eqb c reserved_names = false
                                    /\ is_run_number is_digit c = false) rest).
Proof. exact inside. Qed.

(* The same at the level of path strings:
   normpath(join(run, name)) = normpath(run) [+ "/"] + normpath(name)
   (the "/" is absent only when normpath(run) is "/" or "//"). *)
Theorem c39_inside_string : forall (is_word is_digit : Z -> bool) chk name run,
  validate is_word is_digit chk name = Ok -> isabs run = true ->
  normpath (pjoin run name) =
  normpath run ++ (match path_comps run with [] => [] | _ => [47] end) ++ normpath name.
Proof.
  intros is_word is_digit chk name run Hv Hrun.
  destruct (inside is_word is_digit chk name run Hv Hrun) as (rest & Hne & _ & Hnp & Hsl & Hpc & _).
  rewrite (normpath_abs _ (isabs_pjoin run name Hrun)), (normpath_abs _ Hrun).
  rewrite Hsl, Hpc, (join_app 47 _ _ Hne), Hnp, <- app_assoc. reflexivity.
Qed.

(* The accepted alphabet (from the regenerated rule table): as long as the
   regex engine's \w and \d do not match NUL, TAB, LF, VT, FF, CR, space, "$",
   backslash or "~", an accepted name contains none of them — so no "~user"
   or "$VAR" expansion can move the path — except for ONE trailing newline,
   which Python's `$` lets through (observed on the implementation: 'foo\n'
   is a valid workflow name). *)
Definition specials : list Z := [0; 9; 10; 11; 12; 13; 32; 36; 92; 126].

Theorem c39_no_special_chars : forall (is_word is_digit : Z -> bool) chk name,
  (forall c, In c specials -> is_word c = false /\ is_digit c = false) ->
  validate is_word is_digit chk name = Ok ->
  exists body, (name = body \/ name = body ++ [10]) /\ body <> [] /\
               forall c, In c specials -> ~ In c body.
Proof.
  intros is_word is_digit chk name Hcls Hv.
  assert (Hr : exists cls, In (RAllowed cls) rules /\
               forallb (fun c => negb (in_cls (fun _ => false) (fun _ => false) cls c)) specials = true).
  { eexists. split; [unfold rules; cbn [In]; auto 10|]. vm_compute. reflexivity. }
  destruct Hr as (cls & Hin & Hex).
  destruct (accepted_chars is_word is_digit chk name cls Hv Hin) as (body & Hb & Hne & Hall).
  exists body. repeat split; auto. intros c Hc Hcb.
  destruct (Hcls c Hc) as [Hw Hd].
  destruct (in_cls_split is_word is_digit cls c (Hall c Hcb)) as [H|[H|H]]; try congruence.
  rewrite forallb_forall in Hex. specialize (Hex c Hc). rewrite H in Hex. discriminate.
Qed.

(* The characters below 127 that the running CPython's \w does not match and
   that the theorem below or the examples meet: ".", "/" and the specials. *)
Lemma nonword_tbl : forall c, In c (46 :: 47 :: specials) -> is_word_tbl c = false.
Proof. apply (none_in_ranges_spec _ 126). vm_compute. reflexivity. Qed.

(* The hypothesis of [c39_no_special_chars] holds of the running CPython's
   \w and \d tables, so the conclusion holds of the model the correspondence
   run validates. *)
Theorem c39_no_special_chars_cpython : forall chk name,
  validate is_word_tbl is_digit_tbl chk name = Ok ->
  exists body, (name = body \/ name = body ++ [10]) /\ body <> [] /\
               forall c, In c specials -> ~ In c body.
Proof.
  intros chk name. apply c39_no_special_chars. intros c Hc.
  split; [apply nonword_tbl; now do 2 right|].
  revert c Hc. apply (none_in_ranges_spec specials 126). vm_compute. reflexivity.
Qed.

(* Non-vacuity.  Evaluated directly, every "." and "/" of a name costs a pass over the whole
   \w table; the examples are evaluated with those characters decided first. *)
Lemma validate_tbl chk name :
  validate is_word_tbl is_digit_tbl chk name =
  validate (except (46 :: 47 :: specials) is_word_tbl) is_digit_tbl chk name.
Proof. apply validate_ext, except_eq, nonword_tbl. Qed.

(* "a/../exp/./run/x1/" is accepted, with and without the reserved-name check,
   and under /home/u/cylc-run it resolves to /home/u/cylc-run/exp/run/x1 *)
Definition ex_name : codes := [97;47;46;46;47;101;120;112;47;46;47;114;117;110;47;120;49;47].
Definition ex_run : codes := [47;104;111;109;101;47;117;47;99;121;108;99;45;114;117;110].
Example c39_ex_accept : validate is_word_tbl is_digit_tbl true ex_name = Ok.
Proof. rewrite validate_tbl. vm_compute. reflexivity. Qed.
Example c39_ex_resolve :
  normpath (pjoin ex_run ex_name) = ex_run ++ [47;101;120;112;47;114;117;110;47;120;49].
Proof. vm_compute. reflexivity. Qed.
(* the rejections the theorem relies on really happen: "a/../.." is Above,
   "a/share" and "a/run12" are refused when reserved names are checked,
   "/a" is absolute, "~u" has a character outside the allowed set *)
Example c39_ex_above : validate is_word_tbl is_digit_tbl false [97;47;46;46;47;46;46] = Above.
Proof. rewrite validate_tbl. vm_compute. reflexivity. Qed.
Example c39_ex_reserved :
  validate is_word_tbl is_digit_tbl true [97;47;115;104;97;114;101] = Reserved [115;104;97;114;101].
Proof. rewrite validate_tbl. vm_compute. reflexivity. Qed.
Example c39_ex_runN : validate is_word_tbl is_digit_tbl true [97;47;114;117;110;49;50] = RunNumber.
Proof. rewrite validate_tbl. vm_compute. reflexivity. Qed.
Example c39_ex_abs : validate is_word_tbl is_digit_tbl false [47;97] = IsAbs.
Proof. rewrite validate_tbl. vm_compute. reflexivity. Qed.
Example c39_ex_tilde : validate is_word_tbl is_digit_tbl false [126;117] = Invalid 2.
Proof. rewrite validate_tbl. vm_compute. reflexivity. Qed.
(* observed quirks of the implementation, reproduced by the model (neither
   contradicts the property text): a trailing newline is accepted, and the
   reserved-name check looks at the normalised path only *)
Example c39_ex_trailing_newline : validate is_word_tbl is_digit_tbl true [102;111;111;10] = Ok.
Proof. rewrite validate_tbl. vm_compute. reflexivity. Qed.
Example c39_ex_reserved_then_dotdot :   (* "a/share/../b" *)
  validate is_word_tbl is_digit_tbl true [97;47;115;104;97;114;101;47;46;46;47;98] = Ok.
Proof. rewrite validate_tbl. vm_compute. reflexivity. Qed.
