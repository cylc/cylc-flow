(* Props/C40.v — C40 "Workflow-state queries match exactly what was recorded".
   Model: Model/LikeGlob.v (CylcWorkflowDBChecker.workflow_state_query,
   _selector_in_outputs, check_polling_config, and the SQLite LIKE / GLOB / ==
   operators), tied to cylc/flow/dbstatecheck.py and to the sqlite3 library by
   the two correspondence streams of vp/props/c40.py.

   [code_query]  = what the code computes (SQL GLOB on the escaped pattern when it
                   has a '*', == otherwise, status / output selector, flow filter)
   [spec_query]  = what the property text says ('*' any sequence, every other
                   character only itself, case-sensitively).
   Both return None for the InputError of check_polling_config and otherwise the
   ascending indices of the returned rows. *)
From Coq Require Import List ZArith Bool Arith Lia.
From Cylc Require Import Base.Util Model.LikeGlob Proofs.LikeGlobProofs.
Import ListNotations.
Open Scope Z_scope.

(* The property, in full: for every table and every query whose task / cycle
   pattern is not the empty string (an empty string is the caller's "not given":
   `if task:`), the code returns exactly the recorded instances that match, where
   '*' matches any sequence and every other character only itself, case
   sensitively.  No restriction on '_', '%', case or any other character.
   (Proved since fix 5844984: GLOB on the escaped pattern.) *)
Theorem c40_query_exact : forall q rows,
  pat_nonempty (q_task q) -> pat_nonempty (q_cycle q) ->
  code_query q rows = spec_query q rows.
Proof.
  intros q rows Ht Hc. apply run_query_ext; intros s _; apply code_match_spec; assumption.
Qed.

(* At the level of one name: SQLite GLOB on the pattern with '?' and '[' wrapped
   as one-character sets is exact matching for every pattern and name (this also
   shows the GLOB tokenizer never runs out of fuel on escaped patterns); and a
   pattern without '*' (compared with ==) matches only itself. *)
Theorem c40_fixed_glob_exact : forall p s,
  sqlite_glob (glob_escape p) s = spec_glob p s.
Proof. exact glob_escape_exact. Qed.

Theorem c40_no_star_exact : forall p s,
  has_star p = false -> (spec_glob p s = true <-> p = s).
Proof. intros p s H. rewrite spec_glob_nostar by exact H. apply list_eqb_Z_eq. Qed.

(* Regression facts about the PRE-FIX code (LIKE after '*' -> '%').
   [legacy_code_query] is the query as it was before 5844984.  These two
   theorems document the defect that was fixed and why the witnesses stay in
   the corpus; they say nothing about the current code.
   "a_b*"  "axb"  "A_B1"  "a_b1" *)
Definition w_pat : str := [97; 95; 98; 42].
Definition w_axb : str := [97; 120; 98].
Definition w_A_B1 : str := [65; 95; 66; 49].
Definition w_a_b1 : str := [97; 95; 98; 49].
Definition w_row (n : str) : row :=
  {| r_name := n; r_cycle := [49]; r_flows := [1]; r_status := s_succeeded;
     r_is_dict := true; r_outputs := [] |}.
Definition w_query : query :=
  {| q_task := Some w_pat; q_cycle := None; q_sel := Some s_succeeded;
     q_trigger := false; q_message := false; q_flow := None |}.
Definition w_rows := [w_row w_axb; w_row w_A_B1; w_row w_a_b1].

(* pre-fix: task "a_b*" returned "axb" ('_' as wildcard) and "A_B1" (case
   ignored) as well as "a_b1"; the current code returns only "a_b1". *)
Theorem c40_legacy_like_was_inexact :
  legacy_code_query w_query w_rows = Some [0; 1; 2]%nat /\
  spec_query w_query w_rows = Some [2]%nat /\
  code_query w_query w_rows = Some [2]%nat.
Proof. repeat split; vm_compute; reflexivity. Qed.

(* pre-fix: LIKE on the translated pattern was exact only on "safe" patterns *)
Theorem c40_legacy_like_exact_when_safe : forall p s,
  safe p s -> sqlite_like (translate p) s = spec_glob p s.
Proof. exact like_translate_spec. Qed.

(* The answer contains each recorded instance at most once, and instance i is
   in it exactly when row i passes the code's row filter. *)
Theorem c40_result_characterised : forall q rows l,
  code_query q rows = Some l ->
  NoDup l /\
  forall i, In i l <-> exists r, nth_error rows i = Some r /\ row_ok code_match q r = true.
Proof. exact (query_result code_match). Qed.

(* Flow filtering keeps only, and all, instances in the requested flow: with
   flow f requested, instance i is returned iff f is one of its recorded flow
   numbers and it is selected by the same query without flow filter.
   (Holds for the code's matcher and for the spec matcher alike.) *)
Theorem c40_flow_filter : forall m q rows f l,
  q_flow q = Some f -> run_query_with m q rows = Some l ->
  forall i, In i l <->
    exists r, nth_error rows i = Some r /\ In f (r_flows r) /\ row_ok m (no_flow q) r = true.
Proof.
  intros m q rows f l Hf Hq i. destruct (query_result _ _ _ _ Hq) as [_ H]. rewrite H.
  split; intros (r & Hn & Hr); exists r; (split; [exact Hn|]); apply (row_ok_flow m q r f Hf), Hr.
Qed.

(* _selector_in_outputs: the selector is among the outputs, or it is
   "finished"/"finish" and "succeeded" or "failed" is. *)
Theorem c40_selector_in_outputs : forall x outs,
  selector_in_outputs x outs = true <->
  In x outs \/ ((x = s_finished \/ x = s_finish) /\ (In s_succeeded outs \/ In s_failed outs)).
Proof.
  intros x outs. unfold selector_in_outputs.
  apply orb_iff; [apply sid_mem_In|].
  apply andb_iff; apply orb_iff; try apply Nat.eqb_eq; apply sid_mem_In.
Qed.

(* a query with metacharacters in pattern and names: task "a_%*", cycle "1", flow 1
   against "a_%1", "ax%1", "A_%1", "a_%" : only the first and the last match *)
Definition e_rows := [w_row [97;95;37;49]; w_row [97;120;37;49]; w_row [65;95;37;49]; w_row [97;95;37]].
Definition e_query : query :=
  {| q_task := Some [97; 95; 37; 42]; q_cycle := Some [49]; q_sel := Some s_succeeded;
     q_trigger := false; q_message := false; q_flow := Some 1 |}.
Example c40_exact_example :
  pat_nonempty (q_task e_query) /\ pat_nonempty (q_cycle e_query) /\
  code_query e_query e_rows = Some [0; 3]%nat /\
  legacy_code_query e_query e_rows = Some [0; 1; 2; 3]%nat.
Proof. repeat split; try discriminate; vm_compute; reflexivity. Qed.

(* the LIKE model really treats '_', '%' as wildcards and ignores case *)
Example c40_like_underscore : sqlite_like (translate w_pat) w_axb = true /\ spec_glob w_pat w_axb = false.
Proof. vm_compute. auto. Qed.
Example c40_like_case : sqlite_like (translate w_pat) w_A_B1 = true /\ spec_glob w_pat w_A_B1 = false.
Proof. vm_compute. auto. Qed.
