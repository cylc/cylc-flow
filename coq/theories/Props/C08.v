(* Props/C08.v — C08 "Flow numbers propagate, merge and are never reused".
   Models: Model/Flow.v (hand model of FlowMgr + the workflow_flows table), tied to
   the real FlowMgr on a real sqlite DB by the "flowmgr" stream; Model/FlowCmd.v
   (`cylc set --flow`, introduced further down), tied to the real Scheduler by the
   "flowcmd" stream.
   Property text (FlowMgr part): "A new flow started by command always gets a number
   never used before in the workflow's history, including across restarts";
   "children ... carry that task's flow numbers (merged into any existing
   instance, which then belongs to the union)".
   Histories: any list of get_flow(new | n) / cli_to_flow_nums / process_queued_ops /
   clean restart with load_from_db(any selection). *)
From Coq Require Import List Bool ZArith Lia.
From Cylc Require Import Base.Util Model.Flow Model.FlowCmd Proofs.FlowProofs Proofs.FlowCmdProofs.
Import ListNotations.
Open Scope Z_scope.



(* The main theorem.  After ANY history [pre] from a fresh workflow, a number n
   handed out for a new flow (get_flow() or --flow=new) is not recorded anywhere
   and was not returned by any earlier call (new or given, before or after any
   number of restarts). *)
Theorem c08_new_flow_fresh : forall pre o st obs_pre st' n,
  frun f_init pre = (st, obs_pre) ->
  is_new o = true -> fstep st o = (st', ObNums [n]) ->
  ~ In n (used st) /\ (forall ob, In ob obs_pre -> ~ In n (obs_nums ob)).
Proof.
  intros pre o st obs_pre st' n Er Hn Es.
  destruct (frun_keeps _ _ _ _ Er Inv_init) as [(Hi & _ & Hr) _].
  pose proof (fstep_new_fresh _ _ _ _ Hn Es Hi) as Hf. split; [exact Hf|].
  intros ob Hob Hx. apply Hf, Hr, in_flat_map. eauto.
Qed.

(* The invariant behind it: every recorded number is <= counter or a key of
   FlowMgr.flows, and every key of .flows is recorded; it holds initially and is
   kept by every operation, restarts included; recorded numbers are never
   forgotten; every returned number is recorded; the skip loop never runs out of
   the fuel the model gives it. *)
Theorem c08_invariant_init : Inv f_init.
Proof. exact Inv_init. Qed.

Theorem c08_invariant_step : forall st o st' ob,
  fstep st o = (st', ob) -> Inv st ->
  Inv st' /\ grows st st' /\ (forall x, In x (obs_nums ob) -> In x (used st')) /\ ob <> ObFuel.
Proof.
  intros st o st' ob E Hi. destruct (fstep_keeps _ _ _ _ E Hi) as [(H1 & H2 & H3) H4]. auto.
Qed.

Theorem c08_invariant_all_histories : forall ops st' obs,
  frun f_init ops = (st', obs) ->
  Inv st' /\ (forall ob x, In ob obs -> In x (obs_nums ob) -> In x (used st')) /\ ~ In ObFuel obs.
Proof.
  intros ops st' obs E. destruct (frun_keeps _ _ _ _ E Inv_init) as [(H1 & _ & H3) H4].
  split; [exact H1|]. split; [|exact H4]. intros ob x Hob Hx. apply H3, in_flat_map. eauto.
Qed.

(* freshness as a one-step statement (any state satisfying the invariant) *)
Theorem c08_new_flow_fresh_step : forall st o st' n,
  is_new o = true -> fstep st o = (st', ObNums [n]) -> Inv st -> ~ In n (used st).
Proof. exact fstep_new_fresh. Qed.

(* across a restart nothing recorded is lost, and the counter dominates it:
   the next new number is above everything ever recorded *)
Theorem c08_restart_keeps_history : forall st sel,
  Inv st -> Inv (restart st sel) /\ grows st (restart st sel).
Proof. intros st sel Hi. destruct (restart_keeps st sel Hi) as (H1 & H2 & _). auto. Qed.

Theorem c08_after_restart_counter_dominates : forall st sel c,
  f_counter (restart st sel) = Some c -> forall r, In r (used st) -> r <= c.
Proof.
  intros st sel c Hc r Hr. unfold restart in Hc. cbn in Hc.
  eapply zmax_list_ge; [exact Hc|]. apply zunion_In. unfold used in Hr. apply in_app_iff in Hr. tauto.
Qed.

(* the only way get_flow(new) does not return a number: counter = None, i.e. a
   restart found the workflow_flows table empty (MAX() is NULL) — recorded as an
   assumption (a restarted workflow has at least flow 1), not a reuse *)
Theorem c08_new_fails_only_without_counter : forall st st',
  Inv st -> fstep st (OGet None) = (st', ObTypeError) -> f_counter st = None.
Proof.
  intros st st' Hi. cbn [fstep]. destruct (get_flow st None) as [st1 r] eqn:E.
  pose proof (get_flow_new _ _ _ E Hi) as H. destruct r; try discriminate. tauto.
Qed.

(* Merging (list level): when a flow reaches an existing instance (or a child is spawned), the
   instance's flow numbers become exactly the union: a superset of the parent's
   and of its own previous ones, and nothing else *)
Theorem c08_merge_is_union : forall mine other x,
  In x (flow_union mine other) <-> In x mine \/ In x other.
Proof. exact flow_union_In. Qed.

Theorem c08_children_carry_flows : forall child_before parent x,
  In x parent -> In x (flow_union child_before parent).
Proof. intros c p x H. apply flow_union_In. now right. Qed.

(* Outputs set by command: `cylc set --flow=F --out=O t` (Model/FlowCmd.v).
   Property text: "Children spawned by a task carry that task's flow numbers
   (merged into any existing instance, which then belongs to the union)", for the
   outputs completed by a `set` command on a pooled (or inactive) task.
   [resolve] gives F, the command's flow numbers; [target_flows] the flows of t
   when its outputs are set; [child_effect] what spawn_on_output then does to each
   graph child of those outputs.  The correspondence stream "flowcmd" checks on
   the real Scheduler that t ends with [target_flows] and that EVERY child effect of
   the command was made with exactly these flows. *)

(* F: --flow=none -> nothing; --flow=N.. -> those numbers; default -> all active
   flows (the union of the pooled tasks' flows, else the fallback) *)
Theorem c08_set_flows_of_command : forall st pool fb st' f,
  (resolve st CNone pool fb = (st', Some f) -> f = []) /\
  (forall l x, l <> [] -> resolve st (CNums l) pool fb = (st', Some f) -> (In x f <-> In x l)) /\
  (resolve st (CNums []) pool fb = (st', Some f) -> f = active_flows pool fb).
Proof.
  intros st pool fb st' f. split; [|split].
  - intros H. now destruct (resolve_none _ _ _ _ _ H).
  - intros l x Hl H. exact (resolve_nums _ _ _ _ _ _ x Hl H).
  - intros H. now destruct (resolve_default _ _ _ _ _ H).
Qed.

(* --flow=new: F is one number that is recorded nowhere and in no pooled task's
   flows (given that pooled tasks only carry numbers handed out by the FlowMgr) *)
Theorem c08_set_new_flow_fresh : forall st pool fb st' f,
  resolve st CNew pool fb = (st', Some f) -> Inv st ->
  (forall fl x, In fl pool -> In x fl -> In x (used st)) ->
  exists n, f = [n] /\ ~ In n (used st) /\ (forall fl, In fl pool -> ~ In n fl) /\ Inv st' /\ In n (used st').
Proof.
  intros st pool fb st' f. unfold resolve. cbn [fstep].
  destruct (get_flow st None) as [st1 r] eqn:E. intros H Hi Hp.
  pose proof (get_flow_new _ _ _ E Hi) as G. destruct r as [n| |]; try discriminate.
  cbn in H. injection H as <- <-. destruct G as (G0 & G1 & _ & G3).
  exists n. split; [reflexivity|]. split; [exact G0|]. split; [intros fl Hfl Hn; apply G0; eauto|].
  split; [exact G1|]. apply G3. now left.
Qed.

(* after the command a pooled target belongs to old ∪ F (an inactive one to F);
   the only case in which nothing happens: --flow=none on a pooled task with flows *)
Theorem c08_set_target_flows : forall old c f t' x,
  (target_flows true old c f = Some t' -> (In x t' <-> In x old \/ In x f)) /\
  (target_flows false old c f = Some t' -> (In x t' <-> In x f)) /\
  (target_flows true old c f = None <-> c = CNone /\ old <> []).
Proof.
  intros old c f t' x. split; [|split].
  - apply target_flows_pooled.
  - apply target_flows_inactive.
  - apply target_flows_skipped.
Qed.

(* every child of the completed outputs is handed exactly the target's NEW flows
   t' and afterwards carries a superset of them: a fresh child t', a child already
   in the pool the union of its own flows and t' *)
Theorem c08_set_children_carry_flows : forall t' before arg after,
  child_effect t' before = (arg, after) ->
  arg = t' /\
  (forall x, In x t' -> In x after) /\
  (forall x, In x after <-> In x t' \/ exists b, before = Some b /\ In x b).
Proof.
  intros t' before arg after. unfold child_effect.
  destruct before as [b|]; intros [= <- <-]; split; auto; split.
  - intros x Hx. apply merged_In. auto.
  - intros x. rewrite merged_In. split.
    + intros [H|H]; [right; eauto|auto].
    + intros [H|[b' [[= <-] H]]]; auto.
  - auto.
  - intros x. split; [auto|]. intros [H|[b' [E _]]]; [exact H|discriminate].
Qed.

(* put together for --flow=new on a pooled task: the children carry old ∪ {n}, n fresh *)
Theorem c08_set_new_on_pooled_task : forall st pool fb st' f old t' before arg after,
  resolve st CNew pool fb = (st', Some f) -> Inv st ->
  (forall fl x, In fl pool -> In x fl -> In x (used st)) ->
  target_flows true old CNew f = Some t' ->
  child_effect t' before = (arg, after) ->
  exists n, ~ In n (used st) /\ (forall fl, In fl pool -> ~ In n fl) /\
            In n after /\ (forall x, In x old -> In x after).
Proof.
  intros st pool fb st' f old t' before arg after Hr Hi Hp Ht Hc.
  destruct (c08_set_new_flow_fresh _ _ _ _ _ Hr Hi Hp) as (n & -> & H1 & H2 & _).
  destruct (c08_set_children_carry_flows _ _ _ _ Hc) as (_ & Hsup & _).
  exists n. split; [exact H1|]. split; [exact H2|]. split.
  - apply Hsup. apply (target_flows_pooled _ _ _ _ n Ht). right. now left.
  - intros x Hx. apply Hsup. apply (target_flows_pooled _ _ _ _ x Ht). now left.
Qed.

(* non-vacuity: 1, 2, manual 7, restart selecting only flow 1 (7 not loaded into .flows),
   new -> 8 (not 3..7), manual 3, restart, new -> 9 *)
Example c08_ex_history :
  snd (frun f_init [OGet None; OGet None; OGet (Some 7); ORestart [1]; OGet None;
                    OGet (Some 3); ORestart []; OCli CNew])
  = [ObNums [1]; ObNums [2]; ObNums [7]; ObUnit; ObNums [8]; ObNums [3]; ObUnit; ObNums [9]].
Proof. vm_compute. reflexivity. Qed.

Example c08_ex_skip : snd (frun f_init [OGet (Some 1); OGet (Some 2); OGet None]) = [ObNums [1]; ObNums [2]; ObNums [3]].
Proof. vm_compute. reflexivity. Qed.

(* the seeded scenario: a & b => c, b => d; flows: b {1}, c {1} pooled; set --flow=new --out=succeeded 1/b:
   b ends {1,2}; d spawned with {1,2}; c merged to {1,2} *)
Example c08_ex_set_new :
  check_cmd {| k_counter := Some 1; k_flowkeys := [1]; k_cli := CNew; k_pool := [[1]; [1]]; k_fallback := [];
               k_pooled := true; k_old := [1]; k_loaded := false; k_counter_after := Some 2; k_ran := true;
               k_target_after := [1; 2];
               k_effects := [ {| eo_before := None; eo_arg := [1; 2]; eo_after := Some [1; 2] |};
                              {| eo_before := Some [1]; eo_arg := [1; 2]; eo_after := Some [1; 2] |} ] |} = true.
Proof. vm_compute. reflexivity. Qed.

(* ... and the swapped order (children spawned with the OLD flows) is rejected *)
Example c08_ex_set_new_swapped_rejected :
  check_cmd {| k_counter := Some 1; k_flowkeys := [1]; k_cli := CNew; k_pool := [[1]; [1]]; k_fallback := [];
               k_pooled := true; k_old := [1]; k_loaded := false; k_counter_after := Some 2; k_ran := true;
               k_target_after := [1; 2];
               k_effects := [ {| eo_before := None; eo_arg := [1]; eo_after := Some [1] |} ] |} = false.
Proof. vm_compute. reflexivity. Qed.
