(* Props/C10.v — C10 "Stale, duplicate and out-of-order job messages cannot
   corrupt state" at the task level (Model/TaskMsg.v, see Props/C09.v). *)
From Coq Require Import List Bool Arith ZArith Lia.
From Cylc Require Import Base.Util Gen.TaskMsgTables Model.TaskMsg
  Proofs.TaskMsgProofs Proofs.TaskMsgInv Proofs.TaskMsgEdges Proofs.TaskMsgFinal
  Model.TaskBatch Proofs.TaskBatchProofs.
From Coq Require Import Permutation.
Import ListNotations.

(* "A message received from a job with an older [any other] submit number never
   changes the current task's status or outputs": the task is unchanged and
   there are no effects (no spawning, no poll). *)
Theorem c10_stale_ignored : forall t m n,
  n <> Z.of_nat (sn t) -> process_message t m Received n = (t, []).
Proof. exact pm_stale. Qed.

(* "a received message that would move a task's status backwards triggers a
   poll instead of a state change": for every reachable task and a current
   started/failed/submission-failed/submitted message with backward = true
   (started after failed|succeeded, failed after succeeded, submission failed
   after submitted.., submitted from submitted on) the result is exactly the
   unchanged task and the poll request. *)
Theorem c10_backwards_polls : forall n mm k pre m,
  let t := final (fresh n mm k) pre in
  backward m (st t) = true ->
  process_message t m Received (Z.of_nat (sn t)) = (t, [EPoll]).
Proof. intros. apply pm_backward_polls; [apply wf_run|assumption]. Qed.

(* conversely a poll is requested only in that situation *)
Theorem c10_poll_only_backward : forall n mm k pre m f num,
  let t := final (fresh n mm k) pre in
  In EPoll (snd (process_message t m f num)) ->
  flag_received f = true /\ num = Z.of_nat (sn t) /\ backward m (st t) = true.
Proof. intros n mm k pre m f num t. apply pm_poll_only_backward. apply wf_run. Qed.

(* a waiting task with a retry lined up ignores every non-expire message
   (late messages / poll results of the failed job) *)
Theorem c10_retry_window_ignored : forall t m f n,
  st t = Waiting -> retry_lined_up t = true -> m <> MExpired ->
  process_message t m f n = (t, []).
Proof. exact pm_retry_window. Qed.

(* "For any interleaving of job messages, duplicates and poll results, the
   task's final status and outputs match the latest job's actual outcome".
   t0: the task right after the preparation of the latest submission; oc: the
   job's actual outcome; C: the custom outputs it emits.  [story oc C false ops]:
   ops is any sequence of stale messages (any content), submit-command
   successes, and received/polled/internal messages the job can cause
   (submitted, started, its custom outputs, other text, its outcome), in any
   order with any duplication, except that no polled/internal 'started' comes
   after the first delivery of the outcome.  If the outcome is delivered at
   least once, the final status is the outcome - or waiting with the retry
   lined up exactly when an execution retry remained - submitted and started
   are complete, succeeded/failed are complete exactly as the outcome says,
   and no custom output is complete that the job did not emit. *)
Theorem c10_final_matches_outcome : forall t0 oc C ops,
  wf t0 -> st t0 = Preparing ->
  ~ In OSucceeded (outs t0) -> ~ In OFailed (outs t0) ->
  story oc C false ops = true -> delivered_in oc ops = true ->
  let t := final t0 ops in
  st t = expected_st t0 oc /\
  In OSubmitted (outs t) /\ In OStarted (outs t) /\
  (In OSucceeded (outs t) <-> oc = OutSucc) /\
  (In OFailed (outs t) <-> oc = OutFail /\ no_next (texec t0) = true) /\
  customs_ok t0 C t /\
  (expected_st t0 oc = Waiting -> retry_lined_up t = true).
Proof.
  intros t0 oc C ops W S N1 N2 St D t.
  destruct (final_matches_outcome t0 oc C ops W S N1 N2 St D) as [_ A B C' D' E F G].
  exact (conj A (conj B (conj C' (conj D' (conj E (conj F G)))))).
Qed.

(* The same statement without the late-poll restriction: *)
Definition story_unrestricted (oc : outcome) (C : list nat) (ops : list op) : bool :=
  forallb (fun o => match o with
                    | OpPrep => false
                    | OpSubRes ok => ok
                    | OpMsg m _ _ => op_stale o || emits oc C m
                    end) ops.
Definition c10_final_unrestricted : Prop :=
  forall t0 oc C ops,
    wf t0 -> st t0 = Preparing -> ~ In OSucceeded (outs t0) -> ~ In OFailed (outs t0) ->
    story_unrestricted oc C ops = true -> delivered_in oc ops = true ->
    st (final t0 ops) = expected_st t0 oc.
(* is false of the code: the job succeeded, its message was received, and a
   poll result 'started' taken earlier is processed afterwards: the task ends
   running (finding "late-poll-final"). *)
Theorem c10_final_unrestricted_refuted : ~ c10_final_unrestricted.
Proof.
  intros H.
  specialize (H (final (fresh 0 0 0) [OpPrep]) OutSucc []
                [OpMsg MStarted Received 0%Z; OpMsg MSucceeded Received 0%Z; OpMsg MStarted Polled 0%Z]
                (wf_run 0 0 0 [OpPrep])).
  vm_compute in H.
  assert (X : Running = Succeeded); [|discriminate X].
  apply H; auto; intros K; exact K.
Qed.

(* Batch level: Scheduler.process_queued_task_messages for one task (Model/TaskBatch.v; tied to
   the code by the "taskbatch" stream).
   "triggers a poll": the task is handed to poll_task_jobs iff SOME message of
   its batch - not just the last one - made process_message return True at the
   point where it was processed ... *)
Theorem c10_batch_poll_iff_some_message : forall t l,
  b_poll (task_batch t l) = true <->
  exists l1 x l2, l = l1 ++ x :: l2 /\
    asked_poll (snd (deliver (final t (map to_op l1)) x)) = true.
Proof. exact batch_poll_iff. Qed.

(* ... i.e., for every reachable task, iff the batch contains a message for the
   current submit number that would move the status (as it is when the message
   is reached) backwards. *)
Theorem c10_batch_poll_iff_backward : forall n m k pre l,
  let t := final (fresh n m k) pre in
  b_poll (task_batch t l) = true <->
  exists l1 x l2, l = l1 ++ x :: l2 /\ asks (st (final t (map to_op l1))) x = true.
Proof. intros. apply batch_poll_backward. apply wf_run. Qed.

(* A batch is the sequence of its single-message batches: same final task, same
   spawn/retry effects, poll decisions OR-ed; and the final task is the one the
   messages produce when delivered one by one (so every single-message theorem
   above applies inside a batch). *)
Theorem c10_batch_is_sequence_of_singles : forall t l,
  task_batch t l = singles t l /\ b_state (task_batch t l) = final t (map to_op l).
Proof. intros. split; [apply batch_singles|apply batch_state]. Qed.

(* The order of the batch is irrelevant for the poll decision (and the status)
   when the batch consists of stale messages, custom/progress messages and
   messages that would move the status backwards - the situation of duplicated
   and late messages: any permutation polls iff the original does. *)
Theorem c10_batch_order_irrelevant : forall n m k pre l l',
  let t := final (fresh n m k) pre in
  Permutation l l' -> forallb (neutral (st t)) l = true ->
  b_poll (task_batch t l) = b_poll (task_batch t l') /\
  st (b_state (task_batch t l)) = st (b_state (task_batch t l')).
Proof. intros. apply batch_poll_order; [apply wf_run|assumption|assumption]. Qed.

(* a task that is not in the pool is neither changed nor polled *)
Theorem c10_batch_not_in_pool : forall t l, queued false t l = (t, [], false).
Proof. reflexivity. Qed.

(* "only the last message of the batch decides" is not the same function: a late
   'started' for a failed task followed by a progress message must still poll *)
Theorem c10_batch_last_only_refuted :
  ~ (forall t l, b_poll (task_batch t l) = last_only t l).
Proof.
  intros H. destruct last_only_differs as [A B]. cbn zeta in A, B.
  rewrite H in A. rewrite A in B. discriminate B.
Qed.

(* duplicates, a stale message, started before the submit result, a poll *)
Example c10_ex_story :
  let ops := [OpMsg MStarted Received 0%Z; OpMsg MSucceeded Received (-1)%Z; OpSubRes true;
              OpMsg (MCustom 0) Received 0%Z; OpMsg MFailed Polled 0%Z;
              OpMsg MFailed Received 0%Z; OpMsg MStarted Received 0%Z] in
  story OutFail [0] false ops = true /\ delivered_in OutFail ops = true /\
  st (final (final (fresh 0 0 1) [OpPrep]) ops) = Failed /\
  st (final (final (fresh 1 0 1) [OpPrep]) ops) = Waiting.
Proof. vm_compute. auto. Qed.
Example c10_ex_backward :
  process_message (final (fresh 0 0 0) [OpPrep; OpMsg MSucceeded Polled 0%Z]) MStarted Received 1%Z
  = (final (fresh 0 0 0) [OpPrep; OpMsg MSucceeded Polled 0%Z], [EPoll]).
Proof. vm_compute. reflexivity. Qed.
Example c10_ex_batch :
  let t := final (fresh 0 0 1) [OpPrep; OpMsg MStarted Received 0%Z; OpMsg MSucceeded Received 0%Z] in
  let l := [(MCustom 0, 0%Z); (MStarted, 0%Z); (MFailed, (-1)%Z); (MOther, 0%Z)] in
  forallb (neutral (st t)) l = true /\ b_poll (task_batch t l) = true /\
  b_poll (task_batch t (rev l)) = true /\ st (b_state (task_batch t l)) = Succeeded.
Proof. vm_compute. auto. Qed.
