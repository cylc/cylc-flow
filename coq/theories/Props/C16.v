(* Props/C16.v — C16 "Integer recurrences denote the clipped arithmetic progression".

   Model: Model/IntSeq.v (hand model of cylc/flow/cycling/integer.py, tied to
   the source by the C16 correspondence stream).  Vocabulary (Proofs/IntSeqProofs.v):
     shape_of f cs ce      the progression a dispatched recurrence form defines
                           (OneOff a | Up a k n | Down e k n),
     denote f items cs ce  that progression clipped to [initial, final] minus the
                           exclusion points and the exclusion sequences,
     seq_member s          the set a constructed state stands for (progression from
                           p_start by i_step within [p_start, p_stop], minus exclusions),
     is_least_gt / is_least_ge / is_greatest_lt / is_min / is_max
                           "least member > p (or None iff none)" etc.

   Structure of the result.  The property text is FALSE of the code (and so of
   the faithful model) in ten input classes; each is refuted below on a
   concrete witness (…_refuted / c16_witness_…), listed in
   known_findings.json (two further classes, vi and vii, were fixed in
   /repo by d9f1b31 and are now regression examples).  What is proved, for all values and all fuel:
     A. for every constructed sequence whatsoever: membership is the set of
        the state; get_first_point, get_next_point (p >= start - step),
        get_next_point_on_sequence, get_start_point agree with that set;
        get_prev_point / get_nearest_prev_point / get_stop_point agree with it
        when the stop point is on the grid and p <= stop + step; no query raises;
     B. for every recurrence form outside the constructor defect classes
        (sane_input): the constructor succeeds and the set of the state is
        exactly [denote]; hence all queries agree with [denote];
     C. Rn/START/END with n <> 1 is rejected for all values (defect ii). *)
From Coq Require Import List ZArith Bool Lia.
From Cylc Require Import Base.Util Model.IntSeq Proofs.IntSeqProofs.
Import ListNotations.
Local Open Scope Z_scope.

(* is_valid is membership, for every state and point *)
Theorem c16_valid_iff_state : forall s p, is_valid s p = true <-> seq_member s p.
Proof. exact is_valid_iff. Qed.

(* every state the constructor returns has a positive step or is a one-off *)
Theorem c16_constructed_regular : forall f items cs ce s,
  init f items cs ce = Ok s -> regular s.
Proof.
  intros f items cs ce s. unfold init.
  destruct (init_core f cs ce) as [c|] eqn:Ec; cbn [bind]; [|discriminate].
  assert (H : forall x, regular {| s_core := c; s_excl := x |}).
  { intros x. apply (init_core_regular f cs ce), Ec. }
  destruct items as [[|it its]|]; [intros [= <-]; apply H| |intros [= <-]; apply H].
  destruct (build_excl _ _ _); cbn [bind]; [|discriminate]. intros [= <-]. apply H.
Qed.

(* get_first_point(p) = least member >= p, or None iff there is none *)
Theorem c16_state_first : forall fuel s p r,
  regular s -> get_first_point fuel s p = Ok r -> is_least_ge (seq_member s) p r.
Proof. exact first_regular. Qed.

(* get_next_point(p) = least member > p, or None iff none — for p >= start - step *)
Theorem c16_state_next : forall fuel s k p r,
  stepped s k -> c_start (s_core s) - k <= p ->
  get_next_point fuel s p = Ok r -> is_least_gt (seq_member s) p r.
Proof. exact next_stepped. Qed.

Theorem c16_state_next_oneoff : forall fuel s p r,
  oneoff s -> (p < c_start (s_core s) -> seq_member s (c_start (s_core s))) ->
  get_next_point fuel s p = Ok r -> is_least_gt (seq_member s) p r.
Proof. exact next_oneoff. Qed.

(* get_next_point_on_sequence(p), p on the grid *)
Theorem c16_state_next_on_sequence : forall fuel s k p r,
  stepped s k -> (p - c_start (s_core s)) mod k = 0 -> c_start (s_core s) - k <= p ->
  get_next_point_on_sequence fuel s p = Ok r -> is_least_gt (seq_member s) p r.
Proof.
  intros fuel s k p r Hs Hg. rewrite (nos_eq_next fuel s k p Hs Hg). apply next_stepped, Hs.
Qed.

(* get_prev_point(p) = greatest member < p, or None iff none — when the stop
   point is on the grid and p <= stop + step *)
Theorem c16_state_prev : forall fuel s k p r,
  stepped s k -> stop_on_grid s k ->
  (forall e, c_stop (s_core s) = Some e -> p <= e + k) ->
  get_prev_point fuel s p = Ok r -> is_greatest_lt (seq_member s) p r.
Proof. exact prev_stepped. Qed.

(* get_nearest_prev_point(p): the range condition is needed only when p
   itself is on the sequence (the code then delegates to get_prev_point) *)
Theorem c16_state_nearest_prev : forall fuel s k p r,
  stepped s k -> stop_on_grid s k ->
  (is_on_sequence s p = true -> forall e, c_stop (s_core s) = Some e -> p <= e + k) ->
  get_nearest_prev_point fuel s p = Ok r -> is_greatest_lt (seq_member s) p r.
Proof.
  intros fuel s k p r Hs Hsg Hp. destruct (is_on_sequence s p) eqn:Eon.
  - unfold get_nearest_prev_point. rewrite Eon. apply (prev_stepped fuel s k); auto.
  - apply nprev_off; [left; exists k; exact Hs|exact Eon].
Qed.

Theorem c16_state_nearest_prev_oneoff : forall fuel s p r,
  oneoff s -> get_nearest_prev_point fuel s p = Ok r -> is_greatest_lt (seq_member s) p r.
Proof.
  intros fuel s p r Ho. destruct (is_on_sequence s p) eqn:Eon.
  - unfold get_nearest_prev_point. rewrite Eon. intros H.
    apply prev_oneoff in H; [|exact Ho]. subst r. cbn.
    (* p is the one point of the sequence *)
    unfold is_on_sequence, on_seq_core in Eon. rewrite Ho in Eon.
    destruct (excluded s p); [discriminate|].
    intros m Hm. apply (oneoff_member s m Ho) in Hm. lia.
  - apply nprev_off; [right; exact Ho|exact Eon].
Qed.

(* get_start_point = least member (None iff empty), for a non-empty range *)
Theorem c16_state_start : forall fuel s r,
  regular s -> (forall e, c_stop (s_core s) = Some e -> c_start (s_core s) <= e) ->
  get_start_point fuel s = Ok r -> is_min (seq_member s) r.
Proof.
  intros fuel s r Hreg Hne. rewrite (start_eq_first fuel s Hne). intros H.
  apply (min_of_least_ge _ (c_start (s_core s))); [apply member_ge_start|].
  apply (first_regular fuel); assumption.
Qed.

(* get_stop_point = greatest member (None iff empty); None when unbounded *)
Theorem c16_state_stop : forall fuel s k e r,
  stepped s k -> stop_on_grid s k -> c_stop (s_core s) = Some e -> c_start (s_core s) <= e ->
  get_stop_point fuel s = Ok r -> is_max (seq_member s) r.
Proof.
  intros fuel s k e r Hs Hsg He Hne. apply (stop_of_prev fuel s e r He).
  - apply (core_member_stop _ (Some k) e (conj Hs Hsg) He Hne).
  - intros r'. apply (prev_stepped fuel s k); auto.
    rewrite He. intros e' [= <-]. destruct Hs. lia.
Qed.

Theorem c16_state_stop_oneoff : forall fuel s r,
  oneoff s -> c_stop (s_core s) = Some (c_start (s_core s)) ->
  get_stop_point fuel s = Ok r -> is_max (seq_member s) r.
Proof.
  intros fuel s r Ho He. apply (stop_of_prev fuel s _ r He).
  - apply (core_member_stop _ None _ (conj Ho He) He), Z.le_refl.
  - intros r' H. apply prev_oneoff in H; [|exact Ho]. subst r'. cbn.
    intros m Hm. apply (oneoff_member s m Ho) in Hm. lia.
Qed.

Theorem c16_state_stop_unbounded : forall fuel s r,
  c_stop (s_core s) = None -> get_stop_point fuel s = Ok r -> r = None.
Proof.
  intros fuel s r He. unfold get_stop_point. rewrite He, excluded_opt_none.
  intros [= <-]. reflexivity.
Qed.

(* the fuel hypothesis is discharged by an explicit bound, and no query ever
   raises (since fix d9f1b31: `None in self.exclusions` is False and
   get_nearest_prev_point no longer calls itself) *)
Theorem c16_next_fuel : forall fuel s k p e,
  stepped s k -> c_stop (s_core s) = Some e -> Z.max 0 (e - p) < Z.of_nat fuel ->
  get_next_point fuel s p <> Err EFuel.
Proof.
  intros fuel s k p e [Hk Hpos] He. revert p.
  induction fuel as [|fl IH]; intros p Hf; cbn [get_next_point]; [lia|].
  rewrite Hk. destruct (grid_next (c_start (s_core s)) k p Hpos) as (_ & Hlt & _).
  set (nxt := p + k - (p - c_start (s_core s)) mod k) in *.
  destruct (in_bounds_cases s nxt) as [(-> & _ & Hhi)|(-> & _)]; [|discriminate].
  specialize (Hhi e He). destruct (excluded s nxt); [|discriminate]. apply IH. lia.
Qed.

Theorem c16_prev_fuel : forall fuel s k p,
  stepped s k -> Z.max 0 (p - c_start (s_core s)) < Z.of_nat fuel ->
  get_prev_point fuel s p <> Err EFuel.
Proof.
  intros fuel s k p [Hk Hpos]. revert p.
  induction fuel as [|fl IH]; intros p Hf; cbn [get_prev_point]; [lia|].
  rewrite Hk. destruct (grid_prev (c_start (s_core s)) k p Hpos) as (_ & Hlt & _).
  set (prev := if (p - c_start (s_core s)) mod k =? 0 then p - k
               else p - (p - c_start (s_core s)) mod k) in *.
  destruct (in_bounds_cases s prev) as [(-> & Hlo & _)|(-> & _)].
  - rewrite excluded_opt_some. destruct (excluded s prev); [|discriminate]. apply IH. lia.
  - rewrite excluded_opt_none. discriminate.
Qed.

Theorem c16_next_never_raises : forall fuel s p e,
  get_next_point fuel s p = Err e -> e = EFuel.
Proof. exact next_no_error. Qed.

Theorem c16_next_on_sequence_never_raises : forall fuel s p e,
  get_next_point_on_sequence fuel s p = Err e -> e = EFuel.
Proof.
  intros fuel s. induction fuel as [|fl IH]; intros p e; cbn [get_next_point_on_sequence];
    [intros [= <-]; reflexivity|].
  destruct (truthy_step (c_step (s_core s))) as [k|]; [|discriminate].
  destruct (in_bounds s _) as [r0|]; [|discriminate].
  destruct (excluded s r0); [apply IH|discriminate].
Qed.

Theorem c16_prev_never_raises : forall fuel s p e,
  get_prev_point fuel s p = Err e -> e = EFuel.
Proof. exact prev_no_error. Qed.

Theorem c16_nearest_prev_never_raises : forall fuel s p e,
  get_nearest_prev_point fuel s p = Err e -> e = EFuel.
Proof.
  intros fuel s p e. unfold get_nearest_prev_point.
  destruct (is_on_sequence s p); [apply prev_no_error|].
  destruct (nprev_loop fuel s p _ None) as [prev|er] eqn:El; cbn [bind].
  - destruct (excluded_opt s prev); [|discriminate].
    destruct prev; [apply prev_no_error|discriminate].
  - intros [= <-]. apply (nprev_loop_no_error _ _ _ _ _ _ El).
Qed.

Theorem c16_stop_never_raises : forall fuel s e,
  get_stop_point fuel s = Err e -> e = EFuel.
Proof.
  intros fuel s e. unfold get_stop_point. destruct (excluded_opt s _); [|discriminate].
  destruct (c_stop (s_core s)); [apply prev_no_error|discriminate].
Qed.

(* construction succeeds; the state's set is [denote]; its bounds are the
   first/last point of the clipped progression *)
Theorem c16_constructor : forall f items cs ce sh,
  sane_input f items cs ce sh ->
  exists s, init f items cs ce = Ok s /\
            (forall p, seq_member s p <-> denote f items cs ce p) /\
            (c_start (s_core s), c_stop (s_core s)) = bounds sh cs ce.
Proof.
  intros f items cs ce sh Hin.
  destruct (init_sane f items cs ce sh Hin) as (s & Hs & Hm & Hb & _). exists s. auto.
Qed.

(* the context in which [denote] reads exclusion sequences, [bounds], is the
   first and last point of the clipped progression itself *)
Theorem c16_bounds_are_extremes : forall f cs ce sh,
  wf_form f -> (f_fmt f = 1 -> f_reps f = Some 1) ->
  shape_of f cs ce = Some sh -> sane sh cs ce ->
  let lo := fst (bounds sh cs ce) in
  let hi := snd (bounds sh cs ce) in
  (forall p, denote0 f cs ce p -> lo <= p /\ forall e, hi = Some e -> p <= e) /\
  ((forall e, hi = Some e -> lo <= e) ->
   denote0 f cs ce lo /\ forall e, hi = Some e -> denote0 f cs ce e).
Proof.
  intros f cs ce sh W H1 Hsh Hsane.
  destruct (init_core_sane f cs ce sh W H1 Hsh Hsane) as [c [_ Hok]].
  pose proof Hok as (_ & Hb & Hshape). rewrite <- Hb. cbn [fst snd]. split.
  - intros p Hp. apply (denote0_core f cs ce sh c p Hsh Hok) in Hp.
    destruct Hp as (H2 & H3 & _). auto.
  - intros Hne. split; [|intros e He]; apply (denote0_core f cs ce sh c _ Hsh Hok).
    + apply core_member_start, Hne.
    + apply (core_member_stop c _ e Hshape He), Hne, He.
Qed.

(* is_valid iff member *)
Theorem c16_valid_iff : forall f items cs ce sh s,
  sane_input f items cs ce sh -> init f items cs ce = Ok s ->
  forall p, is_valid s p = true <-> denote f items cs ce p.
Proof.
  intros f items cs ce sh s Hin Hs p. rewrite is_valid_iff.
  apply (sane_state _ _ _ _ _ _ Hin Hs).
Qed.

Theorem c16_first : forall f items cs ce sh s,
  sane_input f items cs ce sh -> init f items cs ce = Ok s ->
  forall fuel p r, get_first_point fuel s p = Ok r -> is_least_ge (denote f items cs ce) p r.
Proof.
  intros f items cs ce sh s Hin Hs fuel p r H.
  destruct (sane_state _ _ _ _ _ _ Hin Hs) as (Hm & _).
  apply (least_ge_ext _ _ _ _ Hm). apply (first_regular fuel); [|exact H].
  apply (c16_constructed_regular _ _ _ _ _ Hs).
Qed.

(* next: for p >= first - k (stepped); for a one-off, whenever its point is a member *)
Theorem c16_next : forall f items cs ce sh s,
  sane_input f items cs ce sh -> init f items cs ce = Ok s ->
  forall fuel p r,
    (forall k, step_of sh = Some k -> fst (bounds sh cs ce) - k <= p) ->
    (step_of sh = None -> p < fst (bounds sh cs ce) ->
     denote f items cs ce (fst (bounds sh cs ce))) ->
    get_next_point fuel s p = Ok r -> is_least_gt (denote f items cs ce) p r.
Proof.
  intros f items cs ce sh s Hin Hs fuel p r Hk Ho H.
  destruct (sane_state _ _ _ _ _ _ Hin Hs) as (Hm & Hlo & _ & Hsh).
  apply (nearest_ext _ _ _ _ _ _ Hm). rewrite <- Hlo in Hk, Ho.
  destruct (step_of sh) as [k|]; destruct Hsh as [Hst _].
  - apply (next_stepped fuel s k); [exact Hst|apply Hk; reflexivity|exact H].
  - apply (next_oneoff fuel); [exact Hst| |exact H]. intros Hlt. apply Hm. apply Ho; auto.
Qed.

(* prev: stepped forms, p <= last + k *)
Theorem c16_prev : forall f items cs ce sh s,
  sane_input f items cs ce sh -> init f items cs ce = Ok s ->
  forall fuel p r k,
    step_of sh = Some k -> (forall e, snd (bounds sh cs ce) = Some e -> p <= e + k) ->
    get_prev_point fuel s p = Ok r -> is_greatest_lt (denote f items cs ce) p r.
Proof.
  intros f items cs ce sh s Hin Hs fuel p r k Hk Hp H.
  destruct (sane_state _ _ _ _ _ _ Hin Hs) as (Hm & _ & Hhi & Hsh).
  apply (nearest_ext _ _ _ _ _ _ Hm). rewrite Hk in Hsh. destruct Hsh as [Hst Hg].
  apply (prev_stepped fuel s k); auto. rewrite Hhi. exact Hp.
Qed.

Theorem c16_nearest_prev : forall f items cs ce sh s,
  sane_input f items cs ce sh -> init f items cs ce = Ok s ->
  forall fuel p r,
    (forall k e, step_of sh = Some k -> snd (bounds sh cs ce) = Some e -> p <= e + k) ->
    get_nearest_prev_point fuel s p = Ok r -> is_greatest_lt (denote f items cs ce) p r.
Proof.
  intros f items cs ce sh s Hin Hs fuel p r Hp H.
  destruct (sane_state _ _ _ _ _ _ Hin Hs) as (Hm & _ & Hhi & Hsh).
  apply (nearest_ext _ _ _ _ _ _ Hm).
  destruct (step_of sh) as [k|]; destruct Hsh as [Hst Hg].
  - apply (c16_state_nearest_prev fuel s k); auto.
    intros _ e He. rewrite Hhi in He. apply (Hp k e eq_refl He).
  - apply (c16_state_nearest_prev_oneoff fuel); assumption.
Qed.

Theorem c16_next_on_sequence : forall f items cs ce sh s,
  sane_input f items cs ce sh -> init f items cs ce = Ok s ->
  forall fuel p r k,
    step_of sh = Some k -> (exists i, p = fst (bounds sh cs ce) + i * k) ->
    fst (bounds sh cs ce) - k <= p ->
    get_next_point_on_sequence fuel s p = Ok r -> is_least_gt (denote f items cs ce) p r.
Proof.
  intros f items cs ce sh s Hin Hs fuel p r k Hk Hg Hp H.
  destruct (sane_state _ _ _ _ _ _ Hin Hs) as (Hm & Hlo & _ & Hsh).
  apply (nearest_ext _ _ _ _ _ _ Hm). rewrite Hk in Hsh. destruct Hsh as [Hst _].
  rewrite <- Hlo in Hg, Hp. apply (c16_state_next_on_sequence fuel s k); auto.
  apply grid_iff; [destruct Hst; lia|exact Hg].
Qed.

(* start / stop are members and minimal / maximal (None iff everything is excluded) *)
Theorem c16_start : forall f items cs ce sh s,
  sane_input f items cs ce sh -> init f items cs ce = Ok s ->
  forall fuel r,
    (forall e, snd (bounds sh cs ce) = Some e -> fst (bounds sh cs ce) <= e) ->
    get_start_point fuel s = Ok r -> is_min (denote f items cs ce) r.
Proof.
  intros f items cs ce sh s Hin Hs fuel r Hne H.
  destruct (sane_state _ _ _ _ _ _ Hin Hs) as (Hm & Hlo & Hhi & _).
  apply (min_ext _ _ _ Hm). rewrite <- Hlo, <- Hhi in Hne.
  apply (c16_state_start fuel); [|exact Hne|exact H].
  apply (c16_constructed_regular _ _ _ _ _ Hs).
Qed.

Theorem c16_stop : forall f items cs ce sh s,
  sane_input f items cs ce sh -> init f items cs ce = Ok s ->
  forall fuel r e,
    snd (bounds sh cs ce) = Some e -> fst (bounds sh cs ce) <= e ->
    get_stop_point fuel s = Ok r -> is_max (denote f items cs ce) r.
Proof.
  intros f items cs ce sh s Hin Hs fuel r e He Hne H.
  destruct (sane_state _ _ _ _ _ _ Hin Hs) as (Hm & Hlo & Hhi & Hsh).
  apply (max_ext _ _ _ Hm). rewrite <- Hlo in Hne. rewrite <- Hhi in He.
  destruct (step_of sh) as [k|]; destruct Hsh as [Hst Hg].
  - apply (c16_state_stop fuel s k e); assumption.
  - apply (c16_state_stop_oneoff fuel); assumption.
Qed.

Theorem c16_stop_unbounded : forall f items cs ce sh s,
  sane_input f items cs ce sh -> init f items cs ce = Ok s ->
  forall fuel r, snd (bounds sh cs ce) = None -> get_stop_point fuel s = Ok r -> r = None.
Proof.
  intros f items cs ce sh s Hin Hs fuel r He.
  destruct (sane_state _ _ _ _ _ _ Hin Hs) as (_ & _ & Hhi & _).
  apply c16_state_stop_unbounded. congruence.
Qed.

(* FULL STATEMENT 1 (property text, first sentence): every well-formed form
   with interval >= 1 and repetitions >= 1 is accepted and denotes the clipped
   progression minus exclusions.  Proved part: c16_constructor/c16_valid_iff
   (hypothesis sane_input excludes the defect classes). *)
Definition c16_denote_all_forms : Prop :=
  forall f items cs ce sh,
    wf_form f -> shape_of f cs ce = Some sh -> shape_wf sh ->
    exists s, init f items cs ce = Ok s /\
              forall p, is_valid s p = true <-> denote f items cs ce p.

(* defect (i): P3/8 with context 1..10 is {1,4,7}, not {2,5,8} *)
Theorem c16_denote_all_forms_refuted : ~ c16_denote_all_forms.
Proof.
  intros H.
  destruct (H (F_Pk_E 3 (Abs 8)) None 1 (Some 10) (Down 8 3 None)) as (s & Hs & Hv).
  - split; [discriminate|reflexivity].
  - reflexivity.
  - split; [lia|discriminate].
  - vm_compute in Hs. injection Hs as <-.
    assert (Hd : denote (F_Pk_E 3 (Abs 8)) None 1 (Some 10) 2).
    { apply denote_no_items. exists (Down 8 3 None). split; [reflexivity|split].
      - exists 2. repeat split; try lia. discriminate.
      - split; [lia|]. intros F [= <-]. lia. }
    apply Hv in Hd. vm_compute in Hd. discriminate.
Qed.

(* ... and its get_stop_point() = 8 is not a point of the sequence *)
Example c16_witness_stop_off_sequence :
  exists s, init (F_Pk_E 3 (Abs 8)) None 1 (Some 10) = Ok s /\
            get_stop_point 5 s = Ok (Some 8) /\ is_valid s 8 = false.
Proof. eexists. split; [vm_compute; reflexivity|split; vm_compute; reflexivity]. Qed.

(* defect (ii): Rn/START/END with n <> 1 is rejected for all values *)
Theorem c16_fmt1_always_rejected : forall f cs ce n,
  f_fmt f = 1 -> f_reps f = Some n -> n <> 1 -> exists e, init_core f cs ce = Err e.
Proof.
  intros f cs ce n Hfmt Hreps Hn.
  rewrite init_core_stages, Hfmt, pfe_start. cbn [bind Z.eqb Pos.eqb orb].
  destruct (point_from_expr (f_end f) ce true) as [o|er]; cbn [bind]; [|eauto].
  unfold stage1. rewrite Hreps. replace (n =? 1) with false by lia.
  destruct o; cbn [bind]; eauto.
Qed.

Example c16_witness_R3_0_10 :
  init (F_Rn_S_E 3 (Abs 0) (Abs 10)) None 0 (Some 20) = Err EIntervalParse /\
  shape_of (F_Rn_S_E 3 (Abs 0) (Abs 10)) 0 (Some 20) = Some (Up 0 5 (Some 3)).
Proof. split; vm_compute; reflexivity. Qed.

(* defect (iii): start clipping — 0/P3 in 1..10 contains 2 and not 3 *)
Example c16_witness_start_clip :
  exists s, init (F_S_Pk (Abs 0) 3) None 1 (Some 10) = Ok s /\
            is_valid s 2 = true /\ is_valid s 3 = false /\
            denote (F_S_Pk (Abs 0) 3) None 1 (Some 10) 3.
Proof.
  eexists. split; [vm_compute; reflexivity|]. split; [vm_compute; reflexivity|].
  split; [vm_compute; reflexivity|].
  apply denote_no_items. exists (Up 0 3 None). split; [reflexivity|split].
  - exists 1. repeat split; try lia. discriminate.
  - split; [lia|]. intros F [= <-]. lia.
Qed.

(* defect (iv): stop clipping — R5/0/P3 in 0..10 loses 9 *)
Example c16_witness_stop_clip :
  exists s, init (F_Rn_S_Pk (Some 5) (Abs 0) 3) None 0 (Some 10) = Ok s /\
            is_valid s 9 = false /\ get_stop_point 5 s = Ok (Some 8) /\
            denote (F_Rn_S_Pk (Some 5) (Abs 0) 3) None 0 (Some 10) 9.
Proof.
  eexists. split; [vm_compute; reflexivity|]. split; [vm_compute; reflexivity|].
  split; [vm_compute; reflexivity|].
  apply denote_no_items. exists (Up 0 3 (Some 5)). split; [reflexivity|split].
  - exists 3. repeat split; try lia. intros m [= <-]. lia.
  - split; [lia|]. intros F [= <-]. lia.
Qed.

(* defect (v): one-off points are not clipped — R1/0 with initial point 1 *)
Example c16_witness_oneoff_unclipped :
  exists s, init (F_R1_S (Some 1) (Abs 0)) None 1 (Some 10) = Ok s /\
            is_valid s 0 = true /\ ~ denote (F_R1_S (Some 1) (Abs 0)) None 1 (Some 10) 0.
Proof.
  eexists. split; [vm_compute; reflexivity|]. split; [vm_compute; reflexivity|].
  intros [(sh & _ & _ & Hc & _) _]. lia.
Qed.

(* FULL STATEMENT 2 (property text, second sentence): every query agrees with
   the set, for every query point.  Proved part: section A (range conditions;
   conditional on the call returning; "never raises" is proved there in full). *)
Definition c16_queries_all_points : Prop :=
  forall f items cs ce s fuel p,
    init f items cs ce = Ok s ->
    (forall r, get_next_point fuel s p = Ok r -> is_least_gt (seq_member s) p r) /\
    (forall r, get_prev_point fuel s p = Ok r -> is_greatest_lt (seq_member s) p r) /\
    (forall r, get_nearest_prev_point fuel s p = Ok r -> is_greatest_lt (seq_member s) p r) /\
    (forall r, get_start_point fuel s = Ok r -> is_min (seq_member s) r) /\
    (forall r, get_stop_point fuel s = Ok r -> is_max (seq_member s) r \/ c_stop (s_core s) = None).

(* defect (viii): P3 in 1..10, get_next_point(-5) = None although 1 > -5 is a member *)
Theorem c16_queries_all_points_refuted : ~ c16_queries_all_points.
Proof.
  intros H.
  set (s := {| s_core := {| c_start := 1; c_stop := Some 10; c_step := Some 3 |};
               s_excl := None |}).
  assert (Hs : init (F_Pk 3) None 1 (Some 10) = Ok s) by (vm_compute; reflexivity).
  assert (Hnx : get_next_point 5 s (-5) = Ok None) by (vm_compute; reflexivity).
  assert (Hm : seq_member s 1) by (apply is_valid_iff; vm_compute; reflexivity).
  destruct (H _ _ _ _ s 5%nat (-5) Hs) as (Hn & _).
  pose proof (Hn None Hnx 1 Hm). lia.
Qed.

(* the other query-level defects, each on a state built by the constructor *)
(* (ix) get_prev_point / get_nearest_prev_point beyond stop + step: P3 in 1..10 at 16 *)
Example c16_witness_prev_far_above :
  exists s, init (F_Pk 3) None 1 (Some 10) = Ok s /\ is_valid s 10 = true /\
            get_prev_point 9 s 16 = Ok None /\ get_nearest_prev_point 9 s 16 = Ok None.
Proof. eexists. split; [vm_compute; reflexivity|]. vm_compute. repeat split. Qed.

(* (x) get_prev_point on a one-off: R1/5, get_prev_point(6) = None *)
Example c16_witness_prev_oneoff :
  exists s, init (F_R1_S (Some 1) (Abs 5)) None 1 (Some 10) = Ok s /\ is_valid s 5 = true /\
            get_prev_point 9 s 6 = Ok None.
Proof. eexists. split; [vm_compute; reflexivity|]. vm_compute. repeat split. Qed.

(* (xi) get_next_point on a one-off returns the excluded point: R1!1 *)
Example c16_witness_next_oneoff_excluded :
  exists s, init F_R1 (Some [XP 1]) 1 (Some 10) = Ok s /\ is_valid s 1 = false /\
            get_next_point 9 s 0 = Ok (Some 1).
Proof. eexists. split; [vm_compute; reflexivity|]. vm_compute. repeat split. Qed.

(* (vi), FIXED by d9f1b31 — was TypeError through `None in self.exclusions`;
   regression examples: P1!P2 in 1..10 now answers None where nothing is left *)
Example c16_regress_prev_none_lookup :
  exists s, init (F_Pk 1) (Some [XS (F_Pk 2)]) 1 (Some 10) = Ok s /\
            get_prev_point 9 s 2 = Ok None /\ get_nearest_prev_point 9 s 0 = Ok None /\
            get_prev_point 9 s 5 = Ok (Some 4).
Proof. eexists. split; [vm_compute; reflexivity|]. vm_compute. repeat split. Qed.

Example c16_regress_stop_none_lookup :
  exists s, init (F_Pk 1) (Some [XS (F_Pk 2)]) 1 None = Ok s /\ get_stop_point 9 s = Ok None.
Proof. eexists. split; [vm_compute; reflexivity|]. vm_compute. repeat split. Qed.

(* (vii), FIXED by d9f1b31 — was unbounded self-recursion of
   get_nearest_prev_point at an excluded start point *)
Example c16_regress_nprev_excluded_start :
  exists s, init (F_Pk 1) (Some [XS (F_Pk 2)]) 1 (Some 10) = Ok s /\
            get_nearest_prev_point 9 s 1 = Ok None.
Proof. eexists. split; [vm_compute; reflexivity|]. vm_compute. repeat split. Qed.

(* (xii) start/stop of an empty sequence are stale, not None: 5/P1 in 2..2 *)
Example c16_witness_empty_bounds :
  exists s, init (F_S_Pk (Abs 5) 1) None 2 (Some 2) = Ok s /\
            get_start_point 9 s = Ok (Some 5) /\ get_stop_point 9 s = Ok (Some 2) /\
            is_valid s 5 = false /\ is_valid s 2 = false.
Proof. eexists. split; [vm_compute; reflexivity|]. vm_compute. repeat split. Qed.

(* non-vacuity: the hypotheses of part B hold on realistic inputs *)
(* 1/P2 ! (5, P4) with context 1..10 : {1,3,5,7,9} minus 5 minus {1,5,9} = {3,7} *)
Example c16_sane_example :
  sane_input (F_S_Pk (Abs 1) 2) (Some [XP 5; XS (F_Pk 4)]) 1 (Some 10) (Up 1 2 None).
Proof.
  split; [split; [reflexivity|discriminate]|]. split; [discriminate|].
  split; [reflexivity|]. split; [cbn; repeat split; try lia; discriminate|].
  intros its it [= <-] [<-|[<-|[]]]; [exact I|].
  split; [split; [reflexivity|discriminate]|]. split; [discriminate|].
  exists (Up 1 4 None). split; [reflexivity|]. cbn. split; [lia|split; [lia|intros m [=]]].
Qed.

Example c16_sane_example_run :
  exists s, init (F_S_Pk (Abs 1) 2) (Some [XP 5; XS (F_Pk 4)]) 1 (Some 10) = Ok s /\
            map (is_valid s) [1; 3; 5; 7; 9] = [false; true; false; true; false] /\
            get_start_point 9 s = Ok (Some 3) /\ get_stop_point 9 s = Ok (Some 7) /\
            get_next_point 9 s 3 = Ok (Some 7) /\ get_prev_point 9 s 7 = Ok (Some 3).
Proof. eexists. split; [vm_compute; reflexivity|]. vm_compute. repeat split. Qed.

(* R5/P2/10 ! 6 with context 1..10 : {2,4,8,10}, every query as documented *)
Example c16_sane_example2 :
  sane_input (F_Rn_Pk_E (Some 5) 2 (Abs 10)) (Some [XP 6]) 1 (Some 10) (Down 10 2 (Some 5)).
Proof.
  split; [split; [discriminate|reflexivity]|]. split; [discriminate|].
  split; [reflexivity|]. split; [cbn; repeat split; try lia; intros F [= <-]; lia|].
  intros its it [= <-] [<-|[]]. exact I.
Qed.

Example c16_sane_example2_run :
  exists s, init (F_Rn_Pk_E (Some 5) 2 (Abs 10)) (Some [XP 6]) 1 (Some 10) = Ok s /\
            map (is_valid s) [2; 4; 6; 8; 10; 12] = [true; true; false; true; true; false] /\
            get_next_point 9 s 4 = Ok (Some 8) /\ get_prev_point 9 s 8 = Ok (Some 4) /\
            get_first_point 9 s 5 = Ok (Some 8) /\ get_nearest_prev_point 9 s 7 = Ok (Some 4) /\
            get_start_point 9 s = Ok (Some 2) /\ get_stop_point 9 s = Ok (Some 10).
Proof. eexists. split; [vm_compute; reflexivity|]. vm_compute. repeat split. Qed.
