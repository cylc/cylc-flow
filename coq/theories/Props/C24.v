(* Props/C24.v — C24 "Restricted expression evaluation cannot run arbitrary code".
   Property theorems; the lemmas behind them are in Proofs/RestrictedEvalProofs.v.
   Model/RestrictedEval.v is tied to cylc/flow/util.py (restricted_evaluator,
   RestrictedNodeVisitor) by the C24 correspondence stream; the whitelists in
   Gen/EvalWhitelist.v are regenerated from /repo on every check, so the
   theorems about CompletionEvaluator / RankingExpressionEvaluator are about
   the whitelists the code has now. *)
From Coq Require Import List Bool Arith String.
From Cylc Require Import Base.Util Gen.EvalWhitelist Model.RestrictedEval
  Proofs.RestrictedEvalProofs.
Import ListNotations.
Local Open Scope string_scope.
Local Open Scope list_scope.

(* "An expression that contains anything other than the whitelisted syntax is
   rejected": for every tree and every whitelist, the visitor rejects iff some
   node is bad — its class is not whitelisted, or it is one of the two names
   (`__debug__`, `__builtins__`) that CPython would resolve without their
   being supplied (fix 9296d0f) ... *)
Theorem c24_rejected_iff_non_whitelisted : forall wl t,
  (exists k, first_bad wl t = Some k) <->
  (exists p, In p (preorder_nodes t) /\ bad_node wl p = true).
Proof. exact rejected_iff. Qed.

(* in particular any node whose class is not whitelisted, anywhere in the tree *)
Theorem c24_non_whitelisted_kind_rejected : forall wl t k,
  In k (preorder t) -> whitelisted wl k = false -> exists k', first_bad wl t = Some k'.
Proof. exact contains_bad_rejected. Qed.

(* ... the node reported (error_node / error_type) is the FIRST such node in
   ast.NodeVisitor order ... *)
Theorem c24_first_in_visit_order : forall wl t k,
  first_bad wl t = Some k ->
  exists before n after,
    preorder_nodes t = before ++ (k, n) :: after /\
    bad_node wl (k, n) = true /\
    forallb (fun p => negb (bad_node wl p)) before = true.
Proof. exact rejected_first. Qed.

(* The visitor visits EVERY descendant, whatever lies in between. *)
Theorem c24_every_descendant_visited : forall t s,
  descendant s t -> In (kind_of s, ident_of s) (preorder_nodes t).
Proof. exact descendant_in_preorder. Qed.

(* For any whitelist (in particular one that contains Attribute, Subscript or
   Call, like RankingExpressionEvaluator's), an accepted expression has only
   whitelisted node kinds at every depth: every sub-tree of an accepted tree is
   itself accepted. *)
Theorem c24_accepted_at_every_depth : forall wl t s,
  descendant s t -> first_bad wl t = None ->
  first_bad wl s = None /\
  whitelisted wl (kind_of s) = true /\ reserved_name (kind_of s) (ident_of s) = false.
Proof.
  intros wl t s Hd H. split; [now apply (accepted_descendant wl t)|].
  apply (accepted_nodes wl t _ _ H), descendant_in_preorder, Hd.
Qed.

(* A bad node beneath any chain of whitelisted parents (`f().real`,
   `(x := f()).real`, `[f() for _ in y].count`, ...) makes the whole expression
   rejected. *)
Theorem c24_bad_descendant_rejected : forall wl t s,
  descendant s t -> bad_node wl (kind_of s, ident_of s) = true ->
  exists k, first_bad wl t = Some k.
Proof.
  intros wl t s Hd Hb. apply rejected_iff. eexists. split; [|exact Hb].
  now apply descendant_in_preorder.
Qed.

(* the children of a node of ANY kind (Attribute included) are checked *)
Theorem c24_children_checked : forall wl k n cs c,
  first_bad wl (Node k n cs) = None -> In c cs -> first_bad wl c = None.
Proof. exact accepted_children. Qed.

(* ... "before any part of it is evaluated": the evaluator's outcome is
   `Rejected k` exactly when the visitor found k, and then nothing at all was
   evaluated — no supplied object was touched (empty trace) and the outcome does
   not depend on the variables. *)
Theorem c24_reject_before_eval : forall env truthy wl t tr k,
  restricted_eval env truthy wl (Some t) = (tr, Rejected k) <->
  first_bad wl t = Some k /\ tr = [].
Proof.
  intros env truthy wl t tr k. unfold restricted_eval. destruct (first_bad wl t) as [k'|].
  - split; [intros [= <- <-]; auto|intros [[= <-] ->]; reflexivity].
  - split; [|intros [? _]; discriminate].
    destruct (in_fragment t); [|discriminate].
    intros H. destruct (py_eval_good env truthy t) as [_ Hn]. now rewrite H in Hn.
Qed.

Theorem c24_rejection_ignores_variables : forall wl t k,
  first_bad wl t = Some k ->
  forall env truthy, restricted_eval env truthy wl (Some t) = ([], Rejected k).
Proof. intros wl t k H env truthy. unfold restricted_eval. now rewrite H. Qed.

(* evaluation is reached only when every node of the tree is whitelisted *)
Theorem c24_eval_only_if_all_whitelisted : forall env truthy wl t tr o,
  restricted_eval env truthy wl (Some t) = (tr, o) ->
  (forall k, o <> Rejected k) ->
  forallb (whitelisted wl) (preorder t) = true /\
  (in_fragment t = true -> py_eval env truthy t = (tr, o)).
Proof.
  intros env truthy wl t tr o H Hn. unfold restricted_eval in H.
  destruct (first_bad wl t) as [k|] eqn:E.
  - injection H as <- <-. exfalso. now apply (Hn k).
  - split; [now apply accepted_all_whitelisted|]. intros F. now rewrite F in H.
Qed.

(* With CompletionEvaluator's whitelist (as it is in /repo now) every accepted
   tree consists of Expression / BoolOp / And / Or / Name / Load nodes only:
   although ast.BinOp is listed, a BinOp always has an operator child and no
   operator is listed, so arithmetic can never pass either. *)
Theorem c24_completion_accepts_only_boolop_names : forall t,
  binop_wf operator_kinds t = true ->
  first_bad completion_whitelist t = None ->
  Forall (fun k => In k ["Expression"; "Name"; "Load"; "BoolOp"; "And"; "Or"]) (preorder t).
Proof. exact completion_accepts_only_safe. Qed.

(* ... hence an accepted completion expression is always inside the fragment
   whose evaluation is modelled, and its outcome is [py_eval]'s *)
Theorem c24_completion_accepted_is_evaluated : forall env truthy t,
  binop_wf operator_kinds t = true ->
  first_bad completion_whitelist t = None ->
  restricted_eval env truthy completion_whitelist (Some t) = py_eval env truthy t.
Proof.
  intros env truthy t Hwf Hacc. apply restricted_eval_accepted; [exact Hacc|].
  pose proof (completion_accepts_only_safe t Hwf Hacc) as F.
  unfold in_fragment. apply forallb_forall. intros k Hk.
  rewrite Forall_forall in F. apply mem_str_In. exact (F k Hk).
Qed.

(* calls, lambdas, comprehensions, walrus, f-strings, await/yield, starred and
   conditional expressions are rejected by BOTH of cylc's evaluators, and
   CompletionEvaluator also rejects attribute access, subscripts, constants,
   unary operators and comparisons, wherever they occur in the tree *)
Theorem c24_dangerous_syntax_rejected : forall t k,
  In k dangerous -> In k (preorder t) ->
  (exists k', first_bad completion_whitelist t = Some k') /\
  (exists k', first_bad ranking_whitelist t = Some k').
Proof.
  intros t k Hd Hin. pose proof dangerous_not_whitelisted as H.
  rewrite forallb_forall in H. specialize (H k Hd).
  apply andb_true_iff in H. destruct H as [H1 H2]. apply negb_true_iff in H1, H2.
  split; now apply (contains_bad_rejected _ t k).
Qed.

Theorem c24_completion_rejects_attribute_subscript_constant : forall t k,
  In k completion_extra -> In k (preorder t) ->
  exists k', first_bad completion_whitelist t = Some k'.
Proof.
  intros t k Hd Hin. pose proof completion_extra_not_whitelisted as H.
  rewrite forallb_forall in H. specialize (H k Hd). apply negb_true_iff in H.
  eapply contains_bad_rejected; eauto.
Qed.

(* "evaluation has no access to builtins or to names other than the supplied
   variables".  The value of an accepted completion expression depends only on
   the variables it names ... *)
Theorem c24_value_depends_only_on_named_variables : forall e1 e2 truthy wl t,
  (forall n, In n (names t) -> e1 n = e2 n) ->
  restricted_eval e1 truthy wl (Some t) = restricted_eval e2 truthy wl (Some t).
Proof.
  intros e1 e2 truthy wl t H. unfold restricted_eval.
  destruct (first_bad wl t); [reflexivity|].
  destruct (in_fragment t); [|reflexivity]. now apply py_eval_ext.
Qed.

(* ... and only the supplied variables are visible: every value is one of the
   supplied objects named in the expression, a NameError names a variable that
   was not supplied, and the only objects ever touched (truth-tested) are
   supplied ones named in the expression.  Full statement since fix 9296d0f
   (formerly refuted by `__debug__` -> True and `__builtins__` -> {}). *)
Theorem c24_only_supplied_variables : forall env truthy t tr o,
  py_eval env truthy t = (tr, o) ->
  (forall i, In i tr -> exists n, In n (names t) /\ env n = Some i) /\
  (forall v, o = Val v -> exists n i, In n (names t) /\ env n = Some i /\ v = VObj i) /\
  (forall n, o = NameErr n -> In n (names t) /\ env n = None).
Proof.
  intros env truthy t tr o E.
  pose proof (py_eval_good env truthy t) as [Ht Ho]. rewrite E in Ht, Ho. cbn in Ht, Ho.
  split; [exact Ht|]. split.
  - intros v ->. destruct v as [i]. destruct Ho as [n [Hn He]]. exists n, i. auto.
  - intros n ->. exact Ho.
Qed.

(* the two interpreter-provided names never reach evaluation, whatever the
   whitelist: a tree naming one of them is rejected, an accepted tree names
   neither *)
Theorem c24_reserved_names_rejected : forall wl t n,
  n = DEBUG \/ n = BUILTINS -> In n (names t) -> exists k, first_bad wl t = Some k.
Proof.
  intros wl t n Hn Hin. apply rejected_iff. exists ("Name", n). split; [now apply names_spec|].
  unfold bad_node. destruct Hn as [-> | ->]; apply orb_true_r.
Qed.

Theorem c24_accepted_names_no_reserved : forall wl t,
  first_bad wl t = None -> ~ In DEBUG (names t) /\ ~ In BUILTINS (names t).
Proof.
  intros wl t H. split; intros Hn; apply names_spec in Hn;
    destruct (accepted_nodes wl t _ _ H Hn) as [_ R]; discriminate R.
Qed.

Definition name (n : nat) : pyast := Node "Name" n [Node "Load" 0 []].
(* a and b *)
Definition ex_and : pyast :=
  Node "Expression" 0 [Node "BoolOp" 0 [Node "And" 0 []; name 2; name 3]].
(* a and __import__('os') *)
Definition ex_import : pyast :=
  Node "Expression" 0 [Node "BoolOp" 0 [Node "And" 0 []; name 2;
    Node "Call" 0 [name 9; Node "Constant" 0 []]]].
(* a + b *)
Definition ex_add : pyast :=
  Node "Expression" 0 [Node "BinOp" 0 [name 2; Node "Add" 0 []; name 3]].
Definition ex_env (n : nat) : option nat := if Nat.eqb n 2 || Nat.eqb n 3 then Some n else None.
Definition ex_truthy (i : nat) : bool := Nat.eqb i 2.

Example c24_ex_accept :
  restricted_eval ex_env ex_truthy completion_whitelist (Some ex_and) = ([2], Val (VObj 3)).
Proof. vm_compute. reflexivity. Qed.
Example c24_ex_reject_call :
  restricted_eval ex_env ex_truthy completion_whitelist (Some ex_import) = ([], Rejected "Call").
Proof. vm_compute. reflexivity. Qed.
Example c24_ex_reject_add :
  restricted_eval ex_env ex_truthy completion_whitelist (Some ex_add) = ([], Rejected "Add").
Proof. vm_compute. reflexivity. Qed.
(* regression witnesses of the fixed findings *)
Example c24_ex_debug_rejected :
  restricted_eval ex_env ex_truthy completion_whitelist
    (Some (Node "Expression" 0 [name DEBUG])) = ([], Rejected "Name").
Proof. vm_compute. reflexivity. Qed.
Example c24_ex_builtins_rejected :
  restricted_eval ex_env ex_truthy completion_whitelist
    (Some (Node "Expression" 0 [Node "BoolOp" 0 [Node "Or" 0 []; name 3; name BUILTINS]]))
  = ([], Rejected "Name").
Proof. vm_compute. reflexivity. Qed.
(* canary().real under the production ranking whitelist: Attribute is
   whitelisted, the Call beneath it is still found *)
Definition ex_call_under_attr : pyast :=
  Node "Expression" 0 [Node "Attribute" 0 [Node "Call" 0 [name 2]; Node "Load" 0 []]].
Example c24_ex_call_under_attribute_rejected :
  restricted_eval ex_env ex_truthy ranking_whitelist (Some ex_call_under_attr) = ([], Rejected "Call").
Proof. vm_compute. reflexivity. Qed.
Example c24_ex_attribute_alone_accepted :
  first_bad ranking_whitelist
    (Node "Expression" 0 [Node "Attribute" 0 [name 2; Node "Load" 0 []]]) = None.
Proof. vm_compute. reflexivity. Qed.
Example c24_ex_wf : binop_wf operator_kinds ex_add = true.
Proof. vm_compute. reflexivity. Qed.
Example c24_ex_ranking_accepts_add : first_bad ranking_whitelist ex_add = None.
Proof. vm_compute. reflexivity. Qed.
