(* Props/C07.v — C07 "Task instances stay within cycle bounds and on their sequences". *)
From Coq Require Import List Bool ZArith.
From Cylc Require Import Base.Util Model.Pool Proofs.PoolProofs Proofs.PoolTheorems Props.C01.
Import ListNotations.

(* In every state reachable through an accepted trace, every pooled task (and
   every just-spawned one) is an instance of the workflow's instance graph --
   i.e. its point is on one of the task's recurrences -- and lies between the
   initial and final cycle points. *)
Theorem c07_pool_in_bounds_on_sequence : forall c tr s p,
  exec c (init_state c) tr = Some s -> In p (pool s) ->
  (exists i, find_inst (c_insts c) (p_id p) = Some i) /\ (c_icp c <= fst (p_id p) <= c_fcp c)%Z.
Proof. exact pool_on_sequence_in_bounds. Qed.

(* A spawn outside the graph or the bounds is rejected outright. *)
Theorem c07_spawn_guard : forall c s t fl sat0 h s',
  step c s (ESpawn t fl sat0 h) = Ok s' ->
  (exists i, find_inst (c_insts c) t = Some i) /\ (c_icp c <= fst t <= c_fcp c)%Z.
Proof.
  intros c s t fl sat0 h s' H. exact (proj1 (step_spawn _ _ _ _ _ _ _ H)).
Qed.

(* Stop point: a submission is accepted only in the preparing state, which is
   reached only through a release (or manual trigger); releases from the
   runahead pool never go beyond the limit, which is capped at the stop point. *)
Theorem c07_release_never_beyond_stop_point : forall c s l s' b,
  step c s (ELimit (Some l)) = Ok s' -> min_point (pool s) = Some b -> (l <= stop_point s)%Z.
Proof.
  intros c s l s' b H Hb. apply step_limit in H. destruct H as [[Hp|[E|[A B]]] _].
  - rewrite Hp in Hb. discriminate.
  - unfold spec_limit in E. rewrite Hb in E. injection E as ->. apply Z.le_min_r.
  - (* the limit already at the stop point is kept *)
    rewrite A in B. injection B as ->. apply Z.le_refl.
Qed.

Example c07_ex_off_graph_spawn_rejected :
  run C01.ex_cfg [ESpawn (2%Z, 0%nat) [1%nat] [] false] = Some (0%nat, 101%nat).
Proof. vm_compute. reflexivity. Qed.
