(* Props/C44.v — C44 "Private workflow files are created owner-only".
   The symbolic execution of the two operation sequences is in Proofs/PermProofs.v.
   Model/Perm.v describes, as sequences of open/chmod/umask/rename operations,
   what scheduler start-up does to the private run database
   (WorkflowDatabaseManager.on_workflow_start + copy_pri_to_pub) and to the
   ZMQ keys (key_housekeeping = remove_keys_on_server + create_server_keys).
   PERM_PRIVATE and KEY_UMASK (the literal of os.umask(...) in
   create_server_keys) are regenerated from /repo into Gen/PermConsts.v on
   every run, so these theorems are about the literals that are in the source
   now.  The sequences themselves are tied to the code by the C44
   correspondence stream (real functions and real Scheduler start-ups under
   many umasks; stat modes compared with the model inside Coq). *)
From Coq Require Import List ZArith Bool.
From Cylc Require Import Base.Util Gen.PermConsts Model.Perm Proofs.PermProofs.
Import ListNotations.
Open Scope Z_scope.

(* The property, in full: for EVERY initial state — any umask at all (not only
   < 512), any of the files already present with any mode or absent, first
   start or restart — and whatever creation modes sqlite and Python's open()
   request, once the start-up sequence has run the private database, the
   server private key and the client private key all exist and have none of
   the group/other permission bits. *)
Theorem c44_private : forall s0 is_restart req_db req_py f,
  In f private_files ->
  exists m, modes (run (startup_seq is_restart req_db req_py) s0) f = Some m /\
            Z.land m go_bits = 0.
Proof.
  intros s0 is_restart req_db req_py f Hf. unfold startup_seq. rewrite run_app.
  destruct Hf as [<- | [<- | [<- | []]]].
  - apply db_private.
  - rewrite db_seq_frame by auto. apply keys_private. auto.
  - rewrite db_seq_frame by auto. apply keys_private. auto.
Qed.

(* What `Z.land m 0o077 = 0` means: each of the group r/w/x and other r/w/x
   bits (bit positions 0..5) is clear — "not readable or writable by group or
   other". *)
Theorem c44_owner_only_meaning : forall m,
  Z.land m go_bits = 0 <-> (forall k, 0 <= k < 6 -> Z.testbit m k = false).
Proof.
  intros m. change go_bits with (Z.ones 6). rewrite <- Z.bits_inj_iff'. split.
  - intros H k [K0 K6]. specialize (H k K0).
    rewrite Z.land_spec, Z.testbit_ones_nonneg, Z.bits_0 in H by easy.
    rewrite (proj2 (Z.ltb_lt k 6) K6), andb_true_r in H. exact H.
  - intros H n Hn. rewrite Z.land_spec, Z.testbit_ones_nonneg, Z.bits_0 by easy.
    destruct (Z.ltb_spec n 6); [rewrite H by auto; reflexivity|apply andb_false_r].
Qed.

(* The general bitwise fact behind the keys: a file created while the umask
   denies all group/other bits has none, whatever mode the creator asked for;
   and the literal in create_server_keys is such a umask; and PERM_PRIVATE has
   no group/other bit. *)
Theorem c44_open_under_covering_umask : forall u req,
  Z.land u go_bits = go_bits -> Z.land (mode_after_open u req) go_bits = 0.
Proof. exact open_masked. Qed.

Theorem c44_source_literals :
  Z.land KEY_UMASK go_bits = go_bits /\ Z.land PERM_PRIVATE go_bits = 0.
Proof. split; [exact key_umask_covers_go | exact perm_private_owner_only]. Qed.

(* create_server_keys changes the process umask temporarily; start-up leaves
   the umask as it found it (so later files get the user's default). *)
Theorem c44_umask_restored : forall s0 is_restart req_db req_py,
  umask (run (startup_seq is_restart req_db req_py) s0) = umask s0.
Proof. intros. unfold startup_seq. rewrite run_app, db_umask. apply keys_umask. Qed.

(* The finite formulation of DESIGN.md: for all 512 umasks, with the creation
   modes sqlite (0o644) and CPython (0o666) really use, from an empty directory
   and from one where every file pre-exists with mode 0o777, start and restart.
   These are instances of c44_private, read through the boolean test; the
   bound on the umask plays no part. *)
Theorem c44_private_all_umasks : forall u r f,
  0 <= u < 512 -> In f private_files ->
  file_private (run (startup_seq r sqlite_req python_req) (init_state u fresh)) f = true /\
  file_private (run (startup_seq r sqlite_req python_req) (init_state u loose)) f = true.
Proof.
  intros u r f _ Hf.
  assert (P : forall s0, file_private (run (startup_seq r sqlite_req python_req) s0) f = true).
  { intros s0. unfold file_private, owner_only.
    destruct (c44_private s0 r sqlite_req python_req f Hf) as (m & -> & ->). reflexivity. }
  split; apply P.
Qed.

(* umask 0, empty directory, first start: everything is created; the private
   files come out 0o600 (384) while the public DB is 0o666 (438). *)
Example c44_ex_umask0 :
  map (modes (run (startup_seq false sqlite_req python_req) (init_state 0 fresh))) observed
  = [Some 384; Some 438; Some 384; Some 384; Some 384; Some 384].
Proof. vm_compute. reflexivity. Qed.

(* the chmod is what protects the DB: under umask 0o022 sqlite alone would
   leave it group/other-readable (0o644) *)
Example c44_ex_chmod_needed :
  Z.land (mode_after_open 18 sqlite_req) go_bits <> 0.
Proof. vm_compute. discriminate. Qed.

(* the umask is what protects the keys: with the user's umask 0o022 instead of
   KEY_UMASK they would be 0o644 *)
Example c44_ex_umask_needed :
  Z.land (mode_after_open 18 python_req) go_bits <> 0.
Proof. vm_compute. discriminate. Qed.

(* restart with a DB that was left world-readable: it is tightened *)
Example c44_ex_restart_tightens :
  modes (run (startup_seq true sqlite_req python_req)
             (init_state 18 [Some 420; Some 420])) DbPri = Some 384.
Proof. vm_compute. reflexivity. Qed.
