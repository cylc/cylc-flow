(* Props/C35.v — C35 "Runtime inheritance follows C3 linearization".
   The lemmas the theorems share are in Proofs/C3Proofs.v.
   The model (Model/C3.v) is tied to cylc/flow/c3mro.py by the C35
   correspondence stream, which also compares with CPython's own MRO. *)
From Coq Require Import List Bool Arith Lia.
From Cylc Require Import Base.Util Model.C3 Proofs.C3Proofs.
Import ListNotations.

(* The fuel that [mro] gives [merge] always suffices: merge never runs out. *)
Theorem c35_merge_terminates : forall fuel label seqs,
  total_len seqs < fuel -> merge fuel label seqs <> OutOfFuel.
Proof.
  intros fuel label.
  apply (merge_cases label (fun f seqs r => total_len seqs < f -> r <> OutOfFuel)); try discriminate.
  - lia.
  - intros f seqs c ne Ec IH Hlt. apply find_cand_some in Ec. destruct Ec as [[t Ht] _].
    (* taking the candidate off its sequence leaves less *)
    pose proof (total_len_drop_lt c t _ Ht) as Hd. subst ne. rewrite total_len_filter in Hd.
    destruct (merge f label _); try discriminate. apply IH. lia.
Qed.

(* A returned linearization keeps every input sequence in order (parents'
   linearizations: monotonicity; the parent list: local precedence order),
   has no duplicates, and contains nothing else. *)
Theorem c35_merge_is_linear_extension : forall fuel label seqs l,
  (forall s, In s seqs -> NoDup s) ->
  merge fuel label seqs = Ok l ->
  consistent seqs l /\ (forall x, In x l -> exists s, In s seqs /\ In x s).
Proof.
  intros fuel label seqs l Hnd H. split; [split|].
  - exact (merge_NoDup fuel label seqs l Hnd H).
  - exact (merge_sound fuel label seqs l H).
  - exact (merge_elems fuel label seqs l H).
Qed.

(* Rejection is justified: when merge reports an inconsistent hierarchy no
   duplicate-free order containing all the sequences exists at all ... *)
Theorem c35_reject_only_if_inconsistent : forall fuel label seqs lb,
  (forall s, In s seqs -> NoDup s) ->
  merge fuel label seqs = Inconsistent lb -> forall l, ~ consistent seqs l.
Proof. intros fuel label seqs lb _. apply merge_reject_sound. Qed.

(* ... and conversely every hierarchy that has one is accepted. *)
Theorem c35_accept_if_consistent : forall fuel label seqs l,
  (forall s, In s seqs -> NoDup s) -> total_len seqs < fuel ->
  consistent seqs l -> exists l', merge fuel label seqs = Ok l'.
Proof.
  intros fuel label seqs l Hnd Hf Hc.
  destruct (merge fuel label seqs) as [l'|lb| |] eqn:E; [eauto| | |]; exfalso.
  - exact (c35_reject_only_if_inconsistent _ _ _ _ Hnd E l Hc).
  - exact (merge_not_keyerror _ _ _ E).
  - exact (c35_merge_terminates _ _ _ Hf E).
Qed.

(* At the level of a namespace: its linearization contains itself, its
   parents in declaration order, and each parent's own linearization in
   order; and it is duplicate-free. *)
Theorem c35_mro_sound : forall depth t c l,
  mro depth t c = Ok l ->
  exists ps ls,
    assoc Nat.eqb c t = Some ps /\
    all_ok (map (mro (pred depth) t) ps) = Ok ls /\
    subseq [c] l /\ subseq ps l /\ (forall lp, In lp ls -> subseq lp l).
Proof.
  intros [|d] t c l; cbn [mro pred]; [discriminate|].
  destruct (assoc Nat.eqb c t) as [ps|] eqn:Ea; [|discriminate].
  destruct (all_ok (map (mro d t) ps)) as [ls| | |] eqn:El; try discriminate.
  intros H. pose proof (merge_sound _ _ _ _ H) as Hs.
  exists ps, ls. split; [reflexivity|]. split; [exact El|].
  repeat split; try intros lp Hlp; apply Hs.
  - now left.
  - apply in_or_app. right. apply in_or_app. right. now left.
  - apply in_or_app. right. apply in_or_app. now left.
Qed.

Theorem c35_mro_nodup : forall depth t c l,
  tree_NoDup t -> mro depth t c = Ok l -> NoDup l.
Proof.
  intros depth t c l Ht. revert c l; induction depth as [|d IH]; intros c l; cbn [mro]; [discriminate|].
  destruct (assoc Nat.eqb c t) as [ps|] eqn:Ea; [|discriminate].
  destruct (all_ok (map (mro d t) ps)) as [ls| | |] eqn:El; try discriminate.
  apply merge_NoDup. intros s Hs. apply in_app_or in Hs. destruct Hs as [[<-|[]]|Hs].
  - repeat constructor. intros [].
  - apply in_app_or in Hs. destruct Hs as [Hs|[<-|[]]]; [|eapply Ht; eauto].
    apply (all_ok_In _ _ El), in_map_iff in Hs. destruct Hs as [p [Hp _]]. eapply IH; eauto.
Qed.

(* non-vacuity: the classic example ex_9 from the module docstring
   (O=0 A=1 B=2 C=3 D=4 E=5 K1=6 K2=7 K3=8 Z=9) is accepted with the
   documented order, and Guido's "serious order disagreement" is rejected. *)
Definition ex9 : tree :=
  [(0,[]); (1,[0]); (2,[0]); (3,[0]); (4,[0]); (5,[0]);
   (6,[1;2;3]); (7,[4;2;5]); (8,[4;1]); (9,[6;7;8])].
Example c35_ex9 : mro 11 ex9 9 = Ok [9;6;7;8;4;1;2;3;5;0].
Proof. vm_compute. reflexivity. Qed.
Definition ex2 : tree := [(0,[]); (1,[0]); (2,[0]); (3,[1;2]); (4,[2;1]); (5,[3;4])].
Example c35_ex2 : mro 7 ex2 5 = Inconsistent 5.
Proof. vm_compute. reflexivity. Qed.
