(* Props/C43.v — C43 "Stop point, stop task and stop modes behave as documented". *)
From Coq Require Import List Bool ZArith.
From Cylc Require Import Base.Util Model.Pool Proofs.PoolProofs Proofs.PoolTheorems.
Import ListNotations.
Open Scope Z_scope.

(* With a stop cycle point no task beyond it is submitted unless manually triggered. *)
Theorem c43_no_submission_beyond_stop_point : forall c s t sn s',
  step c s (ESubmit t sn) = Ok s' ->
  exists p, find_task (pool s) t = Some p /\ (p_manual p = true \/ fst t <= stop_point s).
Proof.
  intros c s t sn s' H. apply step_submit in H. destruct H as (p & i & Hf & _ & _ & _ & _ & Hs & _). eauto.
Qed.

(* The automatic shutdown happens only when nothing at or before the stop point
   remains (no active task, no released waiting task, nothing incomplete or
   partially satisfied within the stop point) ... *)
Theorem c43_shutdown_only_when_nothing_remains : forall c s s',
  step c s EShutdownAuto = Ok s' ->
  forall p, In p (pool s) ->
    is_active (p_status p) = false /\
    (p_status p = Waiting -> p_runahead p = true) /\
    (fst (p_id p) <= stop_point s ->
       is_final (p_status p) = false /\ (p_status p = Waiting -> p_sat p = [])).
Proof. exact auto_shutdown_guard. Qed.

(* ... and the early stop point is then forgotten; otherwise it survives a
   restart (ERestart keeps it) and the value the scheduler reports at every
   tick end and after every restart equals the abstract one. *)
Theorem c43_stop_point_forgotten_when_reached : forall c s s',
  step c s EShutdownAuto = Ok s' -> stop_point s' = c_fcp c.
Proof. intros c s s' H. apply step_shutdown_auto in H. destruct H as [_ ->]. reflexivity. Qed.

Theorem c43_stop_point_survives_restart : forall c s s',
  step c s ERestart = Ok s' -> stop_point s' = stop_point s /\ stop_task s' = stop_task s.
Proof.
  intros c s s' H. destruct (restart_keeps_persistent_state c s s' H) as [_ [_ [_ [_ [A [B _]]]]]]. auto.
Qed.

Theorem c43_reported_stop_state_agrees : forall c s sp st s',
  step c s (EParams sp st) = Ok s' -> sp = stop_point s /\ option_eqb tid_eqb st (stop_task s) = true.
Proof.
  intros c s sp st s'. cbn [step]. apply passed; intros E1. apply passed; intros E2. intros _.
  apply negb_false_iff in E1, E2. now apply Z.eqb_eq in E1.
Qed.

(* With a stop task the workflow stops only after that task has succeeded. *)
Theorem c43_stop_task_only_after_success : forall c s s',
  step c s EStopTaskDone = Ok s' ->
  exists t, stop_task s = Some t /\ In (t, o_succeeded) (done s) /\ stop_task s' = None.
Proof.
  intros c s s'. cbn [step]. destruct (stop_task s) as [t|]; [|discriminate].
  destruct (out_done s t o_succeeded) eqn:E; [|discriminate]. intros [= <-].
  exists t. apply (out_done_In s (t, o_succeeded)) in E. auto.
Qed.

(* A clean stop waits for submitted and running jobs; stop --now may leave them,
   and what it leaves is restored by the restart (C19). *)
Theorem c43_clean_stop_waits : forall c s s',
  step c s (EShutdownReq SClean) = Ok s' ->
  forall p, In p (pool s) -> p_status p <> Submitted /\ p_status p <> Running.
Proof.
  intros c s s' H p Hp. revert H. cbn [step]. apply passed; intros _. apply passed; intros E. intros _.
  apply (proj1 (existsb_false _ _) E), orb_false_iff in Hp. destruct Hp as [F1 F2].
  split; intros Heq; rewrite Heq in *; discriminate.
Qed.

Theorem c43_now_leaves_restartable : forall c s vs s',
  exec c s (ERestart :: map ERestore vs ++ [ERestartDone]) = Some s' ->
  forall q, In q (pool s') <-> In q (map restored (pool s)).
Proof. exact restart_roundtrip. Qed.
