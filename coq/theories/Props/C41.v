(* Props/C41.v — C41 "Literal task environment values reach the job unchanged".
   Model: Model/Shell.v — the writer (JobFileWriter._write_runtime_environment /
   _get_variable_value_definition of cylc/flow/job_file.py) and the bash
   fragment that evaluates what it writes; tied to the source and to /bin/bash
   by the `env` correspondence stream of vp/props/c41.py.  The second part is over
   Model/EnvFilter.v (inheritance and WorkflowConfig.filter_env: [merge],
   [filter_env], [keep]), tied to the real config by the `cfgenv` stream.

   [definition v]           the word the writer emits for value v
   [eval_word e users w]    the value bash assigns for word w in environment e
                            (users = passwd: login -> home directory)
   [run_section e users c]  environment after the assignments of section c *)
From Coq Require Import List ZArith Bool Lia.
From Cylc Require Import Base.Util Model.Shell Proofs.ShellProofs Model.EnvFilter Proofs.EnvFilterProofs.
Import ListNotations.
Open Scope Z_scope.

(* A value with none of the characters $ ` \ dquote (the ones that are special
   inside double quotes) and not starting with '~' is written as one
   double-quoted word, and bash assigns exactly that value — whatever else it
   contains (spaces, quotes ', #, =, ~ inside, unicode, newlines) and whatever
   the environment is. *)
Theorem c41_literal : forall e users v,
  plain_str v = true -> tilde_start v = false ->
  definition v = WQuoted v /\ eval_word e users (definition v) = Ok v.
Proof. exact eval_literal. Qed.

(* The tilde shapes.  "~" alone and "~/rest": $HOME, then the literal rest. *)
Theorem c41_tilde_home : forall e users h,
  assoc str_eqb s_HOME e = Some h ->
  eval_word e users (definition [c_tilde]) = Ok h.
Proof.
  intros e users h H. rewrite (definition_tilde_only []) by reflexivity.
  cbn. exact (tilde_expand_home e users h H).
Qed.

Theorem c41_tilde_home_slash : forall e users h rest,
  assoc str_eqb s_HOME e = Some h -> plain_str rest = true -> has_nl rest = false ->
  eval_word e users (definition (c_tilde :: c_slash :: rest)) = Ok (h ++ c_slash :: rest).
Proof.
  intros e users h rest H Hp Hn.
  change (c_tilde :: c_slash :: rest) with (c_tilde :: [] ++ c_slash :: rest).
  rewrite (definition_tilde_slash [] rest) by (try reflexivity; exact Hn).
  cbn [eval_word]. rewrite (tilde_expand_home e users h H). cbn [rbind].
  rewrite (dq_plain e rest Hp). reflexivity.
Qed.

(* "~login" and "~login/rest": the login's home directory (or the text ~login
   unchanged when there is no such user), then the literal rest. *)
Theorem c41_tilde_login : forall e users run,
  safe_login run = true ->
  eval_word e users (definition (c_tilde :: run)) = Ok (home_of users run).
Proof.
  intros e users run H. rewrite (definition_tilde_only run) by (now apply safe_login_nostop).
  cbn. now apply tilde_expand_login.
Qed.

Theorem c41_tilde_login_slash : forall e users run rest,
  safe_login run = true -> plain_str rest = true -> has_nl rest = false ->
  eval_word e users (definition (c_tilde :: run ++ c_slash :: rest)) =
  Ok (home_of users run ++ c_slash :: rest).
Proof.
  intros e users run rest H Hp Hn.
  rewrite (definition_tilde_slash run rest) by (try exact Hn; now apply safe_login_nostop).
  cbn [eval_word]. rewrite (tilde_expand_login e users run H). cbn [rbind].
  rewrite (dq_plain e rest Hp). reflexivity.
Qed.

(* "~foo bar" (whitespace before any '/') is quoted as a whole: no expansion. *)
Theorem c41_tilde_space_is_literal : forall e users run d rest,
  forallb (fun c => negb (stop_char c)) run = true -> is_space d = true -> rest <> [] ->
  plain_str (c_tilde :: run ++ d :: rest) = true ->
  eval_word e users (definition (c_tilde :: run ++ d :: rest)) = Ok (c_tilde :: run ++ d :: rest).
Proof.
  intros e users run d rest Hr Hd Hne Hp.
  rewrite (definition_tilde_space run d rest Hr Hd Hne). cbn [eval_word]. now apply dq_plain.
Qed.

(* Definitions are emitted in configuration order (one assignment per
   configured variable, same names, same order) ... *)
Theorem c41_order : forall c : conf,
  map fst (assignments c) = map fst c /\
  assignments c = map (fun nv => (fst nv, definition (snd nv))) c.
Proof.
  intros c. split; [|reflexivity]. unfold assignments. rewrite map_map. reflexivity.
Qed.

(* ... and evaluated one after the other in that order ... *)
Theorem c41_sequential : forall e users c1 c2,
  run_section e users (c1 ++ c2) =
  rbind (run_section e users c1) (fun e' => run_section e' users c2).
Proof. exact run_section_app. Qed.

(* ... so that a later value can refer to an earlier one: if x is given the
   literal value vx, is not redefined in between, and a later variable y is
   configured as  a${x}b  (a, b literal), then y gets  a vx b. *)
Theorem c41_later_refers_earlier : forall e users pre mid x vx y a b e2,
  plain_str vx = true -> tilde_start vx = false ->
  plain_str a = true -> tilde_start a = false -> plain_str b = true ->
  valid_name x = true ->
  ~ In x (map fst mid) ->
  run_section e users (pre ++ (x, vx) :: mid) = Ok e2 ->
  run_section e users
    (pre ++ (x, vx) :: mid ++ [(y, a ++ c_dollar :: c_lbrace :: x ++ c_rbrace :: b)]) =
  Ok (update e2 y (a ++ vx ++ b)).
Proof. exact later_refers_earlier. Qed.

(* Before the writer: the environment the job gets is the configured one,
   in configuration order (WorkflowConfig.filter_env; Model/EnvFilter.v). *)

(* filter_env keeps a variable iff it is in the include list (or the include list
   is empty) and not in the exclude list, and does nothing else: the result is the
   configured environment with the other entries removed ... *)
Theorem c41_filter_env_is_filter : forall incl excl e,
  filter_env incl excl e = filter (fun kv => keep incl excl (fst kv)) e.
Proof.
  intros incl excl e. unfold filter_env. destruct incl as [|i incl]; [|reflexivity].
  destruct excl as [|x excl]; [|reflexivity].
  symmetry. apply filter_all_true. intros kv _. reflexivity.
Qed.

(* ... i.e. an order-preserving sub-sequence of the configured environment
   (whatever the order of the names in the include / exclude lists) ... *)
Theorem c41_filter_env_subsequence : forall incl excl e,
  sublist (filter_env incl excl e) e.
Proof. intros incl excl e. rewrite c41_filter_env_is_filter. apply filter_sublist. Qed.

(* ... containing exactly the included-and-not-excluded variables, values untouched ... *)
Theorem c41_filter_env_exact : forall incl excl e k v,
  In (k, v) (filter_env incl excl e) <-> In (k, v) e /\ keep incl excl k = true.
Proof. intros incl excl e k v. rewrite c41_filter_env_is_filter, filter_In. reflexivity. Qed.

(* ... so two kept variables stay in their configured relative order, which is what
   c41_later_refers_earlier needs. *)
Theorem c41_filter_env_keeps_order : forall incl excl l1 a l2 b l3,
  keep incl excl (fst a) = true -> keep incl excl (fst b) = true ->
  filter_env incl excl (l1 ++ a :: l2 ++ b :: l3) =
  filter_env incl excl l1 ++ a :: filter_env incl excl l2 ++ b :: filter_env incl excl l3.
Proof.
  intros incl excl l1 a l2 b l3 Ha Hb. rewrite !c41_filter_env_is_filter.
  rewrite filter_app. cbn [filter]. rewrite Ha. rewrite filter_app. cbn [filter]. rewrite Hb.
  reflexivity.
Qed.

(* Inheriting a family's environment keeps the order of the variables already
   present (overridden ones keep their place) and appends the new ones. *)
Theorem c41_inherit_keeps_order : forall source target,
  exists extra, map fst (merge target source) = map fst target ++ extra.
Proof.
  unfold merge. induction source as [|[k v] s IH]; intros target; cbn.
  - exists []. now rewrite app_nil_r.
  - destruct (IH (set_key target k v)) as [e2 H2]. destruct (set_key_keys target k v) as [e1 H1].
    exists (e1 ++ e2). cbn [fst snd] in *. rewrite H2, H1. now rewrite app_assoc.
Qed.

(* A = "two words #x='q'" ;  B = "~/my dir" ;  C = "pre-${A}-post"  with HOME=/h *)
Definition ex_A : str := [116;119;111;32;119;111;114;100;115;32;35;120;61;39;113;39].
Definition ex_conf : conf :=
  [([65], ex_A);
   ([66], [126;47;109;121;32;100;105;114]);
   ([67], [112;114;101;45;36;123;65;125;45;112;111;115;116])].
Definition ex_env : env := [(s_HOME, [47;104])].

Example c41_example_literal_hyps : plain_str ex_A = true /\ tilde_start ex_A = false.
Proof. vm_compute. auto. Qed.

Example c41_example_run :
  rmap (fun e => map (fun nv => lookup e (fst nv)) ex_conf) (run_section ex_env [] ex_conf) =
  Ok [ex_A;
      [47;104;47;109;121;32;100;105;114];
      [112;114;101;45] ++ ex_A ++ [45;112;111;115;116]].
Proof. vm_compute. reflexivity. Qed.

(* the hypotheses exclude real cases: a '$' makes the value non-literal *)
Example c41_example_dollar :
  plain_str [36;65] = false /\ eval_word [([65], [120])] [] (definition [36;65]) = Ok [120].
Proof. vm_compute. auto. Qed.

(* the seeded scenario: root defines BASE, NAME, SCRATCH, LABEL; t adds OUT = ${BASE}/${NAME}
   and includes OUT, LABEL, NAME, BASE (include order differs from configuration order):
   the job gets BASE, NAME, LABEL, OUT in that order and OUT expands from BASE and NAME *)
Definition fx_root : ns :=
  {| n_env := Some [([66], [47;100]); ([78], [102]); ([83], [120]); ([76], [108])];
     n_incl := None; n_excl := None |}.
Definition fx_t : ns :=
  {| n_env := Some [([79], [36;123;66;125;47;36;123;78;125])];
     n_incl := Some [[79]; [76]; [78]; [66]]; n_excl := None |}.
Example c41_filter_example :
  map fst (task_env [fx_root; fx_t]) = [[66]; [78]; [76]; [79]] /\
  rmap (fun e => lookup e [79]) (run_section [] [] (task_env [fx_root; fx_t])) = Ok [47;100;47;102].
Proof. vm_compute. auto. Qed.
