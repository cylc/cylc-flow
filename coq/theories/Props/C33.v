(* Props/C33.v — C33 "Xtriggers are called with the documented discipline".
   Models: Model/Xtrig.v (hand model of XtriggerManager), tied to the real class by
   the "xtrig" correspondence stream (stub pool, virtual clock); Model/XtrigLoop.v
   (its caller in Scheduler._main_loop, introduced further down), tied to the real
   Scheduler by the "xtloop" stream.
   Property text: for each xtrigger function signature, at most one call is in
   progress at a time, consecutive calls are at least the configured interval
   apart, and once a call succeeds the function is not called again for that
   signature while any task still needs it.  Every task depending on a succeeded
   signature becomes satisfied.
   Histories: any list of call_xtriggers_async(task, now) / callback(sig, ok) /
   housekeep(tasks), from the empty manager, with ARBITRARY clock readings.
   The event trace of a history lists submissions to the process pool
   (EvSubmit sig now interval), successes (EvSucceed) and housekeeping-forgets
   (EvForget). *)
From Coq Require Import List Bool ZArith Lia.
From Cylc Require Import Base.Util Model.Xtrig Model.XtrigLoop Proofs.XtrigProofs Proofs.XtrigLoopProofs.
Import ListNotations.
Open Scope Z_scope.

(* At most one call in progress per signature:
   `active` (signatures waiting for their callback) never holds a signature twice ... *)
Theorem c33_one_active : forall ts ops st evs,
  xrun (xinit ts) ops = (st, evs) -> NoDup (s_active st).
Proof.
  intros ts ops st evs E.
  apply (xrun_sound (invariant_respects _ xstep_active_NoDup) ops tt _ _ _ E). constructor.
Qed.

(* ... and a signature is handed to the process pool only when it is not active
   (and has not succeeded) at that moment *)
Theorem c33_submit_only_when_idle : forall st o st' evs s now iv,
  xstep st o = (st', evs) -> In (EvSubmit s now iv) evs ->
  ~ In s (s_active st) /\ ~ In s (s_sat st).
Proof. intros st o st' evs s now iv E H. exact (xstep_submit_guard _ _ _ _ E s now iv H). Qed.

(* The interval.
   [expect s None pre] = Some (t + interval) when the last event about s in [pre]
   is a submission at time t, None when it is a housekeeping-forget (or nothing).
   Any later submission of s happens at a clock reading >= that value. *)
Theorem c33_interval : forall ts ops st evs s pre now iv post,
  xrun (xinit ts) ops = (st, evs) ->
  evs = pre ++ EvSubmit s now iv :: post ->
  forall t, expect s None pre = Some t -> t <= now.
Proof.
  intros ts ops st evs s pre now iv post E ->.
  destruct (xrun_sound (xstep_interval s) ops None _ _ _ E) as [H _]; [intros ? [=]|].
  apply monitored_at in H. now apply H.
Qed.

(* The full statement of the property text ("consecutive calls are at least the
   configured interval apart") is the unconditional one below.  It is FALSE of the
   code: after a signature has succeeded and no task needs it any more, housekeep
   forgets it together with its t_next_call entry, and a task that needs it later
   re-submits it at once.  Witness: interval 10; submitted at 0, succeeded,
   forgotten by housekeep([task 0]), needed by task 1, submitted again at 2.
   FINDING (open, known_findings.json; the witness is in the stream's corpus);
   [c33_interval] above is the restricted statement that does hold. *)
Definition c33_interval_unconditional : Prop :=
  forall ts ops st evs s t1 iv1 t2 iv2 pre mid post,
    xrun (xinit ts) ops = (st, evs) ->
    evs = pre ++ EvSubmit s t1 iv1 :: mid ++ EvSubmit s t2 iv2 :: post ->
    (forall n i, ~ In (EvSubmit s n i) mid) -> t1 + iv1 <= t2.

Theorem c33_interval_unconditional_refuted : ~ c33_interval_unconditional.
Proof.
  intros H.
  pose (e := {| e_label := 0%nat; e_sig := 0%nat; e_clock := None; e_intvl := 10; e_sat := false |}).
  specialize (H [ {| x_id := 0%nat; x_entries := [e] |}; {| x_id := 1%nat; x_entries := [e] |} ]
                [XCall 0%nat 0; XCallback 0%nat true; XCall 0%nat 1; XHousekeep [0%nat]; XCall 1%nat 2]
                _ _ 0%nat 0 10 2 10 [] [EvSucceed 0%nat; EvForget 0%nat] [] (surjective_pairing _)).
  (* the events are named through [snd], so that the run is evaluated once, here *)
  specialize (H eq_refl).
  assert (Hm : forall n i, ~ In (EvSubmit 0%nat n i) [EvSucceed 0%nat; EvForget 0%nat])
    by (intros n i [X|[X|[]]]; discriminate).
  specialize (H Hm). lia.
Qed.

(* No call after success while a task still needs it.
   [succ_state s false pre] = true when the last success of s in [pre] has not
   been followed by a housekeeping-forget of s.  No submission of s then. *)
Theorem c33_no_call_after_success : forall ts ops st evs s pre now iv post,
  xrun (xinit ts) ops = (st, evs) ->
  evs = pre ++ EvSubmit s now iv :: post ->
  succ_state s false pre = false.
Proof.
  intros ts ops st evs s pre now iv post E ->.
  destruct (xrun_sound (xstep_no_resubmit s) ops false _ _ _ E) as [H _]; [intros [=]|].
  apply monitored_at in H. now apply H.
Qed.

(* and housekeeping forgets a succeeded signature only when none of the tasks it
   was given has an unsatisfied xtrigger with that signature *)
Theorem c33_forget_only_when_unneeded : forall st o st' evs s,
  xstep st o = (st', evs) -> In (EvForget s) evs ->
  exists tids, o = XHousekeep tids /\ In s (s_sat st) /\ ~ In s (needed_sigs tids (s_tasks st)).
Proof.
  intros st o st' evs s E Hin. apply xstep_effect_spec in E.
  destruct E as [|tid now t _ c| | | |tids need gone];
    [destruct Hin| |destruct Hin as [[=]|[]]|destruct Hin|destruct Hin as [[=]|[]]|].
  - exfalso. revert Hin.
    apply (fold_call_inv now (fun c => ~ In (EvForget s) (c_events c))); [|cbn; tauto].
    intros c0 e c' ev H [| | |]; cbn; auto; intros [?|[[=]|[]]]%in_app_or; auto.
  - exists tids. split; [reflexivity|].
    apply in_map_iff in Hin. destruct Hin as [x [[= ->] Hx]]. apply filter_In in Hx.
    destruct Hx as [Hx Hn]. split; [exact Hx|]. apply negb_true_iff in Hn. now apply smem_false.
Qed.

(* Dependents of a succeeded signature become satisfied.
   call_xtriggers_async(task): every unsatisfied label of that task whose
   signature has succeeded is satisfied afterwards ... *)
Theorem c33_dependents_satisfied : forall st tid now st' evs t e,
  xstep st (XCall tid now) = (st', evs) ->
  find_task tid (s_tasks st) = Some t -> In e (x_entries t) -> e_sat e = false ->
  In (e_sig e) (s_sat st) ->
  forall t', In t' (s_tasks st') -> x_id t' = tid -> label_done (e_label e) (x_entries t').
Proof.
  cbn [xstep]. intros st tid now st' evs t e E Hf He Hun Hs. rewrite Hf in E. injection E as <- _.
  intros t' Hin Hid. cbn [s_tasks] in Hin. apply in_map_iff in Hin.
  destruct Hin as [t0 [<- H0]]. destruct (Nat.eqb_spec (x_id t0) tid) as [E|E]; [|contradiction].
  cbn [x_entries]. apply call_dependents; [|exact Hs].
  apply filter_In. split; [exact He|]. now rewrite Hun.
Qed.

(* ... and until then the success cannot be forgotten: a signature that a task
   given to housekeep still needs survives housekeeping *)
Theorem c33_needed_survives_housekeeping : forall st tids st' evs s,
  xstep st (XHousekeep tids) = (st', evs) ->
  In s (s_sat st) -> In s (needed_sigs tids (s_tasks st)) -> In s (s_sat st').
Proof. exact xstep_housekeep_keeps. Qed.

(* The caller: the xtrigger section of Scheduler._main_loop (Model/XtrigLoop.v).
   The theorems above take the task list given to housekeep as it comes; what
   keeps a success alive for the POOL is the main loop's choice of that list.
   [LPass now pool pool_hk]: one pass; [pool] = pooled ids with "waiting, not
   queued, not runahead-limited"; [pool_hk] = ALL pooled ids at housekeeping.
   [lstep true] = the code as it is (housekeep gets every pooled task). *)

(* A succeeded signature that SOME pooled task — whatever its runahead / queued /
   held flags or status — still has unsatisfied in its own state survives the
   pass, and its function is not called during the pass. *)
Theorem c33_loop_kept_while_needed : forall st now pool pool_hk st' evs res s,
  lstep true st (LPass now pool pool_hk) = (st', evs, res) ->
  In s (s_sat (l_x st)) ->
  (exists t e, In t (s_tasks (l_x st')) /\ In (x_id t) pool_hk /\ In e (x_entries t)
               /\ e_sat e = false /\ e_sig e = s) ->
  In s (s_sat (l_x st')) /\ (forall n iv, ~ In (EvSubmit s n iv) evs).
Proof.
  intros st now pool pool_hk st' evs res s E Hs Hn.
  eapply pass_keeps_needed; eauto. now apply needed_sigs_spec.
Qed.

(* For every step of the loop (task added, callback delivered, pass): a succeeded
   signature disappears only in a pass in which no pooled task needs it. *)
Theorem c33_loop_forgets_only_unneeded : forall st o st' evs res s,
  lstep true st o = (st', evs, res) ->
  In s (s_sat (l_x st)) -> ~ In s (s_sat (l_x st')) ->
  exists now pool pool_hk, o = LPass now pool pool_hk /\
    ~ (exists t e, In t (s_tasks (l_x st')) /\ In (x_id t) pool_hk /\ In e (x_entries t)
                   /\ e_sat e = false /\ e_sig e = s).
Proof.
  intros st o st' evs res s E Hs Hn.
  destruct (loop_forgets_only_unneeded _ _ _ _ _ s E Hs Hn) as (now & pool & pool_hk & -> & H).
  exists now, pool, pool_hk. split; [reflexivity|]. intros Hex. apply H. now apply needed_sigs_spec.
Qed.

(* Why EVERY pooled task must be passed: with only the tasks whose xtriggers were
   checked in the pass ([lstep false]) the statement is false.  Tasks 1, 2 are
   checked, task 3 is runahead-limited; all need signature 0, which has succeeded:
   the pass satisfies 1 and 2, housekeeping forgets 0 although 3 needs it, and when
   3 is released the function is called again. *)
Theorem c33_loop_variant_only_checked_tasks_refuted :
  exists st now pool pool_hk st' evs res s,
    lstep false st (LPass now pool pool_hk) = (st', evs, res) /\
    In s (s_sat (l_x st)) /\
    (exists t e, In t (s_tasks (l_x st')) /\ In (x_id t) pool_hk /\ In e (x_entries t)
                 /\ e_sat e = false /\ e_sig e = s) /\
    ~ In s (s_sat (l_x st')) /\
    In (EvSubmit s 6 10) (snd (lrun false st' [LPass 6 [(3%nat, true)] [3%nat]])).
Proof.
  pose (e := {| e_label := 0%nat; e_sig := 0%nat; e_clock := None; e_intvl := 10; e_sat := false |}).
  pose (ts := [ {| x_id := 1%nat; x_entries := [e] |}; {| x_id := 2%nat; x_entries := [e] |};
                {| x_id := 3%nat; x_entries := [e] |} ]).
  exists {| l_x := {| s_tnext := [(0%nat, 10)]; s_sat := [0%nat]; s_active := []; s_tasks := ts |}; l_due := true |},
         1, [(1%nat, true); (2%nat, true); (3%nat, false)], [1%nat; 2%nat; 3%nat].
  eexists. eexists. eexists. exists 0%nat.
  split; [vm_compute; reflexivity|]. split; [now left|]. split.
  - exists {| x_id := 3%nat; x_entries := [e] |}, e. vm_compute. tauto.
  - split; [vm_compute; tauto|]. vm_compute. tauto.
Qed.

(* The trace-level discipline (one call in progress, the interval, no call after
   success) also holds for every history of the loop (tasks entering the pool,
   callbacks, passes with any pool contents). *)
Theorem c33_loop_discipline : forall ops st evs s,
  lrun true linit ops = (st, evs) ->
  NoDup (s_active (l_x st)) /\ intervals_ok s None evs /\ no_resubmit_ok s false evs.
Proof.
  intros ops st evs s E. split; [|split].
  - apply (lrun_sound (invariant_respects _ xstep_active_NoDup) (fun _ _ _ H => H) true ops tt _ _ _ E).
    constructor.
  - apply intervals_ok_monitored.
    apply (lrun_sound (xstep_interval s) (fun _ _ _ H => H) true ops None _ _ _ E). intros ? [=].
  - apply no_resubmit_ok_monitored.
    apply (lrun_sound (xstep_no_resubmit s) (fun _ _ _ H => H) true ops false _ _ _ E). intros [=].
Qed.

(* non-vacuity: two tasks sharing a signature (interval 5) *)
Example c33_ex_history :
  let e := {| e_label := 0%nat; e_sig := 0%nat; e_clock := None; e_intvl := 5; e_sat := false |} in
  let ts := [ {| x_id := 0%nat; x_entries := [e] |}; {| x_id := 1%nat; x_entries := [e] |} ] in
  let '(st, evs) := xrun (xinit ts)
     [XCall 0%nat 0; XCall 1%nat 1; XCallback 0%nat false; XCall 1%nat 3; XCall 0%nat 5; XCallback 0%nat true;
      XCall 0%nat 6; XHousekeep [0%nat; 1%nat]; XCall 1%nat 7; XHousekeep [0%nat; 1%nat]; XCall 1%nat 8] in
  (evs, s_active st, s_sat st, flags (s_tasks st))
  = ([EvSubmit 0%nat 0 5; EvSubmit 0%nat 5 5; EvSucceed 0%nat; EvForget 0%nat], [], [],
     [(0%nat, [(0%nat, true)]); (1%nat, [(0%nat, true)])]).
Proof. vm_compute. reflexivity. Qed.

(* the seeded scenario (P1 = @poll => foo, runahead P1): 1/foo 2/foo checked, 3/foo runahead-limited;
   the function succeeds at its first call; 3/foo is satisfied WITHOUT another call *)
Example c33_ex_loop :
  let e := {| e_label := 0%nat; e_sig := 0%nat; e_clock := None; e_intvl := 10; e_sat := false |} in
  let t i := {| x_id := i; x_entries := [e] |} in
  snd (lrun true linit
     [LAdd (t 1%nat); LAdd (t 2%nat); LAdd (t 3%nat);
      LPass 0 [(1%nat, true); (2%nat, true); (3%nat, false)] [1%nat; 2%nat; 3%nat];
      LCallback 0%nat true;
      LPass 1 [(1%nat, true); (2%nat, true); (3%nat, false)] [1%nat; 2%nat; 3%nat];
      LPass 6 [(3%nat, true)] [3%nat]])
  = [EvSubmit 0%nat 0 10; EvSucceed 0%nat].
Proof. vm_compute. reflexivity. Qed.
