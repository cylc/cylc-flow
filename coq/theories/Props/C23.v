(* Props/C23.v — C23 "Universal identifiers round-trip".
   Property theorems; the lemmas behind them are in Proofs/IdProofs.v.
   The model (Model/Id.v) is a hand transcription of the regexes UNIVERSAL_ID,
   RELATIVE_ID, LEGACY_TASK_DOT_CYCLE, LEGACY_CYCLE_SLASH_TASK into parsers,
   and of tokenise / detokenise / legacy_tokenise / upgrade_legacy_ids; it is
   tied to cylc/flow/id.py by the two C23 correspondence streams.

   External behaviour: [is_space] (str.isspace, used by str.strip) and
   [is_digit] (the regex class \d) are universally quantified, with the
   hypotheses the proofs need about them; [c23_cpython_classes] shows that the
   tables of the running CPython (regenerated into Gen/UniClasses.v) satisfy
   these hypotheses.

   Valid tokens ([valid_tokens]: per-field character classes, no white space
   at either end) and canonical tokens ([canon sel t]: what the formatted
   identifier denotes) are described at their definitions in Proofs/IdProofs.v. *)
From Coq Require Import List ZArith Bool.
From Cylc Require Import Base.Util Gen.UniClasses Model.Id Proofs.IdProofs.
Import ListNotations.
Open Scope Z_scope.

(* "For any valid identifier tokens, formatting and re-parsing yields the same
   tokens (job numbers zero-padded)": tokenise(detokenise(t, selectors, relative))
   = canon t.  The relative= flag given to tokenise is the one detokenise used,
   and only matters for tokens without user and workflow. *)
Theorem c23_detok_tok : forall (is_space : Z -> bool),
  is_space 42 = false ->
  (forall c, is_ascii_digit c = true -> is_space c = false) ->
  forall sel rel t s,
  valid_tokens is_space t -> detokenise sel rel t = DOk s ->
  tokenise is_space (rel && negb (truthy (user t) || truthy (workflow t))) s
  = Some (canon sel t).
Proof. exact detok_tok. Qed.

(* ... and valid tokens can always be formatted (no "No tokens provided", no
   int() failure) as soon as one regular token is present. *)
Theorem c23_format_total : forall (is_space : Z -> bool),
  (forall c, is_ascii_digit c = true -> is_space c = false) ->
  forall sel rel t,
  valid_tokens is_space t ->
  truthy (user t) || truthy (workflow t) || truthy (cycle t) || truthy (task t)
  || truthy (job t) = true ->
  exists s, detokenise sel rel t = DOk s.
Proof.
  intros is_space Hdigit sel rel t V Hany.
  destruct (jobfmt_valid is_space Hdigit t V) as (jv & Hjf & _).
  exists (printed sel rel t jv). rewrite detok_spec, Hjf.
  unfold is_abs, is_full. now rewrite !orb_assoc, Hany.
Qed.

(* "parsing then formatting a canonical identifier string yields the same
   string": a canonical string is one that detokenise produces from valid
   tokens; it parses, and formatting the parsed tokens gives it back. *)
Theorem c23_tok_detok : forall (is_space : Z -> bool),
  is_space 42 = false ->
  (forall c, is_ascii_digit c = true -> is_space c = false) ->
  forall sel rel t s,
  valid_tokens is_space t -> detokenise sel rel t = DOk s ->
  exists t', tokenise is_space (rel && negb (truthy (user t) || truthy (workflow t))) s
             = Some t' /\ detokenise sel rel t' = DOk s.
Proof.
  intros is_space Hstar Hdigit sel rel t s V Hd. exists (canon sel t).
  split; [now apply detok_tok|].
  destruct (jobfmt_valid is_space Hdigit t V) as (jv & Hjf & _).
  now rewrite (detok_canon sel t jv Hjf).
Qed.

(* "Relative and absolute forms agree on the task part": parsing the full
   identifier and taking Tokens.task gives the same tokens as parsing the
   relative identifier (Tokens.relative_id / relative_id_with_selectors) with
   relative=True. *)
Theorem c23_relative_absolute : forall (is_space : Z -> bool),
  is_space 42 = false ->
  (forall c, is_ascii_digit c = true -> is_space c = false) ->
  forall sel t sa sr,
  valid_tokens is_space t ->
  detokenise sel false t = DOk sa ->
  detokenise sel true (task_part t) = DOk sr ->
  exists ta tr,
    tokenise is_space false sa = Some ta /\ tokenise is_space true sr = Some tr
    /\ task_part ta = tr.
Proof.
  intros is_space Hstar Hdigit sel t sa sr V Ha Hr.
  exists (canon sel t), (canon sel (task_part t)).
  split; [exact (detok_tok is_space Hstar Hdigit sel false t sa V Ha)|]. split.
  - exact (detok_tok is_space Hstar Hdigit sel true _ sr (task_part_valid is_space t V) Hr).
  - apply task_part_canon. rewrite detok_spec in Hr.
    change (is_abs (task_part t) || is_full (task_part t)) with (is_full t) in Hr.
    destruct (is_full t); [reflexivity|discriminate Hr].
Qed.

(* "legacy task.cycle and cycle/task identifiers upgrade to the equivalent
   tokens".  For valid legacy fields ([legacy_ok]: task in [^~:/\n]+, cycle =
   a \d character followed by [^~.:/\n]*, optional selector, no white space
   at the edges):

   task.cycle[:sel]  is recognised, upgrade_legacy_ids rewrites it to
   //cycle/task[:sel] (cycle/task[:sel] with relative=True), and the new
   identifier parses to exactly the legacy tokens. *)
Theorem c23_legacy_dot_upgrade : forall (is_space is_digit : Z -> bool),
  is_space 42 = false ->
  (forall c, is_ascii_digit c = true -> is_space c = false) ->
  (forall c, is_digit c = true -> l_cyc c = true) ->
  forall tk d cr sel w,
  legacy_ok is_space is_digit tk d cr sel ->
  let lt := legacy_tokens tk (d :: cr) sel in
  let old := dot_form tk (d :: cr) sel in
  let new := slash_form tk (d :: cr) sel in
  legacy_tokenise is_space is_digit old = Some lt
  /\ upgrade_legacy_ids is_space is_digit false [w; old] = [w; 47 :: 47 :: new]
  /\ upgrade_legacy_ids is_space is_digit true [old] = [new]
  /\ tokenise is_space false (47 :: 47 :: new) = Some lt
  /\ tokenise is_space true new = Some lt.
Proof.
  intros is_space is_digit H1 H2 H3 tk d cr sel w L lt old new.
  pose proof (lg_tokenise_dot is_space is_digit H3 tk d cr sel L) as Ht.
  split; [exact Ht|]. exact (lg_upgrade is_space is_digit H1 H2 H3 tk d cr sel L old w Ht).
Qed.

(* cycle/task[:sel] : the same, for every valid legacy cycle — including the
   one-character cycles of integer cycling ("1/foo"), which the implementation
   did not recognise before /repo commit 26dc1a0 (LEGACY_CYCLE_SLASH_TASK needed
   \d[^~.:/\n]+ ; the witness "1/foo" stays in the stream's corpus). *)
Theorem c23_legacy_slash_upgrade : forall (is_space is_digit : Z -> bool),
  is_space 42 = false ->
  (forall c, is_ascii_digit c = true -> is_space c = false) ->
  (forall c, is_digit c = true -> l_cyc c = true) ->
  forall tk d cr sel w,
  legacy_ok is_space is_digit tk d cr sel ->
  let lt := legacy_tokens tk (d :: cr) sel in
  let old := slash_form tk (d :: cr) sel in
  legacy_tokenise is_space is_digit old = Some lt
  /\ upgrade_legacy_ids is_space is_digit false [w; old] = [w; 47 :: 47 :: old]
  /\ upgrade_legacy_ids is_space is_digit true [old] = [old]
  /\ tokenise is_space false (47 :: 47 :: old) = Some lt
  /\ tokenise is_space true old = Some lt.
Proof.
  intros is_space is_digit H1 H2 H3 tk d cr sel w L lt old.
  pose proof (lg_tokenise_slash is_space is_digit H3 tk d cr sel L) as Ht.
  split; [exact Ht|]. exact (lg_upgrade is_space is_digit H1 H2 H3 tk d cr sel L old w Ht).
Qed.

(* The full statement for the cycle/task form: EVERY valid legacy cycle/task
   identifier is recognised (was refuted by "1/a" before commit 26dc1a0). *)
Theorem c23_legacy_slash_upgrade_full : forall (is_space is_digit : Z -> bool),
  (forall c, is_digit c = true -> l_cyc c = true) ->
  forall tk d cr sel,
  legacy_ok is_space is_digit tk d cr sel ->
  legacy_tokenise is_space is_digit (slash_form tk (d :: cr) sel)
  = Some (legacy_tokens tk (d :: cr) sel).
Proof. exact lg_tokenise_slash. Qed.

Lemma ranges_disjoint_from lo hi rs :
  forallb (fun r => (snd r <? lo) || (hi <? fst r)) rs = true ->
  forall c, lo <= c <= hi -> in_ranges c rs = false.
Proof.
  unfold in_ranges. induction rs as [|r rs IH]; cbn; [reflexivity|].
  intros H c Hc. apply andb_true_iff in H. destruct H as [H1 H2].
  rewrite (IH H2 c Hc), orb_false_r.
  apply orb_true_iff in H1. destruct H1 as [H1|H1]; apply Z.ltb_lt in H1.
  - apply andb_false_iff. right. apply Z.leb_gt. destruct Hc. eapply Z.lt_le_trans; eauto.
  - apply andb_false_iff. left. apply Z.leb_gt. destruct Hc. eapply Z.le_lt_trans; eauto.
Qed.

(* the hypotheses hold of the running CPython's tables *)
Theorem c23_cpython_classes :
  is_space_tbl 42 = false
  /\ (forall c, is_ascii_digit c = true -> is_space_tbl c = false)
  /\ (forall c, is_digit_tbl c = true -> l_cyc c = true).
Proof.
  split; [vm_compute; reflexivity|]. split.
  - intros c H. unfold is_ascii_digit in H. apply andb_true_iff in H. destruct H as [H1 H2].
    apply Z.leb_le in H1. apply Z.leb_le in H2.
    apply (ranges_disjoint_from 48 57); [vm_compute; reflexivity|]. split; assumption.
  - intros c H. unfold l_cyc, c_user.
    destruct (Z.eqb_spec c 47) as [->|_]; [vm_compute in H; discriminate H|].
    destruct (Z.eqb_spec c 58) as [->|_]; [vm_compute in H; discriminate H|].
    destruct (Z.eqb_spec c 10) as [->|_]; [vm_compute in H; discriminate H|].
    destruct (Z.eqb_spec c 126) as [->|_]; [vm_compute in H; discriminate H|].
    destruct (Z.eqb_spec c 46) as [->|_]; [vm_compute in H; discriminate H|].
    reflexivity.
Qed.

(* ~u/a/b:ws//2020:cs/t~.x:ts/4:js  — valid tokens with every field present *)
Definition ex_t : tokens :=
  mk (Some [117]) (Some [97; 47; 98]) (Some [119; 115]) (Some [50; 48; 50; 48]) (Some [99; 115])
     (Some [116; 126; 46; 120]) (Some [116; 115]) (Some [52]) (Some [106; 115]).
Example c23_ex_valid : valid_tokens is_space_tbl ex_t.
Proof.
  constructor; (split; [vm_compute; reflexivity|]);
    first [vm_compute; reflexivity | split; vm_compute; reflexivity | right; vm_compute; reflexivity].
Qed.
Example c23_ex_format :
  detokenise true false ex_t
  = DOk [126;117;47;97;47;98;58;119;115;47;47;50;48;50;48;58;99;115;47;116;126;46;120;58;116;115;
         47;48;52;58;106;115].
Proof. vm_compute. reflexivity. Qed.
Example c23_ex_roundtrip :
  exists s, detokenise true false ex_t = DOk s
            /\ tokenise is_space_tbl false s = Some (canon true ex_t)
            /\ job (canon true ex_t) = Some [48; 52].
Proof. eexists. split; [vm_compute; reflexivity|]. split; vm_compute; reflexivity. Qed.
(* a gap (user and cycle but no workflow) is printed and re-read as "*" *)
Example c23_ex_gap :
  let t := mk (Some [117]) None None (Some [49]) None None None None None in
  detokenise false false t = DOk [126;117;47;42;47;47;49]
  /\ workflow (canon false t) = Some [42].
Proof. split; vm_compute; reflexivity. Qed.
(* legacy: "foo.1:s", "10/foo" and "1/foo" are recognised and upgraded *)
Example c23_ex_legacy :
  legacy_ok is_space_tbl is_digit_tbl [102;111;111] 49 [] (Some [115])
  /\ upgrade_legacy_ids is_space_tbl is_digit_tbl false [[119]; [102;111;111;46;49;58;115]]
     = [[119]; [47;47;49;47;102;111;111;58;115]]
  /\ upgrade_legacy_ids is_space_tbl is_digit_tbl false [[119]; [49;48;47;102;111;111]]
     = [[119]; [47;47;49;48;47;102;111;111]]
  /\ upgrade_legacy_ids is_space_tbl is_digit_tbl false [[119]; [49;47;102;111;111]]
     = [[119]; [47;47;49;47;102;111;111]].   (* "1/foo": one-character cycle (fixed in 26dc1a0) *)
Proof.
  split; [constructor; [split| | | |split]; vm_compute; reflexivity|].
  split; [|split]; vm_compute; reflexivity.
Qed.
(* the excluded class really is different: a cycle with ":" does not round-trip *)
Example c23_ex_cycle_colon :
  let t := mk None None None (Some [49; 58; 97]) None None None None None in
  detokenise false false t = DOk [47;47;49;58;97]
  /\ option_map cycle (tokenise is_space_tbl false [47;47;49;58;97]) = Some (Some [49]).
Proof. split; vm_compute; reflexivity. Qed.
