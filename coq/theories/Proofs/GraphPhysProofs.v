(* Proofs/GraphPhysProofs.v — C14, physical layer: blanks, comments, blank and
   comment-only lines, and continuation breaks at => & | around well-formed
   logical lines are undone by stages 1-2 of parse_graph. *)
From Coq Require Import List Bool Arith String.
From Cylc Require Import Base.Util Gen.FamTables Model.GraphBase Model.GraphExpr Model.FamTrig
  Model.GraphParse Model.GraphAst Proofs.FamTrigProofs Proofs.GraphStoreProofs Proofs.GraphPairProofs.
Import ListNotations.

(* what stage 1 keeps of a physical line *)
Definition line_toks (x : list tok) : list tok := remove_ws (cut_comment x).

Lemma blank_remove_ws l : forallb is_ws l = is_nil (remove_ws l).
Proof.
  unfold remove_ws. induction l as [|t r IH]; [reflexivity|]. cbn. destruct (is_ws t); cbn; [exact IH|reflexivity].
Qed.

Lemma existsb_remove_ws q l : (forall k, q (TWs k) = false) -> existsb q (remove_ws l) = existsb q l.
Proof.
  intros Hq. unfold remove_ws. induction l as [|t r IH]; [reflexivity|].
  destruct t; cbn; rewrite ?Hq, IH; reflexivity.
Qed.

Lemma remove_ws_app a b : remove_ws (a ++ b) = remove_ws a ++ remove_ws b.
Proof. unfold remove_ws. apply filter_app. Qed.

Lemma remove_ws_skip l : remove_ws (skip_ws l) = remove_ws l.
Proof. induction l as [|t r IH]; [reflexivity|]. destruct t; try reflexivity. exact IH. Qed.

Lemma adj_nodes_cons t l : adj_nodes l = true -> adj_nodes (t :: l) = true.
Proof.
  intros H. destruct t; try exact H. destruct l as [|t2 l2]; [exact H|]. destruct t2; first [exact H|reflexivity].
Qed.

(* "name<blank>name" leaves two adjacent node texts once the blanks are removed *)
Lemma bad_spaces_adj l : bad_spaces l = true -> adj_nodes (remove_ws l) = true.
Proof.
  induction l as [|t r IH]; [discriminate|].
  destruct t; cbn [bad_spaces]; intros H; try (apply adj_nodes_cons, IH, H); [|exact (IH H)].
  apply orb_true_iff in H. destruct H as [H|H]; [|apply adj_nodes_cons, IH, H].
  apply andb_true_iff in H. destruct H as [_ H].
  destruct r as [|[] r']; try discriminate.
  change (remove_ws (TN n :: ?x)) with (TN n :: remove_ws x). rewrite <- remove_ws_skip.
  destruct (skip_ws (TWs k :: r')) as [|[] ?]; try discriminate. reflexivity.
Qed.

Lemma split_join_nl : forall L, L <> [] -> (forall l, In l L -> existsb is_nl l = false) ->
  split_on is_nl (join_nl L) = L.
Proof.
  induction L as [|x r IH]; [congruence|]. intros _ H. destruct r as [|y r'].
  - cbn. apply split_on_none. apply H. now left.
  - change (join_nl (x :: y :: r')) with (x ++ TNl :: join_nl (y :: r')).
    rewrite split_on_sep; [|reflexivity|apply H; now left]. f_equal. apply IH; [discriminate|].
    intros l Hl. apply H. now right.
Qed.

(* a physical line that stage 1 passes: no newline inside, no "name<blank>name" *)
Definition fine (x : list tok) : Prop := existsb is_nl x = false /\ adj_nodes (line_toks x) = false.

Lemma phys_lines_lines L : Forall fine L ->
  phys_lines (join_nl L) = Ok (filter (fun s => negb (is_nil s)) (map line_toks L)).
Proof.
  intros HL. destruct L as [|x0 L0]; [reflexivity|]. rewrite Forall_forall in HL. unfold phys_lines.
  rewrite split_join_nl; [|discriminate|intros l Hl; now apply HL].
  set (L := x0 :: L0) in *. clearbody L.
  assert (Hb : existsb bad_spaces (filter (fun x => negb (forallb is_ws x)) (map cut_comment L)) = false).
  { apply not_true_is_false. intros H. apply existsb_exists in H. destruct H as [c [Hc Hbad]].
    apply filter_In in Hc. destruct Hc as [Hc _]. apply in_map_iff in Hc. destruct Hc as [x [<- Hx]].
    destruct (HL x Hx) as [_ Ha]. apply bad_spaces_adj in Hbad. unfold line_toks in Ha. congruence. }
  rewrite Hb. f_equal. clear. induction L as [|x r IH]; [reflexivity|]. cbn [map filter].
  rewrite blank_remove_ws. unfold line_toks at 1.
  destruct (is_nil (remove_ws (cut_comment x))); cbn [negb map]; now rewrite IH.
Qed.

(* the lines L are kept as S *)
Definition norm (L S : list (list tok)) : Prop :=
  Forall fine L /\ filter (fun s => negb (is_nil s)) (map line_toks L) = S.

Lemma norm_app A S B T : norm A S -> norm B T -> norm (A ++ B) (S ++ T).
Proof. intros [FA <-] [FB <-]. split; [apply Forall_app; now split|now rewrite map_app, filter_app]. Qed.

Definition is_com (t : tok) : bool := match t with TCom _ => true | _ => false end.

Lemma cut_comment_app a b : existsb is_com a = false -> cut_comment (a ++ b) = a ++ cut_comment b.
Proof.
  induction a as [|t r IH]; cbn; [reflexivity|]. intros H. apply orb_false_iff in H. destruct H as [Ht Hr].
  destruct t; try discriminate; now rewrite IH.
Qed.

Lemma clean_no q l : (forall t, q t = true -> clean_tok t = false) -> forallb clean_tok l = true -> existsb q l = false.
Proof.
  intros Hq H. apply not_true_is_false. intros E. apply existsb_exists in E. destruct E as [t [Ht E]].
  rewrite forallb_forall in H. specialize (H t Ht). rewrite (Hq t E) in H. discriminate.
Qed.

(* a physical line without its comment *)
Definition deco (p : pline) : list tok :=
  print_ws (pl_lead p) ++ flat_map (fun tw => fst tw :: print_ws (snd tw)) (pl_toks p).

Lemma remove_ws_print_ws l : remove_ws (print_ws l) = [].
Proof. unfold remove_ws, print_ws. induction l; cbn; auto. Qed.

Lemma remove_ws_deco p : forallb clean_tok (pline_toks p) = true -> remove_ws (deco p) = pline_toks p.
Proof.
  intros H. unfold deco. rewrite remove_ws_app, remove_ws_print_ws. cbn [app].
  unfold pline_toks in *. induction (pl_toks p) as [|[t w] r IH]; cbn in *; [reflexivity|].
  apply andb_true_iff in H. destruct H as [Ht Hr].
  change (t :: print_ws w ++ ?x) with ([t] ++ print_ws w ++ x).
  rewrite !remove_ws_app, remove_ws_print_ws, (IH Hr). cbn [app].
  destruct t; cbn in *; try discriminate; reflexivity.
Qed.

Definition pline_good (p : pline) : Prop :=
  forallb clean_tok (pline_toks p) = true /\ adj_nodes (pline_toks p) = false.

Lemma norm_pline p : pline_good p ->
  norm [print_pline p] (if is_nil (pline_toks p) then [] else [pline_toks p]).
Proof.
  intros [Hc Ha].
  assert (Hd : forall q, (forall k, q (TWs k) = false) -> (forall t, q t = true -> clean_tok t = false) ->
                         existsb q (deco p) = false).
  { intros q H1 H2. now rewrite <- (existsb_remove_ws q) by exact H1; rewrite remove_ws_deco by exact Hc; apply clean_no. }
  assert (Hl : line_toks (print_pline p) = pline_toks p).
  { unfold line_toks, print_pline. rewrite app_assoc. fold (deco p).
    rewrite cut_comment_app by (apply Hd; [reflexivity|now intros []]).
    destruct (pl_com p); cbn [print_com cut_comment]; rewrite app_nil_r; now apply remove_ws_deco. }
  split.
  - constructor; [|constructor]. split; [|now rewrite Hl].
    unfold print_pline. rewrite app_assoc. fold (deco p). rewrite existsb_app, Hd; [|reflexivity|now intros []].
    destruct (pl_com p); reflexivity.
  - cbn [map filter]. rewrite Hl. destruct (pline_toks p); reflexivity.
Qed.

Lemma norm_fillers fs : norm (map print_filler fs) [].
Proof.
  induction fs as [|f r IH]; [split; constructor|].
  apply (norm_app [print_filler f] [] _ []); [|exact IH].
  (* a filler is a physical line without tokens *)
  exact (norm_pline (mkPl (fi_ws f) [] (fi_com f)) (conj eq_refl eq_refl)).
Qed.

Definition segments (lay : layout) : list (list tok) := map (fun pf => pline_toks (fst pf)) lay.

Lemma norm_layout lay : (forall pf, In pf lay -> pline_good (fst pf) /\ pline_toks (fst pf) <> []) ->
  norm (print_layout_lines lay) (segments lay).
Proof.
  induction lay as [|[p fs] r IH]; intros H; [split; constructor|].
  destruct (H _ (or_introl eq_refl)) as [Hg Hne]. cbn [fst] in *.
  change (norm (([print_pline p] ++ map print_filler fs) ++ print_layout_lines r)
               (([pline_toks p] ++ []) ++ segments r)).
  apply norm_app; [apply norm_app; [|apply norm_fillers]|apply IH; intros pf Hpf; apply H; now right].
  pose proof (norm_pline p Hg) as Hn. destruct (pline_toks p); [congruence|exact Hn].
Qed.

Lemma starts_cont_app s x : s <> [] -> starts_cont (s ++ x) = starts_cont s.
Proof. destruct s; [congruence|reflexivity]. Qed.

Lemma ends_cont_app x s : s <> [] -> ends_cont (x ++ s) = ends_cont s.
Proof.
  intros H. unfold ends_cont. rewrite rev_app_distr. apply starts_cont_app.
  intros E. apply (f_equal (@rev tok)) in E. rewrite rev_involutive in E. cbn in E. congruence.
Qed.

Lemma join_lines_cons first part this rest :
  join_lines first part (this :: rest) =
  let next := match rest with n :: _ => n | [] => [] end in
  if first && starts_cont this then GErr
  else if is_nil rest && ends_cont this then GErr
  else if ends_cont this && starts_cont next then GErr
  else if (ends_cont this || starts_cont next) && negb (ends_bad this || starts_bad next)
       then join_lines false (part ++ this) rest
       else bind (join_lines false [] rest) (fun r => Ok ((part ++ this) :: r)).
Proof. reflexivity. Qed.

Lemma join_one_line : forall (segs : list (list tok)) first part rest,
  segs <> [] -> seg_ok segs = true ->
  (first = true -> starts_cont (hd [] segs) = false) ->
  ends_cont (last segs []) = false ->
  starts_cont (hd [] rest) = false ->
  join_lines first part (segs ++ rest)
  = bind (join_lines false [] rest) (fun r => Ok ((part ++ List.concat segs) :: r)).
Proof.
  induction segs as [|s more IH]; [congruence|]. intros first part rest _ Hok Hfirst Hlast Hrest.
  cbn [seg_ok] in Hok. apply andb_true_iff in Hok. destruct Hok as [Hok Hmore].
  apply andb_true_iff in Hok. destruct Hok as [Hne Hb].
  assert (Hf : first && starts_cont s = false).
  { destruct first; [|reflexivity]. cbn. exact (Hfirst eq_refl). }
  destruct more as [|s2 more'].
  - (* last segment of the logical line *)
    cbn [app List.concat hd last] in *. rewrite join_lines_cons. cbv zeta. rewrite Hf, Hlast. rewrite andb_false_r. cbn [andb orb].
    replace (match rest with [] => [] | n :: _ => n end) with (hd [] rest) by (destruct rest; reflexivity).
    rewrite Hrest. cbn [andb]. now rewrite app_nil_r.
  - rewrite <- app_comm_cons, join_lines_cons. cbv zeta. rewrite <- app_comm_cons. rewrite Hf. cbn [is_nil andb].
    apply andb_true_iff in Hb. destruct Hb as [Hx Hbad]. rewrite Hbad.
    (* exactly one of the two sides of the break is an operator *)
    assert (Hc : ends_cont s && starts_cont s2 = false /\ ends_cont s || starts_cont s2 = true)
      by (destruct (ends_cont s), (starts_cont s2); cbn in Hx; try discriminate; auto).
    destruct Hc as [-> ->]. cbn [andb]. rewrite app_comm_cons.
    rewrite (IH false (part ++ s) rest) by (try discriminate; assumption).
    destruct (join_lines false [] rest); cbn [bind List.concat]; [now rewrite <- app_assoc|reflexivity|reflexivity].
Qed.

Lemma line_ok_inv toks : line_ok toks = true ->
  forallb clean_tok toks = true /\ starts_cont toks = false /\ ends_cont toks = false /\ adj_nodes toks = false.
Proof.
  unfold line_ok. intros H. apply andb_prop in H. destruct H as [H Ha]. apply andb_prop in H. destruct H as [H He].
  apply andb_prop in H. destruct H as [H Hs]. apply andb_prop in H. destruct H as [_ Hc].
  apply negb_true_iff in Ha, He, Hs. auto.
Qed.

(* [lay] puts the well-shaped logical line [toks] on one or more physical lines *)
Definition lays (toks : list tok) (lay : layout) : Prop :=
  line_ok toks = true /\ layout_ok toks lay = true /\ lay <> [].

Lemma layout_toks_concat lay : layout_toks lay = List.concat (segments lay).
Proof. unfold layout_toks, segments. induction lay; cbn; congruence. Qed.

Lemma seg_ok_nonempty segs s : seg_ok segs = true -> In s segs -> s <> [].
Proof.
  induction segs as [|x r IH]; [intros _ []|]. cbn [seg_ok]. intros H Hin.
  apply andb_true_iff in H. destruct H as [H Hr]. apply andb_true_iff in H. destruct H as [Hn _].
  destruct Hin as [<-|Hin]; [destruct x; [discriminate|discriminate]|auto].
Qed.

Lemma hd_concat_starts (segs : list (list tok)) : segs <> [] -> seg_ok segs = true ->
  starts_cont (List.concat segs) = starts_cont (hd [] segs).
Proof.
  destruct segs as [|s r]; [congruence|]. intros _ H. cbn [List.concat hd]. apply starts_cont_app.
  eapply seg_ok_nonempty; eauto. now left.
Qed.

Lemma last_concat_ends (segs : list (list tok)) : segs <> [] -> seg_ok segs = true ->
  ends_cont (List.concat segs) = ends_cont (last segs []).
Proof.
  intros Hne H. destruct (exists_last Hne) as [r [s ->]]. rewrite last_last, concat_app. cbn [List.concat].
  rewrite app_nil_r. apply ends_cont_app.
  eapply seg_ok_nonempty; eauto. apply in_or_app. right. now left.
Qed.

Lemma lays_facts toks lay : lays toks lay ->
  segments lay <> [] /\ seg_ok (segments lay) = true /\ List.concat (segments lay) = toks
  /\ starts_cont (hd [] (segments lay)) = false /\ ends_cont (last (segments lay) []) = false.
Proof.
  intros [Hl [Hlo Hne]]. unfold layout_ok in Hlo. apply andb_true_iff in Hlo. destruct Hlo as [He Hs].
  apply toks_eqb_true in He. rewrite layout_toks_concat in He.
  destruct (line_ok_inv toks Hl) as [_ [Hst [Hend _]]].
  assert (Hn : segments lay <> []) by (unfold segments; destruct lay; [congruence|discriminate]).
  repeat split; auto.
  - rewrite <- hd_concat_starts by auto. now rewrite He.
  - rewrite <- last_concat_ends by auto. now rewrite He.
Qed.

Lemma join_all : forall lines ls, Forall2 lays lines ls ->
  forall first, join_lines first [] (flat_map segments ls) = Ok lines.
Proof.
  induction 1 as [|toks lay lines' ls' Hl HF IH]; intros first; [reflexivity|].
  cbn [flat_map]. destruct (lays_facts toks lay Hl) as [Hn [Hs [Hc [Hst Hen]]]].
  rewrite join_one_line; auto.
  - rewrite (IH false). cbn [bind app]. now rewrite Hc.
  - destruct HF as [|t2 l2 ? ? Hl2 _]; [reflexivity|]. cbn [flat_map].
    destruct (lays_facts t2 l2 Hl2) as [Hn2 [_ [_ [Hst2 _]]]].
    destruct (segments l2); [congruence|]. exact Hst2.
Qed.

Lemma adj_nodes_app a b : adj_nodes (a ++ b) = false -> adj_nodes a = false /\ adj_nodes b = false.
Proof.
  induction a as [|t r IH]; cbn [app]; [auto|]. intros H.
  destruct t; cbn [adj_nodes] in *; try (apply IH; exact H).
  destruct r as [|t2 r2]; cbn [app] in *.
  - split; [reflexivity|]. destruct b as [|t3 b']; [reflexivity|]. destruct t3; try exact H. discriminate.
  - destruct t2; try (apply IH; exact H). discriminate.
Qed.

Lemma lays_pline_good toks lay pf : lays toks lay -> In pf lay ->
  pline_good (fst pf) /\ pline_toks (fst pf) <> [].
Proof.
  intros Hl Hpf. destruct (lays_facts toks lay Hl) as [_ [Hs [Hc _]]].
  destruct Hl as [Hlo _]. destruct (line_ok_inv toks Hlo) as [Hclean [_ [_ Hadj]]].
  assert (Hin : In (pline_toks (fst pf)) (segments lay))
    by (unfold segments; apply (in_map (fun x : pline * list filler => pline_toks (fst x))); exact Hpf).
  split; [|eapply seg_ok_nonempty; eauto].
  apply in_split in Hin. destruct Hin as [l1 [l2 E]]. rewrite E, concat_app in Hc. cbn [List.concat] in Hc.
  subst toks. rewrite !forallb_app in Hclean. apply andb_prop in Hclean. destruct Hclean as [_ Hclean].
  apply andb_prop in Hclean. apply adj_nodes_app in Hadj. destruct Hadj as [_ Hadj]. apply adj_nodes_app in Hadj.
  split; tauto.
Qed.

Theorem phys_layer pre ls lines : Forall2 lays lines ls ->
  bind (phys_lines (render_text pre ls)) (join_lines true []) = Ok lines.
Proof.
  intros HF. assert (Hn : norm (flat_map print_layout_lines ls) (flat_map segments ls)).
  { induction HF as [|toks lay lines' ls' Hl _ IH]; [split; constructor|]. cbn [flat_map].
    apply norm_app; [|exact IH]. apply norm_layout. intros pf Hpf. eapply lays_pline_good; eauto. }
  destruct (norm_app _ _ _ _ (norm_fillers pre) Hn) as [Hfine Hkeep].
  unfold render_text, text_lines. rewrite phys_lines_lines by exact Hfine. rewrite Hkeep.
  cbn [bind app]. now apply join_all.
Qed.
