(* Proofs/ParsecProofs.v — lemmas about Model/Parsec.v.  [good_lines L]: the processed lines on
   which inline, the Jinja2 step, _concatenate and rstrip are each the identity
   ([inline_id], [cat_id], [concatenate_id], [proc_lines_fix]); hence [idempotent]. *)
From Coq Require Import List PeanoNat BinInt Bool.
From Cylc Require Import Base.Util Model.Parsec.
Import ListNotations.
Open Scope Z_scope.

Lemma rstrip_idem s : rstrip (rstrip s) = rstrip s.
Proof.
  induction s as [|c r IH]; [reflexivity|]. cbn [rstrip].
  destruct (rstrip r) as [|x r'] eqn:E.
  - destruct (is_space c) eqn:Ec; [reflexivity|]. cbn. now rewrite Ec.
  - cbn [rstrip] in *. rewrite IH. reflexivity.
Qed.

Lemma strip_bs_id p : ends_bs p = false -> strip_bs p = p.
Proof.
  unfold ends_bs. induction p as [|c r IH]; [reflexivity|]. intros H.
  destruct r as [|d r'].
  - cbn in *. now rewrite H.
  - assert (Hr : strip_bs (d :: r') = d :: r') by (apply IH; exact H).
    cbn [strip_bs] in *. rewrite Hr. reflexivity.
Qed.

Lemma bad_continuation_rstripped l : rstrip l = l -> bad_continuation l = false.
Proof. intros H. unfold bad_continuation. rewrite H, Nat.eqb_refl. reflexivity. Qed.

Lemma split_acc_line x : forall cur rest,
  has_char c_nl x = false ->
  split_acc cur (x ++ c_nl :: rest) = (rev cur ++ x) :: split_acc [] rest.
Proof.
  unfold has_char. induction x as [|c x IH]; intros cur rest H.
  - cbn. now rewrite app_nil_r.
  - cbn [mem] in H. apply orb_false_iff in H. destruct H as [Hc Hx].
    cbn [app split_acc]. rewrite Z.eqb_sym in Hc. rewrite Hc.
    rewrite IH by exact Hx. cbn [rev]. now rewrite <- app_assoc.
Qed.

Lemma split_dump l :
  l <> [] -> (forall x, In x l -> has_char c_nl x = false) -> split_lines (dump l) = l.
Proof.
  intros Hne H. unfold dump, split_lines. destruct l as [|x0 l0]; [congruence|].
  clear Hne. remember (x0 :: l0) as l eqn:E. clear E x0 l0.
  induction l as [|x l IH]; [reflexivity|]. cbn [flat_map].
  rewrite <- app_assoc. cbn [app]. rewrite split_acc_line by (apply H; now left).
  cbn [rev app]. f_equal. apply IH. intros; apply H; now right.
Qed.

Lemma inline_id f fs l :
  (forall x, In x l -> include_match x = None) -> inline (S f) fs l = Ok l.
Proof.
  induction l as [|x l IH]; intros H; [reflexivity|].
  cbn [inline]. rewrite (H x (or_introl eq_refl)).
  cbn [inline] in IH. rewrite IH; [reflexivity|]. intros; apply H; now right.
Qed.

Lemma cat_id l : forall p,
  (forall x, In x (p :: l) -> ends_bs x = false /\ rstrip x = x) ->
  cat (Some p) l = Ok (p :: l).
Proof.
  induction l as [|x l IH]; intros p H.
  - cbn. rewrite strip_bs_id; [reflexivity|]. apply H. now left.
  - cbn [cat]. destruct (H p (or_introl eq_refl)) as [Hp _]. rewrite Hp.
    destruct (H x (or_intror (or_introl eq_refl))) as [_ Hx].
    rewrite (bad_continuation_rstripped x Hx).
    rewrite IH; [reflexivity|]. intros y Hy. apply H. now right.
Qed.

Lemma concatenate_id l :
  (forall x, In x l -> ends_bs x = false /\ rstrip x = x) -> concatenate l = Ok l.
Proof.
  unfold concatenate. destruct l as [|x l]; intros H; [reflexivity|].
  cbn [cat]. destruct (H x (or_introl eq_refl)) as [_ Hx].
  rewrite (bad_continuation_rstripped x Hx). now apply cat_id.
Qed.

Lemma proc_lines_rstripped fuel fs J lines L :
  proc_lines fuel fs J lines = Ok L -> forall x, In x L -> rstrip x = x.
Proof.
  unfold proc_lines.
  destruct (inline fuel fs lines) as [l1|]; [|discriminate]. cbn [rbind].
  destruct (jinja_step J l1) as [l2|]; [|discriminate]. cbn [rbind].
  destruct (concatenate l2) as [l3|]; [|discriminate]. cbn [rmap].
  intros [= <-] x Hx. apply in_map_iff in Hx. destruct Hx as [y [<- _]]. apply rstrip_idem.
Qed.

(* the excluding hypotheses, as one decidable predicate on the processed lines *)
Definition line_ok (l : str) : bool :=
  negb (has_char c_nl l) && negb (ends_bs l) &&
  match include_match l with None => true | Some _ => false end.
Definition good_lines (L : list str) : bool :=
  forallb line_ok L &&
  match L with f :: _ => negb (is_jinja_shebang f) | [] => true end.

Lemma good_lines_inv L : good_lines L = true ->
  (forall x, In x L -> has_char c_nl x = false /\ ends_bs x = false /\ include_match x = None) /\
  (forall f r, L = f :: r -> is_jinja_shebang f = false).
Proof.
  unfold good_lines. intros H. apply andb_true_iff in H. destruct H as [H1 H2]. split.
  - intros x Hx. rewrite forallb_forall in H1. specialize (H1 x Hx). unfold line_ok in H1.
    apply andb_true_iff in H1. destruct H1 as [H1 H3]. apply andb_true_iff in H1.
    destruct H1 as [Ha Hb]. apply negb_true_iff in Ha, Hb.
    destruct (include_match x); [discriminate|]. auto.
  - intros f r ->. now apply negb_true_iff in H2.
Qed.

Lemma proc_lines_fix f fs J L :
  good_lines L = true -> (forall x, In x L -> rstrip x = x) ->
  proc_lines (S f) fs J L = Ok L.
Proof.
  intros Hg Hr. destruct (good_lines_inv L Hg) as [H1 H2].
  unfold proc_lines. rewrite inline_id by (intros x Hx; apply H1; exact Hx). cbn [rbind].
  assert (Hj : jinja_step J L = Ok L).
  { unfold jinja_step. destruct L as [|x r]; [reflexivity|]. now rewrite (H2 x r eq_refl). }
  rewrite Hj. cbn [rbind].
  rewrite concatenate_id by (intros x Hx; split; [apply H1|apply Hr]; exact Hx). cbn [rmap].
  f_equal. rewrite <- (map_id L) at 2. apply map_ext_in, Hr.
Qed.

Lemma idempotent f fs J text L :
  read_and_proc (S f) fs J text = Ok L -> L <> [] -> good_lines L = true ->
  read_and_proc (S f) fs J (dump L) = Ok L.
Proof.
  intros Hrun Hne Hg. unfold read_and_proc in *.
  destruct (good_lines_inv L Hg) as [H1 _].
  rewrite split_dump by (try exact Hne; intros x Hx; apply H1; exact Hx).
  apply proc_lines_fix; [exact Hg|]. exact (proc_lines_rstripped _ _ _ _ _ Hrun).
Qed.

(* the empty file: the dump is one empty line *)
Lemma dump_nil_lines f fs J : read_and_proc (S f) fs J (dump []) = Ok [[]].
Proof. reflexivity. Qed.
