(* Proofs/OptOutputsProofs.v — Model/OptOutputs.v.  For a [valid] expression (every name an output
   or a pre-execution outcome) [classify] is the value in one state, which by monotonicity decides
   [necessary]; the dict of get_optional_outputs, iter_required, the validation table, and the
   members of skip mode's output list ([skip_outputs_Some]). *)
From Coq Require Import List Bool Arith Morphisms_Prop.
From Cylc Require Import Base.Util Model.BExpr Model.Completion Model.OptOutputs
  Proofs.BExprProofs Proofs.CompletionProofs.
Import ListNotations.

Lemma keys_In e outs x : In x (keys e outs) <-> In x (evars e) \/ In x outs.
Proof. unfold keys. now rewrite canon_set_In, in_app_iff. Qed.

(* every name is an output of the task (or one of the two pre-execution
   outcomes, which the evaluator always binds) *)
Definition valid (e : bexpr) (outs : list nat) : Prop :=
  forall a, In a (vars e) -> pre_exec a = true \/ In a outs.

Lemma goo_env_bound outs disable o a :
  pre_exec a = true \/ In a outs ->
  goo_env outs disable o a = Some (missing_with disable o a).
Proof.
  intros Ha. unfold goo_env, missing_with, alone_missing.
  destruct (is_disabled disable a); [reflexivity|].
  destruct (pre_exec a) eqn:Ep; [reflexivity|].
  destruct Ha as [H|H]; [congruence|].
  apply mem_nat_In in H. rewrite H. reflexivity.
Qed.

Lemma classify_valid e outs disable o :
  valid e outs ->
  classify (Some e) outs disable o =
  if uses e o then Opt (eval (missing_with disable o) e) else Unref.
Proof.
  intros Hv. unfold classify. destruct (uses e o); [|reflexivity].
  rewrite (evalo_total (goo_env outs disable o) (missing_with disable o) e); [reflexivity|].
  intros a Ha. apply goo_env_bound, Hv, Ha.
Qed.

Lemma missing_with_None o : missing_with None o = alone_missing o.
Proof. reflexivity. Qed.

Lemma missing_with_le d o : le_env (missing_with d o) (alone_missing o).
Proof. intros a. unfold missing_with. rewrite andb_true_iff. tauto. Qed.

(* the expression is false in EVERY state where [o] is missing and the task
   neither expired nor failed to submit *)
Definition necessary (e : bexpr) (o : nat) : Prop :=
  forall s : nat -> bool,
    s o = false -> s EXPIRED = false -> s SUBMIT_FAILED = false -> eval s e = false.

Lemma pre_exec_cases v : pre_exec v = true -> v = EXPIRED \/ v = SUBMIT_FAILED.
Proof.
  unfold pre_exec. rewrite orb_true_iff, !Nat.eqb_eq. tauto.
Qed.

(* [alone_missing o] is the largest such state, and And/Or expressions are monotone *)
Lemma alone_missing_top o s :
  s o = false -> s EXPIRED = false -> s SUBMIT_FAILED = false -> le_env s (alone_missing o).
Proof.
  intros Ho He Hs a Ha. unfold alone_missing.
  destruct (pre_exec a) eqn:Ep.
  - apply pre_exec_cases in Ep. destruct Ep; subst; congruence.
  - cbn. destruct (Nat.eqb_spec a o); [subst; congruence|reflexivity].
Qed.

Lemma required_iff_necessary e o :
  eval (alone_missing o) e = false <-> necessary e o.
Proof.
  split.
  - intros H s Ho He Hs. eapply eval_mono_false; [|exact H]. now apply alone_missing_top.
  - intros H. apply H; unfold alone_missing; [|reflexivity|reflexivity].
    now rewrite Nat.eqb_refl, andb_false_r.
Qed.

Lemma classification e outs o :
  valid e outs ->
  (classify (Some e) outs None o = Opt false <-> In o (vars e) /\ necessary e o) /\
  (classify (Some e) outs None o = Opt true <-> In o (vars e) /\ ~ necessary e o) /\
  (classify (Some e) outs None o = Unref <-> ~ In o (vars e)).
Proof.
  intros Hv. rewrite (classify_valid _ _ _ _ Hv), missing_with_None.
  rewrite <- uses_In, <- required_iff_necessary.
  destruct (uses e o), (eval (alone_missing o) e); repeat split; try congruence; intros []; congruence.
Qed.

Lemma assoc_map_key {B} (f : nat -> B) l o :
  assoc Nat.eqb o (map (fun k => (k, f k)) l) = if mem Nat.eqb o l then Some (f o) else None.
Proof.
  induction l as [|k l IH]; cbn; [reflexivity|].
  destruct (Nat.eqb_spec o k) as [->|_]; [reflexivity|exact IH].
Qed.

Lemma goo_Some e outs disable r :
  get_optional_outputs e outs disable = Some r ->
  r = map (fun o => (o, classify e outs disable o)) (keys e outs).
Proof. unfold get_optional_outputs. destruct (existsb _ _); congruence. Qed.

Lemma goo_valid_some e outs disable :
  valid e outs ->
  get_optional_outputs (Some e) outs disable =
  Some (map (fun o => (o, classify (Some e) outs disable o)) (keys (Some e) outs)).
Proof.
  intros Hv. unfold get_optional_outputs.
  destruct (existsb _ _) eqn:E; [|reflexivity].
  apply existsb_exists in E as [p [[o [<- _]]%in_map_iff Hc]]. cbn [snd] in Hc.
  rewrite (classify_valid _ _ _ _ Hv) in Hc. now destruct (uses e o).
Qed.

Lemma goo_lookup e outs disable r o :
  get_optional_outputs e outs disable = Some r ->
  assoc Nat.eqb o r =
  if mem Nat.eqb o (evars e ++ outs) then Some (classify e outs disable o) else None.
Proof.
  intros ->%goo_Some. rewrite assoc_map_key.
  now rewrite (mem_nat_ext o (keys e outs) (evars e ++ outs)) by apply canon_set_In.
Qed.

Lemma cls_eqb_eq a b : cls_eqb a b = true <-> a = b.
Proof. destruct a as [| |[|]], b as [| |[|]]; cbn; split; congruence. Qed.

Lemma filter_map_key {B} (f : nat -> B) (p : nat * B -> bool) l :
  map fst (filter p (map (fun k => (k, f k)) l)) = filter (fun k => p (k, f k)) l.
Proof.
  induction l as [|k l IH]; cbn; [reflexivity|].
  destruct (p (k, f k)); cbn; now rewrite IH.
Qed.

Lemma iter_required_In e outs d req o :
  iter_required e outs d = Some req ->
  (In o req <-> In o outs /\ classify e outs d o = Opt false).
Proof.
  unfold iter_required.
  destruct (get_optional_outputs e outs d) as [r|] eqn:Er; [|discriminate].
  intros [= <-]. rewrite (goo_Some _ _ _ _ Er), filter_map_key.
  apply (iff_trans (filter_In _ o _)). cbn [fst snd]. split.
  - intros [_ [Hc Ho]%andb_prop]. split; [now apply mem_nat_In|now apply cls_eqb_eq].
  - intros [Ho Hc]. split; [apply keys_In; now right|].
    apply andb_true_intro. split; [now apply cls_eqb_eq|now apply mem_nat_In].
Qed.

Lemma pair_ok_table v g e : pair_ok v g e = table (pre_exec v) g e.
Proof. destruct g as [[|]|], e as [[|]|]; reflexivity. Qed.

Lemma check_completion_accept t e :
  check_completion t e = Accept <->
  exists r, get_optional_outputs (Some e) (map fst t) None = Some r /\
            forall v, In v (keys (Some e) (map fst t)) ->
                      table (pre_exec v) (gopt t v) (eopt (lookup_cls r v)) = true.
Proof.
  unfold check_completion.
  destruct (get_optional_outputs (Some e) (map fst t) None) as [r|];
    [|split; [discriminate|now intros (r & [=] & _)]].
  split.
  - destruct (forallb _ _) eqn:E; [|discriminate]. intros _. exists r. split; [reflexivity|].
    intros v Hv. rewrite <- pair_ok_table. revert v Hv. now apply forallb_forall.
  - intros (r' & [= <-] & H). rewrite (proj2 (forallb_forall _ _)); [reflexivity|].
    intros v Hv. rewrite pair_ok_table. now apply H.
Qed.

(* the rows of the table for an output that is not a pre-execution outcome *)
Lemma table_graph_required c : table false (Some false) (eopt c) = true -> c = Opt false.
Proof. destruct c as [| |[|]]; cbn; congruence. Qed.

Lemma table_graph_optional c : table false (Some true) (eopt c) = true -> c <> Opt false.
Proof. destruct c as [| |[|]]; cbn; congruence. Qed.

Lemma required_mono_disable e outs d o :
  valid e outs ->
  classify (Some e) outs None o = Opt false ->
  classify (Some e) outs d o = Opt false.
Proof.
  intros Hv. rewrite !classify_valid by assumption.
  destruct (uses e o); [|discriminate]. intros [= H]. f_equal.
  eapply eval_mono_false; [apply missing_with_le|exact H].
Qed.

Lemma emit_failed_conf e outs conf ef :
  emit_failed e outs conf = Some ef ->
  if ef then In FAILED conf \/ conf = [] else ~ In FAILED conf.
Proof.
  unfold emit_failed. destruct (mem Nat.eqb FAILED conf) eqn:E.
  - intros [= <-]. left. now apply mem_nat_In.
  - apply mem_nat_false in E. destruct ef; [|easy]. destruct conf; [auto|discriminate].
Qed.

Lemma emit_failed_default e outs ef :
  emit_failed e outs [] = Some ef ->
  (ef = true <-> In FAILED outs /\ classify e outs None FAILED = Opt false).
Proof.
  unfold emit_failed. cbn.
  destruct (iter_required e outs None) as [req0|] eqn:E; [|discriminate].
  intros [= <-]. now rewrite mem_nat_In, (iter_required_In _ _ _ _ FAILED E).
Qed.

(* the filter process_outputs applies to the required outputs *)
Definition skip_keeps (conf : list nat) (m : nat) : bool :=
  negb (Nat.eqb m SUCCEEDED) && negb (Nat.eqb m FAILED) && (is_nil conf || mem Nat.eqb m conf).

Lemma skip_keeps_default m : m <> SUCCEEDED -> m <> FAILED -> skip_keeps [] m = true.
Proof. unfold skip_keeps. intros ->%Nat.eqb_neq ->%Nat.eqb_neq. reflexivity. Qed.

Lemma skip_outputs_Some e outs conf l :
  skip_outputs e outs conf = Some l ->
  exists ef req,
    emit_failed e outs conf = Some ef /\
    iter_required e outs (Some (skip_disable ef)) = Some req /\
    forall x, In x l <->
       SUBMITTED = x \/ STARTED = x
       \/ (In x req /\ skip_keeps conf x = true)
       \/ (In x outs /\ In x conf)
       \/ (if ef then FAILED else SUCCEEDED) = x.
Proof.
  unfold skip_outputs.
  destruct (emit_failed e outs conf) as [ef|]; [|discriminate].
  destruct (iter_required e outs (Some (skip_disable ef))) as [req|] eqn:Ereq; [|discriminate].
  intros [= <-]. exists ef, req. split; [reflexivity|]. split; [exact Ereq|]. intros x.
  (* append by append; rewriting under the disjunctions is dearer to check *)
  apply (iff_trans (canon_set_In x _)). cbn [app In]. do 2 apply or_iff_compat_l.
  apply (iff_trans (in_app_iff _ _ x)), or_iff_morphism; [apply filter_In|].
  apply (iff_trans (in_app_iff _ _ x)), or_iff_morphism; [|cbn [In]; tauto].
  apply (iff_trans (filter_In _ x outs)), and_iff_compat_l, mem_nat_In.
Qed.

Lemma iter_required_valid e outs d :
  valid e outs -> exists req, iter_required (Some e) outs d = Some req.
Proof. intros Hv. unfold iter_required. rewrite (goo_valid_some _ _ _ Hv). eauto. Qed.

Lemma emit_failed_valid e outs conf :
  valid e outs -> exists ef, emit_failed (Some e) outs conf = Some ef.
Proof.
  intros Hv. unfold emit_failed. destruct (iter_required_valid e outs None Hv) as [req0 ->].
  destruct (mem Nat.eqb FAILED conf), (is_nil conf); eauto.
Qed.

Lemma default_expr_valid t e :
  In SUCCEEDED (map fst t) -> In FAILED (map fst t) ->
  default_expr t = Some e -> valid e (map fst t).
Proof.
  intros H4 H5 <-%default_completion_expr a [H|H]%completion_expr_vars_cases.
  - right. now apply required_In_fst.
  - cbn in H. destruct H as [<-|[<-|[<-|[<-|[]]]]]; auto.
Qed.

Lemma skip_default_graph_required t e l o :
  In SUCCEEDED (map fst t) -> In FAILED (map fst t) ->
  default_expr t = Some e ->
  (* not the degenerate flag combination "failure tolerated, yet `failed`
     necessary": there `failed` alone completes the task *)
  (fail_tolerated t = true -> classify (Some e) (map fst t) None FAILED <> Opt false) ->
  skip_outputs (Some e) (map fst t) [] = Some l ->
  In o (required t) -> o <> SUCCEEDED -> o <> FAILED -> In o l.
Proof.
  intros H4 H5 He Hdeg (ef & req & Hef%emit_failed_default & Hreq & HI)%skip_outputs_Some
    Ho Hns Hnf.
  apply HI. right; right; left. split; [|now apply skip_keeps_default].
  apply (iter_required_In _ _ _ _ o Hreq). split; [now apply required_In_fst|].
  rewrite (classify_valid _ _ _ _ (default_expr_valid t e H4 H5 He)).
  rewrite (proj2 (uses_In e o)) by (now apply (required_in_default_vars t)). f_equal.
  (* [o] is missing in the state evaluated, so only a tolerated failure could
     complete the task; but if failure is tolerated, `failed` is not necessary,
     hence not emitted, hence the disabled output *)
  rewrite <- (default_completion_expr _ _ He), default_expr_semantics.
  rewrite (spec_complete_missing_required t _ o Ho);
    [|unfold missing_with, alone_missing; now rewrite Nat.eqb_refl, !andb_false_r
     |now destruct ef..].
  destruct ef; [|apply andb_false_r].
  destruct (fail_tolerated t); [|reflexivity].
  now destruct (Hdeg eq_refl), (proj1 Hef eq_refl).
Qed.
