(* Proofs/PrereqSubst.v — string-level lemmas about the regex substitution of
   Prerequisite.set_conditional_expr (Model/Prereq.v: match_at, sub_aux, subst_all). *)
From Coq Require Import List ZArith Bool Lia.
From Cylc Require Import Base.Util Model.Prereq.
Import ListNotations.
Local Open Scope Z_scope.

Lemma str_eqb_refl a : str_eqb a a = true.
Proof. apply list_eqb_Z_eq. reflexivity. Qed.

Lemma key_eqb_eq a b : key_eqb a b = true <-> a = b.
Proof.
  destruct a as [[p n] o], b as [[p' n'] o']. unfold key_eqb, kP, kN, kO; cbn. split.
  - intros H. apply andb_prop in H. destruct H as [H Ho]. apply andb_prop in H. destruct H as [Hp Hn].
    apply list_eqb_Z_eq in Hp, Hn, Ho. subst. reflexivity.
  - intros [= -> -> ->]. rewrite !str_eqb_refl. reflexivity.
Qed.

Lemma key_eqb_refl k : key_eqb k k = true.
Proof. apply key_eqb_eq. reflexivity. Qed.

Lemma key_eqb_neq a b : a <> b -> key_eqb a b = false.
Proof. intros H. destruct (key_eqb a b) eqn:E; [|reflexivity]. apply key_eqb_eq in E. contradiction. Qed.

Lemma mem_key_In k l : mem key_eqb k l = true <-> In k l.
Proof. apply mem_In. apply key_eqb_eq. Qed.

Lemma starts_with_app m r : starts_with m (m ++ r) = true.
Proof. induction m as [|a m IH]; cbn; [reflexivity|]. rewrite Z.eqb_refl. exact IH. Qed.

Lemma starts_with_split m s : starts_with m s = true -> exists r, s = m ++ r.
Proof.
  revert s; induction m as [|a m IH]; intros s; cbn.
  - intros _. exists s. reflexivity.
  - destruct s as [|b s]; [discriminate|]. intros H. apply andb_prop in H. destruct H as [E H].
    apply Z.eqb_eq in E. subst b. destruct (IH _ H) as [r ->]. exists r. reflexivity.
Qed.

Lemma last_opt_app d a b : last_opt d (a ++ b) = last_opt (last_opt d a) b.
Proof. revert d; induction a as [|c a IH]; intros d; cbn; [reflexivity|apply IH]. Qed.

Lemma last_opt_snoc d a c : last_opt d (a ++ [c]) = Some c.
Proof. rewrite last_opt_app. reflexivity. Qed.

Lemma skipn_len_app {A} (m r : list A) : skipn (List.length m) (m ++ r) = r.
Proof. induction m as [|a m IH]; cbn; [reflexivity|exact IH]. Qed.

Lemma firstn_len_app {A} (u p : list A) : firstn (List.length u) (u ++ p) = u.
Proof. induction u as [|a u IH]; cbn; [destruct p; reflexivity|f_equal; exact IH]. Qed.

(* two splittings at [c] agree when [c] occurs neither before the first cut nor,
   in one of the two, on the other side of it *)
Lemma split_at {A} (c : A) a b a' b' :
  a ++ c :: b = a' ++ c :: b' -> ~ In c a -> ~ In c a' \/ ~ In c b -> a = a' /\ b = b'.
Proof.
  intros E Ha Hor. apply app_eq_app in E. destruct E as [[|x l] [[-> E]|[-> E]]]; cbn in E.
  - injection E as <-. rewrite app_nil_r. auto.
  - injection E as ->. rewrite app_nil_r. auto.
  - injection E as <- _. destruct Ha. apply in_elt.
  - injection E as <- ->. destruct Hor as [H|H]; destruct H; apply in_elt.
Qed.

Lemma sub_aux_skip m repl u prev r :
  sub_aux m repl (List.length u) prev (u ++ r) = sub_aux m repl O (last_opt prev u) r.
Proof. revert prev; induction u as [|c u IH]; intros prev; [reflexivity|apply IH]. Qed.

Lemma sub_aux_match m repl prev R :
  m <> [] -> match_at m prev (m ++ R) = true ->
  sub_aux m repl O prev (m ++ R) = repl ++ sub_aux m repl O (last_opt prev m) R.
Proof.
  intros Hm Hmatch. destruct m as [|c m']; [congruence|].
  change ((c :: m') ++ R) with (c :: (m' ++ R)) in *.
  cbn [sub_aux]. rewrite Hmatch. f_equal. apply (sub_aux_skip _ _ m').
Qed.

Lemma sub_aux_nomatch m repl seg : forall prev R,
  (forall u v, seg = u ++ v -> v <> [] -> match_at m (last_opt prev u) (v ++ R) = false) ->
  sub_aux m repl O prev (seg ++ R) = seg ++ sub_aux m repl O (last_opt prev seg) R.
Proof.
  induction seg as [|c seg IH]; intros prev R H; [reflexivity|].
  pose proof (H [] (c :: seg) eq_refl ltac:(discriminate)) as H0.
  cbn [app last_opt] in H0. cbn [app sub_aux last_opt]. rewrite H0.
  f_equal. apply IH. intros u v -> Hv.
  apply (H (c :: u) v eq_refl Hv).
Qed.

Definition is_neg (s : str) : bool := match s with c :: _ => c =? 45 | [] => false end.

(* "the previous character is not a minus sign" (the look-behind of the plain pattern) *)
Definition nominus (o : option Z) : bool := negb (option_eqb Z.eqb o (Some 45)).

(* both pattern forms at once: the literal text, the boundary after it, and
   before it either the boundary after the leading minus sign or the look-behind
   and the boundary.  The two sides differ only in the order of the conjuncts. *)
Lemma match_at_eq m prev s :
  match_at m prev s =
  starts_with m s && bnd (last_opt prev m) (hd_opt (skipn (List.length m) s))
  && (if is_neg m then bnd (Some 45) (hd_opt (tl s)) else nominus prev && bnd prev (hd_opt s)).
Proof.
  unfold match_at, is_neg. destruct m as [|c body].
  - unfold match_plain, nominus, c_minus. cbn.
    destruct (negb _), (bnd prev (hd_opt s)); reflexivity.
  - unfold c_minus. destruct (Z.eqb_spec c 45) as [->|Hc].
    + unfold match_neg, c_minus. destruct s as [|d s']; [reflexivity|].
      cbn [starts_with tl List.length skipn last_opt]. rewrite (Z.eqb_sym 45 d).
      destruct (d =? 45), (bnd (Some 45) (hd_opt s')), (starts_with body s'), (bnd (last_opt _ _) _);
        reflexivity.
    + unfold match_plain, nominus, c_minus.
      destruct (negb _), (bnd prev (hd_opt s)), (starts_with (c :: body) s), (bnd (last_opt _ _) _);
        reflexivity.
Qed.

Lemma match_at_prefix m prev s : match_at m prev s = true -> exists r, s = m ++ r.
Proof.
  rewrite match_at_eq. intros M. apply andb_prop in M. destruct M as [M _].
  apply andb_prop in M. apply starts_with_split, M.
Qed.

Definition is_delim (c : Z) : bool := (c =? 124) || (c =? 38) || (c =? 40) || (c =? 41).
(* characters allowed in a key component: no expression operator, no slash,
   no double quote, no backslash, no line break *)
Definition char_ok (c : Z) : bool :=
  negb (is_delim c || (c =? 47) || (c =? 34) || (c =? 92) || (c =? 10) || (c =? 13)).
Definition comp_ok (s : str) : bool := forallb char_ok s.
Definition no_space (s : str) : bool := forallb (fun c => negb (c =? 32)) s.
(* a point starts with a word character, or with a minus sign followed by one *)
Definition point_start_ok (p : str) : bool :=
  match p with
  | c :: r => is_word c || ((c =? 45) && match r with d :: _ => is_word d | [] => false end)
  | [] => false
  end.
(* an output message is non-empty and ends with a word character *)
Definition out_end_ok (o : str) : bool := wordb (last_opt None o).
Definition wf_key (k : key) : bool :=
  comp_ok (kP k) && comp_ok (kN k) && comp_ok (kO k) && no_space (kP k) && no_space (kN k)
  && point_start_ok (kP k) && out_end_ok (kO k).

Definition bprefix (o o' : str) : bool :=
  starts_with o o' && negb (wordb (hd_opt (skipn (List.length o) o'))).
Definition bsuffix (p p' : str) : bool :=
  let n := (List.length p' - List.length p)%nat in
  (List.length p <=? List.length p')%nat && str_eqb (skipn n p') p
  && (is_neg p || (negb (wordb (last_opt None (firstn n p'))) && nominus (last_opt None (firstn n p')))).
(* the pattern of [k] also matches inside the message of [k'] *)
Definition collides (k k' : key) : bool :=
  str_eqb (kN k) (kN k') && bsuffix (kP k) (kP k') && bprefix (kO k) (kO k').

Record wf (k : key) : Prop := {
  wf_P : comp_ok (kP k) = true; wf_N : comp_ok (kN k) = true; wf_O : comp_ok (kO k) = true;
  wf_Ps : no_space (kP k) = true; wf_Ns : no_space (kN k) = true;
  wf_P0 : point_start_ok (kP k) = true; wf_Oe : out_end_ok (kO k) = true }.

Lemma wf_key_wf k : wf_key k = true <-> wf k.
Proof.
  unfold wf_key. split.
  - intros H. repeat (apply andb_prop in H; destruct H as [H ?]). constructor; assumption.
  - intros [H1 H2 H3 H4 H5 H6 H7]. rewrite H1, H2, H3, H4, H5, H6, H7. reflexivity.
Qed.

Lemma comp_ok_not (s : str) c : comp_ok s = true -> char_ok c = false -> ~ In c s.
Proof. intros H Hc Hin. unfold comp_ok in H. rewrite forallb_forall in H. rewrite (H _ Hin) in Hc. discriminate. Qed.

Lemma chars_not_in c (s : str) : forallb (fun x => negb (x =? c)) s = true -> ~ In c s.
Proof. intros H Hin. rewrite forallb_forall in H. specialize (H _ Hin). rewrite Z.eqb_refl in H. discriminate. Qed.

Lemma is_delim_cases c : is_delim c = true -> c = 124 \/ c = 38 \/ c = 40 \/ c = 41.
Proof.
  unfold is_delim. intros H. repeat (apply orb_prop in H; destruct H as [H|H]); apply Z.eqb_eq in H; auto.
Qed.

Lemma delim_not_word c : is_delim c = true -> is_word c = false.
Proof. intros H. apply is_delim_cases in H. destruct H as [->|[->|[->| ->]]]; reflexivity. Qed.

(* of the characters of a message only the slash and the space are not from a component *)
Lemma msg_no_delim k c : wf k -> is_delim c = true -> ~ In c (msg k).
Proof.
  intros W Hc Hin. assert (Hok : char_ok c = false) by (unfold char_ok; rewrite Hc; reflexivity).
  unfold msg in Hin. rewrite in_app_iff in Hin. cbn [In] in Hin.
  rewrite in_app_iff in Hin. cbn [In] in Hin.
  destruct Hin as [H|[H|[H|[H|H]]]].
  - exact (comp_ok_not _ _ (wf_P k W) Hok H).
  - subst c. discriminate.
  - exact (comp_ok_not _ _ (wf_N k W) Hok H).
  - subst c. discriminate.
  - exact (comp_ok_not _ _ (wf_O k W) Hok H).
Qed.

Lemma tmpl_no_slash k : wf k -> ~ In 47 (tmpl k).
Proof.
  intros W Hin. unfold tmpl in Hin.
  assert (Hs : char_ok 47 = false) by reflexivity.
  repeat (apply in_app_or in Hin; destruct Hin as [Hin|Hin]);
    try (revert Hin; apply chars_not_in; reflexivity).
  - exact (comp_ok_not _ _ (wf_P k W) Hs Hin).
  - exact (comp_ok_not _ _ (wf_N k W) Hs Hin).
  - exact (comp_ok_not _ _ (wf_O k W) Hs Hin).
Qed.

(* what precedes an atom: nothing or an operator character *)
Definition prev_ok (o : option Z) : bool := negb (wordb o) && nominus o.

Lemma delim_prev_ok c : is_delim c = true -> prev_ok (Some c) = true.
Proof. intros H. apply is_delim_cases in H. destruct H as [->|[->|[->| ->]]]; reflexivity. Qed.

(* what follows an atom: nothing or an operator character *)
Definition rest_ok (r : str) : bool := match r with [] => true | d :: _ => is_delim d end.

(* for the two boundaries of a match only the neighbouring characters inside
   the atom count, when there are any *)
Lemma prev_ok_last prev u : prev_ok prev = true -> prev_ok (last_opt prev u) = prev_ok (last_opt None u).
Proof. intros H. destruct u as [|a u]; [exact H|reflexivity]. Qed.

Lemma wordb_hd_app w R : rest_ok R = true -> wordb (hd_opt (w ++ R)) = wordb (hd_opt w).
Proof.
  intros H. destruct w; [|reflexivity]. destruct R as [|d R]; [reflexivity|]. apply delim_not_word, H.
Qed.

Lemma msg_last_word k d : wf k -> wordb (last_opt d (msg k)) = true.
Proof.
  intros W. pose proof (wf_Oe k W) as H. unfold out_end_ok in H. unfold msg.
  change (c_slash :: kN k ++ c_space :: kO k) with ((c_slash :: kN k) ++ c_space :: kO k).
  rewrite !last_opt_app. destruct (kO k); [discriminate|exact H].
Qed.

Lemma word_not_minus c : is_word c = true -> (c =? 45) = false.
Proof. intros H. destruct (Z.eqb_spec c 45) as [->|]; [discriminate|reflexivity]. Qed.

(* where the pattern of a key matches at its own message: after a non-word
   character other than a minus sign (nothing to ask when the point is
   negative), and before a non-word character *)
Lemma match_at_msg k prev r : wf k ->
  match_at (msg k) prev (msg k ++ r) = (is_neg (kP k) || prev_ok prev) && negb (wordb (hd_opt r)).
Proof.
  intros W. pose proof (wf_P0 k W) as H0.
  rewrite match_at_eq, starts_with_app, skipn_len_app. unfold bnd. rewrite msg_last_word by exact W.
  unfold msg. destruct (kP k) as [|c p]; [discriminate|].
  cbn [app is_neg tl hd_opt wordb point_start_ok andb] in *.
  destruct (Z.eqb_spec c 45) as [->|_].
  - destruct p as [|d p]; [discriminate|]. cbn in H0 |- *. rewrite H0. apply andb_true_r.
  - rewrite orb_false_r in H0. rewrite H0, !xorb_true_r. unfold prev_ok. cbn [orb].
    rewrite andb_comm. f_equal. apply andb_comm.
Qed.

(* a template never contains a match: it has no slash, and ends with a parenthesis *)
Lemma tmpl_no_match k k' u v p R :
  wf k -> wf k' -> tmpl k' = u ++ v -> v <> [] -> match_at (msg k) p (v ++ R) = false.
Proof.
  intros W W' E Hv. destruct (match_at (msg k) p (v ++ R)) eqn:M; [exfalso|reflexivity].
  apply match_at_prefix in M. destruct M as [r Er].
  destruct (exists_last Hv) as [v' [a ->]].
  assert (a = 41) as ->.
  { apply (f_equal (last_opt None)) in E. rewrite app_assoc, last_opt_snoc in E.
    unfold tmpl in E. rewrite !last_opt_app in E. now injection E. }
  apply app_eq_app in Er. destruct Er as [l [[Hvl _]|[Hm _]]].
  - apply (tmpl_no_slash k' W'). rewrite E, Hvl. apply in_or_app. right. apply in_or_app. left. apply in_elt.
  - apply (msg_no_delim k 41 W eq_refl). rewrite Hm, <- app_assoc. apply in_elt.
Qed.

Lemma bsuffix_app u p : bsuffix p (u ++ p) = is_neg p || prev_ok (last_opt None u).
Proof.
  unfold bsuffix. rewrite app_length, Nat.add_sub, skipn_len_app, firstn_len_app, str_eqb_refl.
  rewrite (proj2 (Nat.leb_le _ _)) by lia. reflexivity.
Qed.

Lemma bsuffix_split p p' : bsuffix p p' = true -> exists u, p' = u ++ p.
Proof.
  unfold bsuffix. intros H. apply andb_prop in H. destruct H as [H _].
  apply andb_prop in H. destruct H as [_ E]. apply list_eqb_Z_eq in E.
  rewrite <- E. eexists. symmetry. apply firstn_skipn.
Qed.

Lemma bprefix_app o w : bprefix o (o ++ w) = negb (wordb (hd_opt w)).
Proof. unfold bprefix. rewrite starts_with_app, skipn_len_app. reflexivity. Qed.

(* the message of [k] occurs in that of [k'], possibly running into the
   following text: the two align component by component *)
Lemma msg_inside k k' u v r R :
  wf k -> wf k' -> msg k' = u ++ v -> rest_ok R = true -> v ++ R = msg k ++ r ->
  exists w, r = w ++ R /\ kP k' = u ++ kP k /\ kN k' = kN k /\ kO k' = kO k ++ w.
Proof.
  intros W W' E HR Er.
  assert (Hw : exists w, v = msg k ++ w /\ r = w ++ R).
  { apply app_eq_app in Er. destruct Er as [l [[-> ->]|[Hm HRl]]]; [eauto|].
    destruct l as [|d l].
    - exists []. rewrite app_nil_r in Hm. subst. rewrite app_nil_r. auto.
    - destruct (msg_no_delim k d W); [rewrite HRl in HR; exact HR|rewrite Hm; apply in_elt]. }
  destruct Hw as [w [-> ->]]. exists w. split; [reflexivity|].
  unfold msg in E.
  replace (u ++ (kP k ++ c_slash :: kN k ++ c_space :: kO k) ++ w)
    with ((u ++ kP k) ++ c_slash :: kN k ++ c_space :: kO k ++ w) in E
    by (rewrite <- !app_assoc; cbn; rewrite <- app_assoc; reflexivity).
  assert (Hs : char_ok 47 = false) by reflexivity.
  apply split_at in E; [destruct E as [EP E]|exact (comp_ok_not _ _ (wf_P k' W') Hs)|right].
  - apply split_at in E; [tauto|exact (chars_not_in 32 _ (wf_Ns k' W'))|left; exact (chars_not_in 32 _ (wf_Ns k W))].
  - rewrite in_app_iff. cbn [In]. intros [H|[H|H]]; [|discriminate|].
    + exact (comp_ok_not _ _ (wf_N k' W') Hs H).
    + exact (comp_ok_not _ _ (wf_O k' W') Hs H).
Qed.

Lemma msg_match_collides k k' u v prev R :
  wf k -> wf k' -> msg k' = u ++ v -> rest_ok R = true -> prev_ok prev = true ->
  match_at (msg k) (last_opt prev u) (v ++ R) = true -> collides k k' = true.
Proof.
  intros W W' E HR Hp M.
  destruct (match_at_prefix _ _ _ M) as [r Er].
  destruct (msg_inside k k' u v r R W W' E HR Er) as [w (-> & EP & EN & EO)].
  rewrite Er, match_at_msg, prev_ok_last, wordb_hd_app in M by assumption.
  unfold collides. rewrite EP, EN, EO, bsuffix_app, bprefix_app, str_eqb_refl. exact M.
Qed.

(* the expression text in the middle of the loop of substitutions: the atoms whose keys are
   [done] show as their templates, the others still as their messages *)
Definition tok_mixed (done : list key) (t : stok) : str :=
  match t with
  | SAtom k => if mem key_eqb k done then tmpl k else msg k
  | SOp c => [c]
  end.
Definition render_mixed (done : list key) (ts : list stok) : str :=
  List.concat (map (tok_mixed done) ts).

Definition is_atom (t : stok) : bool := match t with SAtom _ => true | SOp _ => false end.
(* no two atoms are adjacent (true of every well-formed expression) *)
Fixpoint sep_ok (ts : list stok) : bool :=
  match ts with
  | [] => true
  | t :: r => negb (is_atom t && match r with t' :: _ => is_atom t' | [] => false end) && sep_ok r
  end.
Definition tok_ok (t : stok) : bool :=
  match t with SAtom k => wf_key k | SOp c => is_delim c end.
Definition atoms (ts : list stok) : list key :=
  flat_map (fun t => match t with SAtom k => [k] | SOp _ => [] end) ts.

Definition starts_atom (ts : list stok) : bool :=
  match ts with t :: _ => is_atom t | [] => false end.

Lemma render_src_mixed ts : render_src ts = render_mixed [] ts.
Proof. reflexivity. Qed.

Lemma render_mixed_cons done t ts : render_mixed done (t :: ts) = tok_mixed done t ++ render_mixed done ts.
Proof. reflexivity. Qed.

Lemma rest_ok_render done ts :
  forallb tok_ok ts = true -> starts_atom ts = false -> rest_ok (render_mixed done ts) = true.
Proof.
  destruct ts as [|[k|c] r]; cbn; [reflexivity|discriminate|].
  intros H _. apply andb_prop in H. apply H.
Qed.

Lemma msg_nonempty k : msg k <> [].
Proof. unfold msg. destruct (kP k); discriminate. Qed.

(* the pattern cannot start at an operator character *)
Lemma match_at_delim k prev c R : wf k -> is_delim c = true -> match_at (msg k) prev (c :: R) = false.
Proof.
  intros W Hc. destruct (match_at (msg k) prev (c :: R)) eqn:M; [exfalso|reflexivity].
  apply match_at_prefix in M. destruct M as [x M]. pose proof (msg_nonempty k) as Hne.
  apply (msg_no_delim k c W Hc). destruct (msg k); [congruence|].
  injection M as -> _. left. reflexivity.
Qed.

(* an atom between operators: its own message becomes the template, a template
   and a message that [k] does not collide into are passed over *)
Lemma sub_atom k k' done prev R :
  wf k -> wf k' -> prev_ok prev = true -> rest_ok R = true ->
  (mem key_eqb k' done = false -> k' <> k -> collides k k' = false) ->
  sub_aux (msg k) (tmpl k) O prev (tok_mixed done (SAtom k') ++ R)
  = tok_mixed (k :: done) (SAtom k')
    ++ sub_aux (msg k) (tmpl k) O (last_opt prev (tok_mixed done (SAtom k'))) R.
Proof.
  intros W W' Hprev HR Hcol. cbn [tok_mixed mem].
  destruct (mem key_eqb k' done) eqn:Hd.
  - rewrite orb_true_r. apply sub_aux_nomatch.
    intros u v E Hv. eapply tmpl_no_match; eauto.
  - rewrite orb_false_r. destruct (key_eqb k' k) eqn:Hk.
    + apply key_eqb_eq in Hk. subst k'. apply sub_aux_match; [apply msg_nonempty|].
      rewrite match_at_msg, Hprev, orb_true_r by exact W.
      rewrite <- (app_nil_l R), wordb_hd_app by exact HR. reflexivity.
    + apply sub_aux_nomatch. intros u v E _.
      destruct (match_at (msg k) (last_opt prev u) (v ++ R)) eqn:M; [|reflexivity].
      rewrite <- Hcol; [|reflexivity|intros ->; rewrite key_eqb_refl in Hk; discriminate].
      symmetry. eapply msg_match_collides; eauto.
Qed.

Lemma sub_mixed k done : wf k -> forall ts prev,
  forallb tok_ok ts = true -> sep_ok ts = true ->
  Forall (fun k' => mem key_eqb k' done = false -> k' <> k -> collides k k' = false) (atoms ts) ->
  (starts_atom ts = true -> prev_ok prev = true) ->
  sub_aux (msg k) (tmpl k) O prev (render_mixed done ts) = render_mixed (k :: done) ts.
Proof.
  intros W. induction ts as [|t r IH]; intros prev Hok Hsep Hcol Hprev; [reflexivity|].
  cbn [forallb] in Hok. apply andb_true_iff in Hok. destruct Hok as [Ht Hr].
  cbn [sep_ok] in Hsep. apply andb_true_iff in Hsep. destruct Hsep as [Hadj Hsep].
  rewrite !render_mixed_cons.
  destruct t as [k'|c]; cbn [tok_ok] in Ht.
  - (* an atom; what follows is the end or an operator *)
    apply negb_true_iff in Hadj. change (starts_atom r = false) in Hadj.
    change (atoms (SAtom k' :: r)) with (k' :: atoms r) in Hcol.
    inversion Hcol as [|? ? Hk' Hcol']; subst.
    rewrite sub_atom; auto; [|apply wf_key_wf, Ht|apply rest_ok_render; assumption].
    f_equal. apply IH; auto. congruence.
  - cbn [tok_mixed app sub_aux]. rewrite match_at_delim by assumption. f_equal. apply IH; auto.
    intros _. apply delim_prev_ok, Ht.
Qed.

Lemma in_atoms k ts : In k (atoms ts) <-> In (SAtom k) ts.
Proof.
  unfold atoms. rewrite in_flat_map. split.
  - intros [[k'|c] [Hin H]]; [|destruct H]. destruct H as [->|[]]. exact Hin.
  - intros H. exists (SAtom k). split; [exact H|left; reflexivity].
Qed.

Lemma render_mixed_ext d1 d2 ts :
  (forall k, In k (atoms ts) -> mem key_eqb k d1 = mem key_eqb k d2) ->
  render_mixed d1 ts = render_mixed d2 ts.
Proof.
  intros H. unfold render_mixed. f_equal. apply map_ext_in. intros [k|c] Ht; [|reflexivity].
  cbn. rewrite (H k); [reflexivity|]. apply in_atoms, Ht.
Qed.

Lemma render_py_mixed done ts :
  (forall k, In k (atoms ts) -> In k done) -> render_mixed done ts = render_py ts.
Proof.
  intros H. unfold render_mixed, render_py. f_equal. apply map_ext_in. intros [k|c] Ht; [|reflexivity].
  cbn. rewrite (proj2 (mem_key_In k done)); [reflexivity|]. apply H, in_atoms, Ht.
Qed.

(* keys processed earlier must not collide into keys processed later *)
Definition order_ok (ks : list key) : Prop :=
  ForallOrdPairs (fun k k' => collides k k' = false) ks.

Lemma subst_all_mixed ts :
  forallb tok_ok ts = true -> sep_ok ts = true ->
  forall ks done,
    Forall wf ks -> order_ok ks ->
    (forall k, In k (atoms ts) -> In k done \/ In k ks) ->
    subst_all ks (render_mixed done ts) = render_mixed (rev ks ++ done) ts.
Proof.
  intros Hok Hsep. induction ks as [|k ks IH]; intros done Hwf Hord Hin; [reflexivity|].
  cbn [subst_all fold_left]. unfold sub.
  inversion Hwf as [|? ? Wk Wks]; subst. inversion Hord as [|? ? Hk Hks]; subst.
  rewrite sub_mixed; auto.
  - fold (subst_all ks (render_mixed (k :: done) ts)). rewrite IH; auto.
    + cbn [rev]. rewrite <- app_assoc. reflexivity.
    + intros k' Hk'. cbn [In]. destruct (Hin k' Hk') as [H|[H|H]]; auto.
  - apply Forall_forall. intros k' Hk' Hd Hne. rewrite Forall_forall in Hk. apply Hk.
    destruct (Hin k' Hk') as [H|[H|H]]; [|congruence|exact H].
    apply mem_key_In in H. congruence.
Qed.

(* The string-level substitution theorem: over any expression text whose atoms
   are separated by operators, with every atom's key among the keys, the loop of
   regex substitutions turns exactly every message into its template. *)
Theorem subst_all_exact ts ks :
  forallb tok_ok ts = true -> sep_ok ts = true ->
  Forall wf ks -> order_ok ks ->
  (forall k, In k (atoms ts) -> In k ks) ->
  subst_all ks (render_src ts) = render_py ts.
Proof.
  intros Hok Hsep Hwf Hord Hin.
  rewrite render_src_mixed, (subst_all_mixed ts Hok Hsep ks [] Hwf Hord) by auto.
  apply render_py_mixed. intros k Hk. rewrite app_nil_r. apply in_rev. rewrite rev_involutive. auto.
Qed.
