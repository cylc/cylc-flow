(* Proofs/GraphPairProofs.v — C14: _proc_dep_pair (without families) on the
   pairs that well-formed chains produce is "apply this list of assertions to
   the trigger/optionality stores" (plus bookkeeping that only feeds the
   terminals check). *)
From Coq Require Import List Bool Arith String Lia.
From Cylc Require Import Base.Util Gen.FamTables Model.GraphBase Model.GraphExpr Model.FamTrig
  Model.GraphParse Model.GraphAst Proofs.FamTrigProofs Proofs.GraphStoreProofs.
Import ListNotations.

Lemma split_on_none p l : existsb p l = false -> split_on p l = [l].
Proof.
  induction l as [|t r IH]; cbn; [reflexivity|]. intros H. apply orb_false_iff in H. destruct H as [H1 H2].
  rewrite H1, (IH H2). reflexivity.
Qed.

Lemma split_on_nonempty p l : split_on p l <> [].
Proof. destruct l as [|t r]; cbn; [discriminate|]. destruct (p t); [discriminate|]. destruct (split_on p r); discriminate. Qed.

Lemma split_on_app_sep p a sep b : p sep = true ->
  split_on p (a ++ sep :: b) = split_on p a ++ split_on p b.
Proof.
  intros Hs. induction a as [|t r IH]; cbn.
  - now rewrite Hs.
  - destruct (p t); [now rewrite IH|]. rewrite IH.
    pose proof (split_on_nonempty p r) as Hne.
    destruct (split_on p r); [congruence|reflexivity].
Qed.

Lemma split_on_sep p a sep b : p sep = true -> existsb p a = false ->
  split_on p (a ++ sep :: b) = a :: split_on p b.
Proof. intros Hs H. now rewrite split_on_app_sep, (split_on_none p a H). Qed.

Lemma print_r_no (p : tok -> bool) r :
  p TBang = false -> (forall n, p (TN n) = false) -> existsb p (print_r r) = false.
Proof. intros H1 H2. unfold print_r. destruct (r_s r); cbn; now rewrite ?H1, ?H2. Qed.

Lemma join_and_split (g : group) : g <> [] ->
  split_on is_and (print_g g) = map print_r g.
Proof.
  unfold print_g. induction g as [|r rest IH]; [congruence|]. intros _.
  destruct rest as [|r2 rest'].
  - cbn. apply split_on_none. now apply print_r_no.
  - cbn [map]. rewrite join_toks_cons2. rewrite split_on_sep; [|reflexivity|now apply print_r_no].
    f_equal. apply IH. discriminate.
Qed.

Lemma print_g_no (p : tok -> bool) (g : group) :
  p TBang = false -> p TAnd = false -> (forall n, p (TN n) = false) -> existsb p (print_g g) = false.
Proof.
  intros H1 H2 H3. unfold print_g. induction g as [|r rest IH]; [reflexivity|].
  destruct rest as [|r2 rest'].
  - cbn. now apply print_r_no.
  - cbn [map]. rewrite join_toks_cons2, existsb_app. cbn [existsb]. rewrite H2.
    rewrite (print_r_no p r H1 H3). exact IH.
Qed.

Lemma print_e_no (p : tok -> bool) e :
  (forall n, p (TN n) = false) -> p TAnd = false -> p TOr = false -> p TLp = false -> p TRp = false ->
  existsb p (print_e e) = false.
Proof.
  intros H1 H2 H3 H4 H5. induction e; cbn [print_e].
  - cbn. now rewrite H1.
  - cbn. rewrite H4, existsb_app. cbn. now rewrite IHe, H5.
  - rewrite existsb_app. cbn. now rewrite IHe1, IHe2, H2.
  - rewrite existsb_app. cbn. now rewrite IHe1, IHe2, H3.
Qed.

Lemma count_app (p : tok -> bool) l1 l2 : count_tok p (l1 ++ l2) = count_tok p l1 + count_tok p l2.
Proof. unfold count_tok. induction l1; cbn; [reflexivity|]. rewrite IHl1. lia. Qed.

Lemma print_e_parens e : count_tok is_lp (print_e e) = count_tok is_rp (print_e e).
Proof.
  induction e; cbn [print_e].
  - reflexivity.
  - change (TLp :: print_e e ++ [TRp]) with ([TLp] ++ print_e e ++ [TRp]).
    rewrite !count_app, IHe. cbn. lia.
  - change (print_e e1 ++ TAnd :: print_e e2) with (print_e e1 ++ [TAnd] ++ print_e e2).
    rewrite !count_app, IHe1, IHe2. reflexivity.
  - change (print_e e1 ++ TOr :: print_e e2) with (print_e e1 ++ [TOr] ++ print_e e2).
    rewrite !count_app, IHe1, IHe2. reflexivity.
Qed.

Lemma count_none p l : existsb p l = false -> count_tok p l = 0.
Proof.
  unfold count_tok. induction l as [|t r IH]; cbn; [reflexivity|]. intros H.
  apply orb_false_iff in H. destruct H as [H1 H2]. now rewrite H1, IH.
Qed.

Lemma print_e_nonempty e : print_e e <> [].
Proof. destruct e; cbn; try discriminate; destruct (print_e e1); discriminate. Qed.

Lemma has_or_par_print e : existsb is_or (print_e e) || existsb is_lp (print_e e) = has_or_par e.
Proof.
  induction e; cbn [has_or_par print_e].
  - reflexivity.
  - cbn. apply orb_true_r.
  - rewrite !existsb_app, <- IHe1, <- IHe2. cbn.
    destruct (existsb is_or (print_e e1)), (existsb is_lp (print_e e1)), (existsb is_or (print_e e2));
      reflexivity.
  - rewrite existsb_app. cbn. now rewrite orb_true_r.
Qed.

(* without | and ( ), the printing split on & is the list of conjunct nodes *)
Lemma split_and_pieces e : has_or_par e = false ->
  split_on is_and (print_e e) = map print_e (and_pieces e)
  /\ forall p, In p (and_pieces e) -> exists n, p = LN n.
Proof.
  induction e; cbn [has_or_par and_pieces print_e]; try discriminate.
  - intros _. split; [reflexivity|]. intros p [<-|[]]. eauto.
  - intros H. apply orb_false_iff in H. destruct H as [H1 H2].
    destruct (IHe1 H1) as [S1 P1], (IHe2 H2) as [S2 P2]. split.
    + rewrite map_app, <- S1, <- S2. now apply split_on_app_sep.
    + intros p Hp. apply in_app_or in Hp. destruct Hp; auto.
Qed.

(* the "lefts" of _proc_dep_pair: the whole left side when it has | or ( ),
   else its conjuncts *)
Lemma lefts_of_print L :
  (if is_nil (print_e L) || existsb is_or (print_e L) || existsb is_lp (print_e L)
   then [print_e L] else split_on is_and (print_e L)) = map print_e (left_pieces L).
Proof.
  unfold left_pieces.
  assert (Hn : is_nil (print_e L) = false)
    by (destruct (print_e L) eqn:Ep; [exfalso; eapply print_e_nonempty; eauto|reflexivity]).
  rewrite Hn. cbn [orb]. rewrite has_or_par_print.
  destruct (has_or_par L) eqn:Eh; [reflexivity|apply (split_and_pieces L Eh)].
Qed.

Definition core := (trigmap * optmap)%type.
Definition core_of (st : pstate) : core := (ps_trig st, ps_opt st).
Definition with_core (st : pstate) (c : core) : pstate :=
  mkState (fst c) (snd c) (ps_lefts st) (ps_rights st) (ps_ct st).

(* a result on cores, put back into a state that carries the bookkeeping *)
Definition lift (r : res core) (sb : pstate) : res pstate :=
  match r with Ok c => Ok (with_core sb c) | GErr => GErr | Unmod => Unmod end.

Lemma fold_res_app {A S} (f : S -> A -> res S) l1 l2 s :
  fold_res f (l1 ++ l2) s = bind (fold_res f l1 s) (fold_res f l2).
Proof.
  revert s. induction l1 as [|a r IH]; intros s; cbn; [reflexivity|].
  destruct (f s a); cbn; auto.
Qed.

Lemma fold_opts tm : forall (l : list oassert) om,
  fold_res apply_core (map AOpt l) (tm, om)
  = match fold_res apply_o l om with Ok om' => Ok (tm, om') | GErr => GErr | Unmod => Unmod end.
Proof.
  induction l as [|a r IH]; intros om; cbn [map fold_res]; [reflexivity|].
  cbn [apply_core fst snd]. destruct (apply_o om a); cbn [bind]; auto.
Qed.

(* the assertions made by one right-hand node under trigger [expr] *)
Definition right_actions (eoc : list (list tok)) (expr : list tok) (atoms : list atom) (r : rnode)
  : list action :=
  (if Nat.eqb (n_off (r_n r)) 0 then [ATrig (n_name (r_n r)) (mkTrig expr atoms (r_s r))] else [])
  ++ map AOpt (rnode_asserts (negb (mem toks_eqb (print_r r) eoc) || is_nil expr) r).

Lemma strip_print_r r : strip_parens (print_r r) = print_r r.
Proof. unfold print_r. destruct (r_s r); reflexivity. Qed.

Lemma parse_print_r r : parse_rhs (print_r r) = Some (r_s r, r_n r).
Proof. unfold print_r. destruct (r_s r); reflexivity. Qed.

Lemma succeeded_not_finished : String.eqb TASK_OUTPUT_SUCCEEDED TASK_OUTPUT_FINISHED = false.
Proof. reflexivity. Qed.

Lemma fold_res_single {A S} (f : S -> A -> res S) a s : fold_res f [a] s = f s a.
Proof. cbn. destruct (f s a); reflexivity. Qed.

(* the optionality part of the right-hand loop body *)
Lemma right_opt_fold eoc (expr : list tok) r om :
  (r_s r || node_fin_ok (r_n r)) = true ->
  fold_res (fun om o => set_opt om (n_name (r_n r)) o (n_opt (r_n r)) (r_s r) false)
    (match (match n_qual (r_n r) with
            | Some q => Some (std_name q)
            | None => if n_opt (r_n r) || negb (mem toks_eqb (print_r r) eoc) || is_nil expr
                      then Some TASK_OUTPUT_SUCCEEDED else None
            end) with Some o => [o] | None => [] end) om
  = fold_res apply_o (rnode_asserts (negb (mem toks_eqb (print_r r) eoc) || is_nil expr) r) om.
Proof.
  intros Hfin. unfold rnode_asserts, node_fin_ok, task_out in *.
  destruct (n_qual (r_n r)) as [q|].
  - rewrite fold_res_single, set_opt_as_fold; [destruct (r_s r); reflexivity|].
    destruct (r_s r); cbn in *; [now rewrite andb_false_r|].
    apply negb_true_iff in Hfin. now rewrite Hfin.
  - (* ":succeeded" is not ":finished": set_opt_as_fold applies, to the one assertion *)
    destruct (n_opt (r_n r)); cbn [orb].
    + rewrite fold_res_single, set_opt_as_fold by reflexivity. destruct (r_s r); reflexivity.
    + destruct (negb (mem toks_eqb (print_r r) eoc) || is_nil expr).
      * rewrite fold_res_single, set_opt_as_fold by reflexivity. destruct (r_s r); reflexivity.
      * destruct (r_s r); reflexivity.
Qed.

(* proc_right without families = apply the node's actions *)
Lemma proc_right_nf eoc expr atoms st r :
  (r_s r || node_fin_ok (r_n r)) = true ->
  proc_right [] eoc expr atoms st (print_r r)
  = lift (fold_res apply_core (right_actions eoc expr atoms r) (core_of st)) st.
Proof.
  intros Hfin. unfold proc_right. rewrite strip_print_r, parse_print_r.
  cbn [fam_members assoc bind].
  unfold right_actions. rewrite fold_res_app.
  cbn [fold_res bind].
  pose proof (right_opt_fold eoc expr r) as Hopt. specialize (fun om => Hopt om Hfin).
  destruct (Nat.eqb (n_off (r_n r)) 0).
  - cbn [fold_res apply_core core_of fst snd].
    destruct (set_trig (ps_trig st) (n_name (r_n r)) (mkTrig expr atoms (r_s r))) as [tm| |];
      cbn [bind]; try reflexivity.
    cbn [ps_opt ps_trig ps_lefts ps_rights ps_ct]. rewrite Hopt.
    rewrite (fold_opts tm _ (ps_opt st)).
    destruct (fold_res apply_o _ (ps_opt st)); reflexivity.
  - cbn [fold_res bind core_of]. rewrite Hopt.
    rewrite (fold_opts (ps_trig st) _ (ps_opt st)).
    destruct (fold_res apply_o _ (ps_opt st)); reflexivity.
Qed.

Lemma core_with st c : core_of (with_core st c) = c.
Proof. destruct c; reflexivity. Qed.
Lemma with_with st c c' : with_core (with_core st c) c' = with_core st c'.
Proof. reflexivity. Qed.

(* A loop whose body acts on the two stores like a list of actions, and leaves
   ps_ct alone, acts like the actions of all its rounds. *)
Lemma fold_lift {A B} (f : pstate -> B -> res pstate) (h : A -> B) (g : A -> list action) (l : list A) :
  (forall st a, In a l -> exists sb, ps_ct sb = ps_ct st
     /\ f st (h a) = lift (fold_res apply_core (g a) (core_of st)) sb) ->
  forall st, exists sb, ps_ct sb = ps_ct st
     /\ fold_res f (map h l) st = lift (fold_res apply_core (flat_map g l) (core_of st)) sb.
Proof.
  induction l as [|a r IH]; intros Hf st.
  - exists st. split; [reflexivity|]. destruct st; reflexivity.
  - destruct (Hf st a (or_introl eq_refl)) as [sb1 [Hct1 E1]].
    cbn [map fold_res flat_map]. rewrite fold_res_app, E1.
    destruct (fold_res apply_core (g a) (core_of st)) as [c| |]; cbn [lift bind]; [|exists st; auto..].
    destruct (IH (fun st a Ha => Hf st a (or_intror Ha)) (with_core sb1 c)) as [sb [Hct E]].
    exists sb. split; [now rewrite Hct|]. now rewrite E, core_with.
Qed.

Lemma fold_rights eoc expr atoms (G : group) :
  (forall r, In r G -> (r_s r || node_fin_ok (r_n r)) = true) ->
  forall st, exists sb, ps_ct sb = ps_ct st
    /\ fold_res (proc_right [] eoc expr atoms) (map print_r G) st
       = lift (fold_res apply_core (flat_map (right_actions eoc expr atoms) G) (core_of st)) sb.
Proof.
  intros Hfin. apply fold_lift. intros st r Hr.
  exists st. split; [reflexivity|]. apply proc_right_nf. now apply Hfin.
Qed.

Definition left_atoms (p : lexpr) : list atom :=
  match expand_left [] (print_e p) with Ok ea => snd ea | _ => [] end.

Definition main_actions (eoc : list (list tok)) (L : lexpr) (G : group) : list action :=
  flat_map (fun p => flat_map (right_actions eoc (stored_expr p) (left_atoms p)) G) (left_pieces L).

Definition auto_actions (eoc : list (list tok)) (n : node) : list action :=
  right_actions eoc [] [] (mkR false n).

(* body of the "for left in lefts" loop of _proc_dep_pair *)
Definition left_step (fm : family_map) (eoc rights : list (list tok)) (st : pstate) (l : list tok)
  : res pstate :=
  let st1 := mkState (ps_trig st) (ps_opt st)
               (fold_left (fun acc n => add_set toks_eqb [TN n] acc) (nodes_of l) (ps_lefts st))
               (ps_rights st) (ps_ct st) in
  bind (expand_left fm l) (fun ea => fold_res (proc_right fm eoc (fst ea) (snd ea)) rights st1).

Lemma expand_left_stored p :
  forallb (node_accepted []) (nodes_e p) = true ->
  expand_left [] (print_e p) = Ok (stored_expr p, left_atoms p).
Proof.
  intros H. destruct (expand_left_print [] p H) as [atoms E].
  unfold left_atoms, stored_expr. now rewrite E.
Qed.

Lemma fold_lefts eoc (G : group) :
  (forall r, In r G -> (r_s r || node_fin_ok (r_n r)) = true) ->
  forall ps : list lexpr,
  (forall p, In p ps -> forallb (node_accepted []) (nodes_e p) = true) ->
  forall st, exists sb, ps_ct sb = ps_ct st
    /\ fold_res (left_step [] eoc (map print_r G)) (map print_e ps) st
       = lift (fold_res apply_core
                 (flat_map (fun p => flat_map (right_actions eoc (stored_expr p) (left_atoms p)) G) ps)
                 (core_of st)) sb.
Proof.
  intros Hfin ps Hacc. apply fold_lift. intros st p Hp.
  unfold left_step. rewrite (expand_left_stored p) by now apply Hacc. cbn [bind fst snd].
  set (st1 := mkState _ _ _ _ _).
  exact (fold_rights eoc (stored_expr p) (left_atoms p) G Hfin st1).
Qed.

Lemma nodes_of_app a b : nodes_of (a ++ b) = nodes_of a ++ nodes_of b.
Proof. unfold nodes_of. apply flat_map_app. Qed.
Lemma nodes_of_print_r r : nodes_of (print_r r) = [r_n r].
Proof. unfold print_r. destruct (r_s r); reflexivity. Qed.

Lemma nodes_of_print_g (G : group) : nodes_of (print_g G) = map r_n G.
Proof.
  unfold print_g. induction G as [|r rest IH]; [reflexivity|].
  destruct rest as [|r2 rest'].
  - cbn [map join_toks]. apply nodes_of_print_r.
  - cbn [map] in *. rewrite join_toks_cons2, nodes_of_app, nodes_of_print_r.
    change (nodes_of (TAnd :: ?l)) with (nodes_of l).
    cbn [app]. f_equal. exact IH.
Qed.

Lemma nodes_and_pieces e : flat_map nodes_e (and_pieces e) = nodes_e e.
Proof.
  induction e; cbn [and_pieces nodes_e flat_map]; try now rewrite app_nil_r.
  now rewrite flat_map_app, IHe1, IHe2.
Qed.

Lemma left_pieces_nodes L p n : In p (left_pieces L) -> In n (nodes_e p) -> In n (nodes_e L).
Proof.
  unfold left_pieces. destruct (has_or_par L).
  - intros [<-|[]]. auto.
  - intros Hp Hn. rewrite <- nodes_and_pieces. apply in_flat_map. eauto.
Qed.

Lemma existsb_nil_map {A} (f : A -> list tok) l :
  (forall x, f x <> []) -> existsb is_nil (map f l) = false.
Proof.
  intros Hf. induction l as [|x r IH]; [reflexivity|]. cbn. rewrite IH.
  specialize (Hf x). destruct (f x); [congruence|reflexivity].
Qed.

Lemma proc_pair_main eoc st L (G : group) :
  G <> [] ->
  (forall r, In r G -> n_off (r_n r) = 0 /\ (r_s r || node_fin_ok (r_n r)) = true) ->
  forallb (node_accepted []) (nodes_e L) = true ->
  exists sb, ps_ct sb = ps_ct st
    /\ proc_pair [] eoc st (Some (print_e L), print_g G)
       = lift (fold_res apply_core (main_actions eoc L G) (core_of st)) sb.
Proof.
  intros Hne HG Hacc. unfold proc_pair. cbn [fst snd].
  rewrite (print_g_no is_or G) by reflexivity.
  rewrite (print_e_no is_bang L) by reflexivity.
  rewrite print_e_parens, Nat.eqb_refl.
  rewrite (count_none is_lp (print_g G)) by (now apply print_g_no).
  rewrite (count_none is_rp (print_g G)) by (now apply print_g_no).
  cbn [Nat.eqb negb].
  assert (Hoff : has_offset (print_g G) = false).
  { unfold has_offset. rewrite nodes_of_print_g. apply not_true_is_false. intros H.
    apply existsb_exists in H. destruct H as [n [Hn Hx]]. apply in_map_iff in Hn.
    destruct Hn as [r [<- Hr]]. rewrite (proj1 (HG r Hr)) in Hx. discriminate. }
  rewrite Hoff. cbn [andb].
  rewrite (join_and_split G Hne).
  rewrite (existsb_nil_map print_r) by (intros r; unfold print_r; destruct (r_s r); discriminate).
  rewrite lefts_of_print.
  rewrite (existsb_nil_map print_e) by apply print_e_nonempty.
  set (st0 := mkState _ _ _ _ _).
  (* the body of the loop over the lefts is [left_step] *)
  change (fold_res _ (map print_e (left_pieces L)) st0)
    with (fold_res (left_step [] eoc (map print_r G)) (map print_e (left_pieces L)) st0).
  refine (fold_lefts eoc G (fun r Hr => proj2 (HG r Hr)) (left_pieces L) _ st0).
  intros p Hp. apply forallb_forall. intros n Hn. rewrite forallb_forall in Hacc. apply Hacc.
  eapply left_pieces_nodes; eauto.
Qed.

Lemma proc_pair_auto eoc st n :
  node_fin_ok n = true ->
  exists sb, ps_ct sb = ps_ct st
    /\ proc_pair [] eoc st (None, [TN n])
       = lift (fold_res apply_core (auto_actions eoc n) (core_of st)) sb.
Proof.
  intros Hfin. unfold proc_pair. cbn [fst snd existsb is_or is_bang count_tok count_true is_lp is_rp
    Nat.eqb negb is_nil andb orb split_on is_and].
  rewrite andb_false_r.
  set (st0 := mkState _ _ _ _ _).
  cbn [fold_res]. cbn [nodes_of flat_map fold_left expand_left bind fst snd].
  change [TN n] with (print_r (mkR false n)).
  rewrite proc_right_nf by (cbn; exact Hfin).
  exists st0. split; [reflexivity|].
  unfold auto_actions.
  destruct (fold_res apply_core _ _); reflexivity.
Qed.
