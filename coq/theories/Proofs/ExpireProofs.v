(* C32 -- lemmas about Model/Expire.v: the expiry pass first, then the step system. *)
From Coq Require Import List ZArith NArith Bool.
From Cylc Require Import Base.Util Model.Expire.
Import ListNotations.
Local Open Scope Z_scope.

Lemma status_eqb_refl a : status_eqb a a = true.
Proof. destruct a; reflexivity. Qed.

Lemma status_eqb_eq a b : status_eqb a b = true <-> a = b.
Proof. split; [destruct a, b; (reflexivity || discriminate) | intros <-; apply status_eqb_refl]. Qed.

Lemma memN_false x l : mem N.eqb x l = false <-> ~ In x l.
Proof. apply mem_false, N.eqb_eq. Qed.

Lemma ids_app a b : ids (a ++ b) = ids a ++ ids b.
Proof. apply map_app. Qed.

Lemma in_ids t l : In t l -> In (t_id t) (ids l).
Proof. apply in_map. Qed.

Lemma in_ids_inv i l : In i (ids l) -> exists t, In t l /\ t_id t = i.
Proof. unfold ids. rewrite in_map_iff. intros [t [H1 H2]]. eauto. Qed.

Lemma new_task_id e i : t_id (new_task e i) = i.
Proof. reflexivity. Qed.

Lemma ids_new_tasks e l : ids (map (new_task e) l) = l.
Proof. unfold ids. rewrite map_map. apply map_id. Qed.

Lemma eligible_iff now t :
  eligible now t = true <->
  t_manual t = false /\ t_status t = Waiting /\ exists x, t_expire t = Some x /\ x <= now.
Proof.
  unfold eligible, clock_expire. split.
  - intros H. apply andb_prop in H. destruct H as [H Hc]. apply andb_prop in H. destruct H as [Hm Hs].
    apply negb_true_iff in Hm. apply status_eqb_eq in Hs. destruct (t_expire t) as [x|]; [|discriminate].
    apply andb_prop in Hc. destruct Hc as [_ Hc]. apply negb_true_iff, Z.ltb_ge in Hc. eauto.
  - intros [Hm [Hs [x [Hx Hle]]]]. rewrite Hm, Hx, Hs. simpl.
    apply negb_true_iff, Z.ltb_ge, Hle.
Qed.

Lemma eligible_false now t : t_manual t = true \/ t_status t <> Waiting -> eligible now t = false.
Proof.
  intro H. destruct (eligible now t) eqn:E; [|reflexivity].
  apply eligible_iff in E. destruct E as (Hm & Hs & _). destruct H; congruence.
Qed.

Lemma mark_expired_id t : t_id (mark_expired t) = t_id t.
Proof. reflexivity. Qed.

Lemma mark_expired_status t : t_status (mark_expired t) = Expired.
Proof. reflexivity. Qed.

Definition is_child_ev (ev : event) : bool :=
  match ev with EvSpawn _ _ | EvSat _ _ | EvNoSpawn _ _ => true | _ => false end.

Definition pass_ev (x : event) : bool :=
  match x with EvExpired _ | EvSpawn _ _ | EvSat _ _ | EvNoSpawn _ _ | EvRemove _ => true | _ => false end.

(* the instances spawned, and the (parent, child) pairs of all child events, in order *)
Definition spawned (evs : list event) : list N :=
  flat_map (fun ev => match ev with EvSpawn _ c => [c] | _ => [] end) evs.

Definition child_pairs (evs : list event) : list (N * N) :=
  flat_map (fun ev => match ev with EvSpawn p c | EvSat p c | EvNoSpawn p c => [(p, c)] | _ => [] end) evs.

Definition reached (p c : N) (evs : list event) : Prop :=
  In (EvSpawn p c) evs \/ In (EvSat p c) evs \/ In (EvNoSpawn p c) evs.

Lemma expired_ids_app a b : expired_ids (a ++ b) = expired_ids a ++ expired_ids b.
Proof. apply flat_map_app. Qed.

Lemma spawned_app a b : spawned (a ++ b) = spawned a ++ spawned b.
Proof. apply flat_map_app. Qed.

Lemma child_pairs_app a b : child_pairs (a ++ b) = child_pairs a ++ child_pairs b.
Proof. apply flat_map_app. Qed.

Lemma in_expired_ids i evs : In i (expired_ids evs) <-> In (EvExpired i) evs.
Proof.
  unfold expired_ids. rewrite in_flat_map. split.
  - intros [ev [H1 H2]]. destruct ev; simpl in H2; try contradiction. destruct H2 as [<-|[]]. exact H1.
  - intro H. exists (EvExpired i). split; [exact H | simpl; auto].
Qed.

Lemma in_spawned c evs : In c (spawned evs) <-> exists p, In (EvSpawn p c) evs.
Proof.
  unfold spawned. rewrite in_flat_map. split.
  - intros [ev [H1 H2]]. destruct ev; simpl in H2; try contradiction. destruct H2 as [<-|[]]. eauto.
  - intros [p H]. exists (EvSpawn p c). split; [exact H | simpl; auto].
Qed.

Lemma in_child_pairs p c evs : In (p, c) (child_pairs evs) <-> reached p c evs.
Proof.
  unfold child_pairs, reached. rewrite in_flat_map. split.
  - intros [ev [H1 H2]]. destruct ev; simpl in H2; try contradiction; destruct H2 as [E|[]]; injection E as <- <-; auto.
  - intros [H|[H|H]]; eexists; (split; [exact H | simpl; auto]).
Qed.

Lemma spawn_list_spec e p : forall cs pool gone ts evs,
  spawn_list e p pool gone cs = (ts, evs) ->
  ts = map (new_task e) (spawned evs) /\
  child_pairs evs = map (pair p) cs /\
  Forall (fun x => is_child_ev x = true) evs /\
  NoDup (spawned evs) /\
  (forall c, In c (spawned evs) -> ~ In c (pool ++ gone)).
Proof.
  induction cs as [|c rest IH]; intros pool gone ts evs H; simpl in H.
  - injection H as <- <-. repeat split; try constructor. intros c [].
  - destruct (mem N.eqb c pool) eqn:Ep; [|destruct (mem N.eqb c gone) eqn:Eg].
    (* in the pool already, or gone: not spawned *)
    1-2: destruct (spawn_list e p pool gone rest) as [ts0 evs0] eqn:E0; injection H as <- <-;
         destruct (IH _ _ _ _ E0) as (A & B & C & D); simpl; rewrite B; auto.
    destruct (spawn_list e p (c :: pool) gone rest) as [ts0 evs0] eqn:E0. injection H as <- <-.
    destruct (IH _ _ _ _ E0) as (A & B & C & D & F). simpl. rewrite A, B.
    apply memN_false in Ep. apply memN_false in Eg.
    repeat split; auto.
    + constructor; [|exact D]. intro Hc. apply (F _ Hc). left; reflexivity.
    + intros c' [<-|Hc'] Hin.
      * apply in_app_or in Hin. destruct Hin; auto.
      * apply (F _ Hc'). right. exact Hin.
Qed.

(* the children an output of a task reaches: none without a flow, none while flow-waiting *)
Definition reach (e : env) (t : task) (o : N) : list N :=
  if t_flow t && negb (t_flow_wait t) then children e (t_id t) o else [].

Lemma in_reach e t o c :
  In c (reach e t o) <-> t_flow t = true /\ t_flow_wait t = false /\ In c (children e (t_id t) o).
Proof. unfold reach. destruct (t_flow t), (t_flow_wait t); simpl; intuition congruence. Qed.

Lemma spawn_on_output_eq e t o pool gone :
  spawn_on_output e t o pool gone = spawn_list e (t_id t) pool gone (reach e t o).
Proof.
  unfold spawn_on_output, reach. destruct (t_flow t), (t_flow_wait t); try reflexivity.
  destruct (children e (t_id t) o); reflexivity.
Qed.

(* remove() never spawns the successor of a task that has just expired: state_reset(expired)
   cleared is_runahead *)
Lemma removal_spawn_expired e t pool gone : removal_spawn e (mark_expired t) pool gone = ([], []).
Proof. unfold removal_spawn. simpl. rewrite andb_false_r. reflexivity. Qed.

(* ids are unique; nothing in the pool is recorded as gone *)
Definition WF (p : list task) (gone : list N) : Prop :=
  NoDup (ids p) /\ (forall i, In i (ids p) -> ~ In i gone).

Lemma nodup_N_inv l : nodup_N l = true -> NoDup l.
Proof.
  induction l as [|x l IH]; simpl; intro H; [constructor|].
  apply andb_true_iff in H. destruct H as [H1 H2]. apply negb_true_iff, memN_false in H1.
  constructor; auto.
Qed.

Lemma WF_inj p g : WF p g -> forall t u, In t p -> In u p -> t_id t = t_id u -> t = u.
Proof. intros [Hn _] t u. apply NoDup_map_inj, Hn. Qed.

Lemma WF_app p g nw :
  WF p g -> NoDup (ids nw) -> (forall c, In c (ids nw) -> ~ In c (ids p ++ g)) -> WF (p ++ nw) g.
Proof.
  intros [Hn Hg] Hnw Hd. unfold WF. rewrite ids_app. split.
  - apply NoDup_app; auto. intros x Hx Hx'. apply (Hd _ Hx'), in_app_iff. auto.
  - intros i Hi Hgi. apply in_app_iff in Hi. destruct Hi as [Hi|Hi]; [exact (Hg _ Hi Hgi)|].
    apply (Hd _ Hi), in_app_iff. auto.
Qed.

Lemma WF_drop a t b g : WF (a ++ t :: b) g -> WF (a ++ b) (t_id t :: g).
Proof.
  unfold WF. rewrite !ids_app. simpl. intros [Hn Hg]. apply NoDup_remove in Hn. destruct Hn as [Hn Ht].
  split; [exact Hn|]. intros i Hi [<-|Hgi]; [exact (Ht Hi)|].
  apply (Hg i); [|exact Hgi]. apply in_or_app. apply in_app_or in Hi. destruct Hi; simpl; auto.
Qed.

Lemma WF_swap a t t' b g : t_id t' = t_id t -> WF (a ++ t :: b) g -> WF (a ++ t' :: b) g.
Proof. unfold WF. rewrite !ids_app. simpl. intros ->. auto. Qed.

Definition optl {A} (o : option A) : list A := match o with Some x => [x] | None => [] end.

(* what becomes of a task of the pool in one pass *)
Definition keep (now : Z) (t : task) : option task :=
  if eligible now t then (if complete (mark_expired t) then None else Some (mark_expired t)) else Some t.

Definition keepl (now : Z) (l : list task) : list task := flat_map (fun t => optl (keep now t)) l.

(* the tasks that expire complete, and so leave the pool *)
Definition removes (now : Z) (t : task) : bool := eligible now t && complete (mark_expired t).

Lemma in_keepl now u l : In u (keepl now l) <-> exists t, In t l /\ keep now t = Some u.
Proof.
  unfold keepl. rewrite in_flat_map. split.
  - intros [t [Ht Hu]]. exists t. split; [exact Ht|]. destruct (keep now t); simpl in Hu; [|contradiction].
    destruct Hu as [<-|[]]. reflexivity.
  - intros [t [Ht Hk]]. exists t. split; [exact Ht|]. rewrite Hk. simpl; auto.
Qed.

(* one round of the loop in the shape the lemmas below use: the children through [reach], the visited
   task through [optl], and no successor from the removal ([removal_spawn_expired]) *)
Lemma pass_go_cons e now done t rest fresh gone evs :
  pass_go e now done (t :: rest) fresh gone evs =
  if eligible now t then
    let '(kids, evk) := spawn_list e (t_id t) (ids done ++ ids (t :: rest) ++ ids fresh) gone
                                   (reach e t O_EXPIRED) in
    let r := complete (mark_expired t) in
    pass_go e now (done ++ optl (if r then None else Some (mark_expired t))) rest (fresh ++ kids)
            (if r then t_id t :: gone else gone)
            (evs ++ EvExpired (t_id t) :: evk ++ (if r then [EvRemove (t_id t)] else []))
  else pass_go e now (done ++ [t]) rest fresh gone evs.
Proof.
  cbn [pass_go]. destruct (eligible now t); [|reflexivity].
  rewrite spawn_on_output_eq. change (reach e (mark_expired t) O_EXPIRED) with (reach e t O_EXPIRED).
  destruct (spawn_list e _ _ gone _) as [kids evk]. cbv zeta.
  destruct (complete (mark_expired t)); [rewrite removal_spawn_expired|]; simpl; rewrite !app_nil_r; reflexivity.
Qed.

(* what a pass over the tasks [todo] logs: the expiries of the eligible ones in order, for each of them
   the child events of its expired output, the removals; no other kind of event *)
Definition pass_log (e : env) (now : Z) (todo : list task) (nevs : list event) : Prop :=
  expired_ids nevs = map t_id (filter (eligible now) todo) /\
  child_pairs nevs =
    flat_map (fun t => map (pair (t_id t)) (reach e t O_EXPIRED)) (filter (eligible now) todo) /\
  (forall t, In t todo -> removes now t = true -> In (EvRemove (t_id t)) nevs) /\
  Forall (fun x => pass_ev x = true) nevs.

Lemma pass_log_skip e now t rest nevs :
  eligible now t = false -> pass_log e now rest nevs -> pass_log e now (t :: rest) nevs.
Proof.
  intros El (He & Hc & Hr & Hk). unfold pass_log. simpl. rewrite El. repeat split; auto.
  intros u [<-|Hu] Hu'; [|auto]. unfold removes in Hu'. rewrite El in Hu'. discriminate.
Qed.

(* one expiring task logs its expiry, then child events only, then its removal if it is complete *)
Lemma pass_log_block e now t rest evk nevs :
  eligible now t = true -> Forall (fun x => is_child_ev x = true) evk ->
  child_pairs evk = map (pair (t_id t)) (reach e t O_EXPIRED) ->
  pass_log e now rest nevs ->
  let b := EvExpired (t_id t) :: evk ++ (if complete (mark_expired t) then [EvRemove (t_id t)] else []) in
  pass_log e now (t :: rest) (b ++ nevs) /\ spawned (b ++ nevs) = spawned evk ++ spawned nevs.
Proof.
  intros El Hch.
  assert (Hn : expired_ids evk = []).
  { induction Hch as [|x l Hx _ IH]; [reflexivity|]. destruct x; try discriminate; exact IH. }
  intros Hcp (He & Hc & Hr & Hk) b.
  assert (Hb : expired_ids b = [t_id t] /\ child_pairs b = child_pairs evk /\ spawned b = spawned evk).
  { subst b. simpl. rewrite expired_ids_app, child_pairs_app, spawned_app, Hn.
    destruct (complete (mark_expired t)); simpl; rewrite ?app_nil_r; auto. }
  destruct Hb as (Be & Bc & Bs). split; [|rewrite spawned_app, Bs; reflexivity].
  unfold pass_log. cbn [filter]. rewrite El. cbn [map flat_map]. repeat split.
  - rewrite expired_ids_app, Be, He. reflexivity.
  - rewrite child_pairs_app, Bc, Hc, Hcp. reflexivity.
  - intros u [<-|Hu] Hu'; apply in_app_iff; [left | right; auto].
    unfold removes in Hu'. rewrite El in Hu'. subst b. simpl in Hu'. rewrite Hu'.
    apply in_cons, in_app_iff. right. left. reflexivity.
  - apply Forall_app. split; [|exact Hk]. constructor; [reflexivity|]. apply Forall_app. split.
    + eapply Forall_impl; [|exact Hch]. intros x Hx. destruct x; try discriminate; reflexivity.
    + destruct (complete (mark_expired t)); repeat constructor.
Qed.

(* The loop of the pass, from any state of its accumulators: the new pool, the new record of the gone
   and what it logs.  No well-formedness is needed for these. *)
Lemma pass_go_spec e now : forall todo done fresh gone evs,
  exists nevs,
    pass_go e now done todo fresh gone evs =
      (done ++ keepl now todo ++ fresh ++ map (new_task e) (spawned nevs),
       rev (map t_id (filter (removes now) todo)) ++ gone, evs ++ nevs) /\
    pass_log e now todo nevs.
Proof.
  induction todo as [|t rest IH]; intros done fresh gone evs.
  - exists []. simpl. rewrite !app_nil_r. repeat split; auto.
  - rewrite pass_go_cons. unfold removes. simpl. unfold keep at 1.
    destruct (eligible now t) eqn:El.
    + destruct (spawn_list e _ _ gone _) as [kids evk] eqn:Es.
      apply spawn_list_spec in Es. destruct Es as (-> & Hcp & Hch & _).
      cbv zeta. edestruct IH as (nevs & Heq & L). rewrite Heq. clear Heq.
      destruct (pass_log_block e now t rest evk nevs El Hch Hcp L) as [L' Hs].
      eexists. split; [|exact L'].
      rewrite Hs, map_app, <- !app_assoc.
      destruct (complete (mark_expired t)); simpl; rewrite <- ?app_assoc; reflexivity.
    + edestruct IH as (nevs & Heq & L). rewrite Heq. exists nevs.
      rewrite <- !app_assoc. split; [reflexivity | exact (pass_log_skip _ _ _ _ _ El L)].
Qed.

Lemma pass_go_WF e now : forall todo done fresh gone evs p' g' evs',
  WF (done ++ todo ++ fresh) gone ->
  pass_go e now done todo fresh gone evs = (p', g', evs') -> WF p' g'.
Proof.
  induction todo as [|t rest IH]; intros done fresh gone evs p' g' evs' Hwf H.
  - injection H as <- <- _. exact Hwf.
  - rewrite pass_go_cons in H. destruct (eligible now t).
    + destruct (spawn_list e _ _ gone _) as [kids evk] eqn:Es.
      apply spawn_list_spec in Es. destruct Es as (-> & _ & _ & Hnd & Hfr).
      apply IH in H; [exact H|].
      assert (Hw : WF ((done ++ (t :: rest) ++ fresh) ++ map (new_task e) (spawned evk)) gone).
      { apply WF_app; rewrite ?ids_new_tasks; auto. rewrite !ids_app. exact Hfr. }
      rewrite <- !app_assoc in Hw. simpl in Hw.
      destruct (complete (mark_expired t)); simpl optl.
      * rewrite app_nil_r. exact (WF_drop _ _ _ _ Hw).
      * rewrite <- app_assoc. exact (WF_swap _ t (mark_expired t) _ _ eq_refl Hw).
    + apply IH in H; [exact H|]. rewrite <- app_assoc. exact Hwf.
Qed.

(* [i] has left the pool for good, or is in it as an expired task *)
Definition settled (p : list task) (g : list N) (i : N) : Prop :=
  In i g \/ exists t, In t p /\ t_id t = i /\ t_status t = Expired.

Section OnePass.
  Variables (e : env) (now : Z) (pool : list task) (gone : list N)
            (p' : list task) (g' : list N) (evs : list event).
  Hypothesis Hwf : WF pool gone.   (* used by pass_WF, pass_expired_fate and the two lemmas on [settled] only *)
  Hypothesis H : clock_expire_tasks e now pool gone = (p', g', evs).

  Lemma pass_spec :
    p' = keepl now pool ++ map (new_task e) (spawned evs) /\
    g' = rev (map t_id (filter (removes now) pool)) ++ gone /\
    pass_log e now pool evs.
  Proof.
    destruct (pass_go_spec e now pool [] [] gone []) as (nevs & E & R).
    unfold clock_expire_tasks in H. rewrite E in H. injection H as Hp Hg He. simpl in He, Hp. subst nevs. auto.
  Qed.

  (* (a) exactly the eligible tasks expire, in pool order *)
  Lemma pass_expired_list : expired_ids evs = map t_id (filter (eligible now) pool).
  Proof. apply pass_spec. Qed.

  Lemma pass_expires_iff i :
    In (EvExpired i) evs <->
    exists t, In t pool /\ t_id t = i /\ t_manual t = false /\ t_status t = Waiting /\
              exists x, t_expire t = Some x /\ x <= now.
  Proof.
    rewrite <- in_expired_ids, pass_expired_list, in_map_iff. split.
    - intros [t [Hid Ht]]. apply filter_In in Ht. destruct Ht as [Ht El]. apply eligible_iff in El.
      exists t. tauto.
    - intros [t [Ht [Hid El]]]. exists t. split; [exact Hid|]. apply filter_In. split; [exact Ht|].
      apply eligible_iff. exact El.
  Qed.

  Lemma pass_pool : p' = keepl now pool ++ map (new_task e) (spawned evs).
  Proof. apply pass_spec. Qed.

  (* (e) a task that is not eligible -- in particular every task that is not waiting -- is left as it is *)
  Lemma pass_ineligible_kept t : In t pool -> eligible now t = false -> In t p'.
  Proof.
    intros Ht El. rewrite pass_pool. apply in_app_iff. left. apply in_keepl. exists t.
    split; [exact Ht|]. unfold keep. rewrite El. reflexivity.
  Qed.

  Lemma pass_members u :
    In u p' ->
    (In u pool /\ eligible now u = false) \/
    (exists t, In t pool /\ eligible now t = true /\ complete (mark_expired t) = false /\ u = mark_expired t) \/
    (exists p c, u = new_task e c /\ In (EvSpawn p c) evs).
  Proof.
    intro Hu. rewrite pass_pool in Hu. apply in_app_iff in Hu. destruct Hu as [Hu|Hu].
    - apply in_keepl in Hu. destruct Hu as [t [Ht Hk]]. unfold keep in Hk.
      destruct (eligible now t) eqn:El.
      + destruct (complete (mark_expired t)) eqn:Ec; [discriminate|]. injection Hk as <-.
        right; left. exists t. auto.
      + injection Hk as <-. left. auto.
    - right; right. apply in_map_iff in Hu. destruct Hu as [c [<- Hc]].
      apply in_spawned in Hc. destruct Hc as [p Hp]. eauto.
  Qed.

  Lemma pass_gone : g' = rev (map t_id (filter (removes now) pool)) ++ gone.
  Proof. apply pass_spec. Qed.

  Lemma pass_gone_mono i : In i gone -> In i g'.
  Proof. intro Hi. rewrite pass_gone. apply in_app_iff. auto. Qed.

  Lemma pass_WF : WF p' g'.
  Proof. eapply pass_go_WF; [|exact H]. simpl. rewrite app_nil_r. exact Hwf. Qed.

  Lemma pass_expired_fate t :
    In t pool -> eligible now t = true ->
    if complete (mark_expired t) then In (t_id t) g' /\ ~ In (t_id t) (ids p') /\ In (EvRemove (t_id t)) evs
    else In (mark_expired t) p'.
  Proof.
    intros Ht El. destruct (complete (mark_expired t)) eqn:Ec.
    - assert (Hr : removes now t = true) by (unfold removes; rewrite El, Ec; reflexivity).
      assert (Hin : In (t_id t) g').
      { rewrite pass_gone. apply in_app_iff. left. apply -> in_rev.
        apply in_map, filter_In. auto. }
      split; [exact Hin|]. split; [|apply pass_spec; assumption].
      intro Hc. exact (proj2 pass_WF _ Hc Hin).
    - rewrite pass_pool. apply in_app_iff. left. apply in_keepl. exists t. split; [exact Ht|].
      unfold keep. rewrite El, Ec. reflexivity.
  Qed.

  Lemma pass_expired_settled i : In (EvExpired i) evs -> settled p' g' i.
  Proof.
    intro Hi. apply in_expired_ids in Hi. rewrite pass_expired_list in Hi. apply in_map_iff in Hi.
    destruct Hi as [t [<- Ht]]. apply filter_In in Ht. destruct Ht as [Ht El].
    pose proof (pass_expired_fate t Ht El) as Hf. destruct (complete (mark_expired t)).
    - left. apply Hf.
    - right. exists (mark_expired t). auto.
  Qed.

  Lemma pass_settled_not_expired i : settled pool gone i -> ~ In (EvExpired i) evs.
  Proof.
    intros Hs Hi. apply pass_expires_iff in Hi. destruct Hi as (t & Ht & Hid & _ & Hw & _).
    destruct Hs as [Hg|(u & Hu & Hidu & Hsu)].
    - apply (proj2 Hwf i); [rewrite <- Hid; apply in_ids, Ht | exact Hg].
    - assert (u = t) by (apply (WF_inj _ _ Hwf); auto; congruence). subst u. congruence.
  Qed.

  (* (d) the child events of the pass: every eligible task reaches the children of its expired output *)
  Lemma pass_reached q c :
    reached q c evs <->
    exists t, In t pool /\ eligible now t = true /\ t_id t = q /\
              t_flow t = true /\ t_flow_wait t = false /\ In c (children e (t_id t) O_EXPIRED).
  Proof.
    destruct pass_spec as (_ & _ & _ & Hc & _). rewrite <- in_child_pairs, Hc, in_flat_map. split.
    - intros [t [Ht Hin]]. apply filter_In in Ht. destruct Ht as [Ht El]. apply in_map_iff in Hin.
      destruct Hin as [c' [E Hc']]. injection E as <- <-. apply in_reach in Hc'. exists t. auto.
    - intros (t & Ht & El & <- & Hr). exists t. split; [apply filter_In; auto|].
      apply in_map, in_reach. exact Hr.
  Qed.

  Lemma pass_event_kinds : forall x, In x evs -> pass_ev x = true.
  Proof. apply Forall_forall, pass_spec. Qed.
End OnePass.

Lemma pool_ok_iff p : pool_ok p = true <-> forall t, In t p -> task_ok t = true.
Proof. apply forallb_forall. Qed.

Lemma task_ok_expired t :
  task_ok t = true -> t_status t = Expired ->
  t_inq t = false /\ t_queued t = false /\ t_prep t = false /\ t_trig t = false.
Proof.
  unfold task_ok. intros H Hs. rewrite Hs in H. apply andb_true_iff in H. destruct H as [_ H].
  simpl in H. destruct (t_inq t), (t_queued t), (t_prep t), (t_trig t); try discriminate H. auto.
Qed.

Lemma task_ok_waiting_auto t :
  task_ok t = true -> t_status t = Waiting -> t_manual t = false -> t_prep t = false /\ t_trig t = false.
Proof.
  unfold task_ok. intros H Hs Hm. rewrite Hs, Hm in H.
  destruct (t_prep t), (t_trig t); simpl in H; try discriminate; auto.
Qed.

Lemma task_ok_mark_expired now t : task_ok t = true -> eligible now t = true -> task_ok (mark_expired t) = true.
Proof.
  intros H El. apply eligible_iff in El. destruct El as [Hm [Hs _]].
  destruct (task_ok_waiting_auto _ H Hs Hm) as [Hp Ht].
  unfold task_ok. simpl. rewrite Hm, Hp, Ht. reflexivity.
Qed.

Lemma task_ok_new e i : task_ok (new_task e i) = true.
Proof. reflexivity. Qed.

(* on a waiting task the guard does not look at the queue flags *)
Lemma task_ok_set_queued t : t_status t = Waiting -> task_ok t = true -> task_ok (set_queued t) = true.
Proof. unfold task_ok. simpl. intros -> H. exact H. Qed.

Lemma task_ok_queue_if_ready r t : task_ok t = true -> task_ok (queue_if_ready r t) = true.
Proof.
  intro H. unfold queue_if_ready.
  destruct (status_eqb (t_status t) Waiting) eqn:Es; simpl; [|exact H].
  destruct (_ && _); [|exact H]. apply task_ok_set_queued; [apply status_eqb_eq, Es | exact H].
Qed.

Lemma task_ok_queue_or_trigger l t : task_ok (queue_or_trigger l t) = true.
Proof. unfold task_ok, queue_or_trigger. simpl. rewrite !orb_true_r. reflexivity. Qed.

Lemma task_ok_set_held b t : task_ok t = true -> task_ok (set_held b t) = true.
Proof. intro H. exact H. Qed.

Lemma task_ok_set_runahead b t : task_ok t = true -> task_ok (set_runahead b t) = true.
Proof. intro H. exact H. Qed.

Lemma task_ok_release_held r t : task_ok t = true -> task_ok (release_held r t) = true.
Proof.
  intro H. unfold release_held. destruct (t_held t); [|exact H].
  destruct (_ && _) eqn:E; [|exact H]. apply task_ok_set_queued; [|exact H].
  unfold ready_to_run in E. rewrite !andb_true_iff in E. apply status_eqb_eq. tauto.
Qed.

Lemma task_ok_job_msg s o t :
  msg_status_ok s = true -> t_prep t = false -> task_ok t = true -> task_ok (job_msg s o t) = true.
Proof.
  unfold task_ok. simpl. intros Hs -> H.
  apply andb_true_iff in H. destruct H as [H _]. apply andb_true_iff in H. destruct H as [H _].
  rewrite H. destruct s; try discriminate; reflexivity.
Qed.

Lemma task_ok_submit t : task_ok (submit_task t) = true.
Proof. reflexivity. Qed.

(* the invariant of the step system: unique ids, nothing pooled is recorded as gone, and every task
   passes the submission guard [task_ok] *)
Definition Good (st : state) : Prop := WF (s_pool st) (s_gone st) /\ pool_ok (s_pool st) = true.

Lemma in_upd i f l u :
  In u (upd i f l) <-> exists t, In t l /\ u = (if N.eqb (t_id t) i then f t else t).
Proof.
  unfold upd. rewrite in_map_iff. split; intros [t [H1 H2]]; exists t; auto.
Qed.

Lemma find_task_some i l t : find_task i l = Some t -> In t l /\ t_id t = i.
Proof.
  unfold find_task. intro H. apply find_some in H. destruct H as [H1 H2]. apply N.eqb_eq in H2. auto.
Qed.

Lemma find_task_WF p g t : WF p g -> In t p -> find_task (t_id t) p = Some t.
Proof.
  intros Hw Ht. destruct (find_task (t_id t) p) as [u|] eqn:Ef.
  - apply find_task_some in Ef. destruct Ef as [Hu Hid]. f_equal. apply (WF_inj _ _ Hw); auto.
  - apply (find_none _ _ Ef) in Ht. rewrite N.eqb_refl in Ht. discriminate.
Qed.

Lemma WF_map h p g : (forall t, t_id (h t) = t_id t) -> WF p g -> WF (map h p) g.
Proof.
  intros Hh Hw. unfold WF, ids. rewrite map_map. rewrite (map_ext _ t_id Hh). exact Hw.
Qed.

Lemma pool_ok_map h p :
  (forall t, In t p -> task_ok t = true -> task_ok (h t) = true) ->
  pool_ok p = true -> pool_ok (map h p) = true.
Proof.
  intros Hh H. rewrite pool_ok_iff in *. intros u Hu. apply in_map_iff in Hu. destruct Hu as [t [<- Ht]]. auto.
Qed.

Lemma ids_filter_incl (f : task -> bool) l i : In i (ids (filter f l)) -> In i (ids l).
Proof.
  intro H. apply in_ids_inv in H. destruct H as [t [Ht <-]]. apply filter_In in Ht. apply in_ids. tauto.
Qed.

Lemma WF_remove i p g : WF p g -> WF (filter (fun u => negb (N.eqb (t_id u) i)) p) (i :: g).
Proof.
  intros [A B]. split; [apply NoDup_map_filter, A|].
  intros x Hx [<-|Hg]; [|exact (B _ (ids_filter_incl _ _ _ Hx) Hg)].
  apply in_ids_inv in Hx. destruct Hx as [u [Hu Hid]]. apply filter_In in Hu.
  rewrite Hid, N.eqb_refl in Hu. destruct Hu; discriminate.
Qed.

Lemma pass_pool_ok e now pool gone p' g' evs :
  pool_ok pool = true -> clock_expire_tasks e now pool gone = (p', g', evs) -> pool_ok p' = true.
Proof.
  intros Hok H. rewrite pool_ok_iff in *. intros u Hu.
  destruct (pass_members _ _ _ _ _ _ _ H u Hu) as [[Hin _]|[[t [Ht [El [_ ->]]]]|[p [c [-> _]]]]].
  - auto.
  - apply (task_ok_mark_expired now); auto.
  - apply task_ok_new.
Qed.

(* TaskPool.remove spawns at most the next parentless instance, and only if it is new *)
Lemma removal_spawn_spec e t pool gone :
  exists ss, removal_spawn e t pool gone = (map (new_task e) ss, map (EvNext (t_id t)) ss) /\
             NoDup ss /\ forall s, In s ss -> ~ In s (pool ++ gone).
Proof.
  assert (Hnil : exists ss, ([], []) = (map (new_task e) ss, map (EvNext (t_id t)) ss) /\
                            NoDup ss /\ forall s, In s ss -> ~ In s (pool ++ gone)).
  { exists []. repeat split; [constructor | intros s []]. }
  unfold removal_spawn. destruct (_ && _); [|exact Hnil].
  destruct (assoc _ _ _) as [s|]; [|exact Hnil]. destruct (_ || _) eqn:Em; [exact Hnil|].
  apply orb_false_iff in Em. destruct Em as [E1 E2]. apply memN_false in E1. apply memN_false in E2.
  exists [s]. repeat split.
  - constructor; [intros [] | constructor].
  - intros s' [<-|[]] Hin. apply in_app_or in Hin. destruct Hin; auto.
Qed.

(* the operations that act on one task of the pool: the target, the function applied to it, what is logged *)
Inductive task_op : op -> N -> (task -> task) -> list event -> Prop :=
| TQueue i ready : task_op (OQueue i ready) i (queue_if_ready ready) []
| TManual i limited : task_op (OManual i limited) i (queue_or_trigger limited) [EvManual i]
| THold i : task_op (OHold i) i (set_held true) []
| TRelease i ready : task_op (ORelease i ready) i (release_held ready) []
| TRunahead i b : task_op (ORunahead i b) i (set_runahead b) []
| TMsg i s outs : task_op (OMsg i s outs) i (job_msg s outs) [].

(* what [step] asks of the target of a job message (that of a manual trigger is not needed below) *)
Definition task_guard (o : op) (t : task) : bool :=
  match o with OMsg _ s _ => msg_status_ok s && negb (t_prep t) | _ => true end.

(* [o] is a manual trigger of [i], a job message for it, or its removal *)
Definition touches (o : op) (i : N) : bool :=
  match o with
  | OManual j _ | OMsg j _ _ | ORemove _ j => N.eqb i j
  | _ => false
  end.

Lemma task_op_fields o i f l t :
  task_op o i f l ->
  t_id (f t) = t_id t /\ (t_manual t = true -> t_manual (f t) = true) /\
  (touches o i = false -> t_status (f t) = t_status t).
Proof.
  destruct 1; simpl; rewrite ?N.eqb_refl.
  - unfold queue_if_ready. destruct (_ && _); auto.
  - repeat split; auto. discriminate.
  - auto.
  - unfold release_held. destruct (t_held t); [destruct (_ && _)|]; auto.
  - auto.
  - repeat split; auto. discriminate.
Qed.

Lemma task_op_log o i f l x : task_op o i f l -> In x l -> x = EvManual i.
Proof. destruct 1; simpl; intuition congruence. Qed.

Lemma task_op_ok o i f l t :
  task_op o i f l -> task_guard o t = true -> task_ok t = true -> task_ok (f t) = true.
Proof.
  destruct 1; simpl; intros Hg H.
  - apply task_ok_queue_if_ready, H.
  - apply task_ok_queue_or_trigger.
  - exact H.
  - apply task_ok_release_held, H.
  - exact H.
  - apply andb_true_iff in Hg. destruct Hg as [Hs Hp]. apply negb_true_iff in Hp.
    apply task_ok_job_msg; assumption.
Qed.

(* [step], operation by operation: the new pool, the new record of the gone, what is logged *)
Inductive step_to (st : state) : op -> list task -> list N -> list event -> Prop :=
| StPass e now p' g' evs :
    clock_expire_tasks e now (s_pool st) (s_gone st) = (p', g', evs) -> step_to st (OPass e now) p' g' evs
| StTask o i f l :
    task_op o i f l ->
    (forall t, find_task i (s_pool st) = Some t -> task_guard o t = true) ->
    step_to st o (upd i f (s_pool st)) (s_gone st) l
| StRelease released :
    forallb (releasable (s_pool st)) released = true ->
    step_to st (OReleaseSubmit released) (fst (release_submit released (s_pool st))) (s_gone st)
            (snd (release_submit released (s_pool st)))
| StSpawn e i :
    ~ In i (ids (s_pool st) ++ s_gone st) ->
    step_to st (OSpawn e i) (s_pool st ++ [new_task e i]) (s_gone st) []
| StRemove e i t ss :
    In t (s_pool st) -> t_id t = i -> NoDup ss ->
    (forall s, In s ss -> ~ In s (ids (s_pool st) ++ s_gone st)) ->
    step_to st (ORemove e i) (filter (fun u => negb (N.eqb (t_id u) i)) (s_pool st) ++ map (new_task e) ss)
            (i :: s_gone st) (map (EvNext i) ss ++ [EvRemove i]).

Lemma step_inv st o st' :
  step st o = Some st' ->
  exists p' g' nw, st' = mkState p' g' (s_log st ++ nw) /\ step_to st o p' g' nw.
Proof.
  destruct st as [p g lg]. destruct o; simpl; intro H.
  (* the task operations that are always enabled; they log nothing: nw = [] *)
  all: try solve [rewrite <- (app_nil_r lg) in H; injection H as <-; eexists _, _, _;
                  (split; [reflexivity|]); (apply StTask; [constructor | reflexivity])].
  - destruct (clock_expire_tasks e now p g) as [[p' g'] evs] eqn:E. injection H as <-.
    eexists _, _, _. split; [reflexivity|]. constructor. exact E.
  - destruct (forallb (releasable p) released) eqn:Er; [|discriminate]. injection H as <-.
    eexists _, _, _. split; [reflexivity|]. apply StRelease. exact Er.
  - destruct (find_task i p) as [t|]; [|discriminate].
    destruct (t_status t); try discriminate; injection H as <-; eexists _, _, _;
      (split; [reflexivity|]); (apply StTask; [constructor | reflexivity]).
  - destruct (find_task i p) as [t|] eqn:Ef; [|discriminate].
    destruct (msg_status_ok s && negb (t_prep t)) eqn:Eg; [|discriminate].
    rewrite <- (app_nil_r lg) in H. injection H as <-. eexists _, _, _. split; [reflexivity|].
    apply StTask; [constructor|]. intros t' Ht'. simpl in Ht'. rewrite Ef in Ht'. injection Ht' as <-. exact Eg.
  - destruct (mem N.eqb i (ids p) || mem N.eqb i g) eqn:Em; [discriminate|].
    rewrite <- (app_nil_r lg) in H. injection H as <-. eexists _, _, _. split; [reflexivity|].
    apply orb_false_iff in Em. destruct Em as [E1 E2]. apply memN_false in E1. apply memN_false in E2.
    apply StSpawn. simpl. rewrite in_app_iff. tauto.
  - destruct (find_task i p) as [t|] eqn:Ef; [|discriminate]. apply find_task_some in Ef. destruct Ef as [Ht <-].
    destruct (removal_spawn_spec e t (ids p) g) as (ss & Er & Hnd & Hfr). rewrite Er in H. injection H as <-.
    eexists _, _, _. split; [reflexivity|]. apply (StRemove (mkState p g lg) e _ t ss); auto.
Qed.

Theorem step_good st o st' : Good st -> step st o = Some st' -> Good st'.
Proof.
  intros [Hwf Hok] H. destruct (step_inv _ _ _ H) as (p' & g' & nw & -> & C). unfold Good. simpl.
  destruct C as [e now p' g' evs Hp | o i f l Hop Hgd | released Hrel | e i Hfr | e i t ss Ht Hid Hnd Hfr].
  - split; [exact (pass_WF _ _ _ _ _ _ _ Hwf Hp) | exact (pass_pool_ok _ _ _ _ _ _ _ Hok Hp)].
  - split.
    + apply WF_map; [|exact Hwf]. intro t.
      destruct (N.eqb (t_id t) i); [apply (task_op_fields _ _ _ _ t Hop) | reflexivity].
    + apply pool_ok_map; [|exact Hok]. intros t Ht Hokt. destruct (N.eqb (t_id t) i) eqn:E; [|exact Hokt].
      apply N.eqb_eq in E. apply (task_op_ok _ _ _ _ _ Hop); [|exact Hokt].
      apply Hgd. rewrite <- E. exact (find_task_WF _ _ _ Hwf Ht).
  - split.
    + apply WF_map; [|exact Hwf]. intro t. destruct (in_pre_prep released t); reflexivity.
    + apply pool_ok_map; [|exact Hok]. intros t _ Hokt.
      destruct (in_pre_prep released t); [apply task_ok_submit | exact Hokt].
  - split.
    + apply WF_app; [exact Hwf | repeat constructor; intros [] |]. intros c [<-|[]]. exact Hfr.
    + rewrite pool_ok_iff in *. intros u Hu. apply in_app_iff in Hu.
      destruct Hu as [Hu|[<-|[]]]; [auto | apply task_ok_new].
  - split.
    + apply WF_app; rewrite ?ids_new_tasks; [apply WF_remove, Hwf | exact Hnd |].
      intros s Hs Hin. apply (Hfr _ Hs). rewrite in_app_iff in *. destruct Hin as [Hin|[<-|Hin]]; auto.
      * left. eapply ids_filter_incl; eauto.
      * left. rewrite <- Hid. apply in_ids, Ht.
    + rewrite pool_ok_iff in *. intros u Hu. apply in_app_iff in Hu. destruct Hu as [Hu|Hu].
      * apply filter_In in Hu. apply Hok, Hu.
      * apply in_map_iff in Hu. destruct Hu as [s [<- _]]. apply task_ok_new.
Qed.

Lemma run_invariant (I : state -> Prop) :
  (forall st o st', I st -> step st o = Some st' -> I st') ->
  forall os st st', I st -> run st os = Some st' -> I st'.
Proof.
  intros HI. induction os as [|o os IH]; intros st st' Hst H; simpl in H.
  - injection H as <-. exact Hst.
  - destruct (step st o) as [st1|] eqn:E; [|discriminate]. exact (IH _ _ (HI _ _ _ Hst E) H).
Qed.

Definition submit_ok (ev : event) : Prop :=
  match ev with EvSubmit _ s => s <> Expired | _ => True end.

(* an expired task is not released: it is in no queue and does not await job preparation *)
Lemma in_pre_prep_expired released p g t :
  WF p g -> pool_ok p = true -> forallb (releasable p) released = true -> In t p ->
  t_status t = Expired -> in_pre_prep released t = false.
Proof.
  intros Hw Hok Hrel Ht Hs. rewrite pool_ok_iff in Hok.
  destruct (task_ok_expired _ (Hok _ Ht) Hs) as (Hi & _ & Hp & Htr).
  unfold in_pre_prep. rewrite Hp, Htr. apply memN_false. intro Hin.
  rewrite forallb_forall in Hrel. specialize (Hrel _ Hin). unfold releasable in Hrel.
  rewrite (find_task_WF _ _ _ Hw Ht), Hi, Hp in Hrel. discriminate.
Qed.

Lemma step_to_pass st e now p' g' nw :
  step_to st (OPass e now) p' g' nw -> clock_expire_tasks e now (s_pool st) (s_gone st) = (p', g', nw).
Proof. intro C. inversion C as [? ? ? ? ? Hp | ? ? ? ? Hop | | |]; subst; [exact Hp | inversion Hop]. Qed.

Definition is_pass (o : op) : bool := match o with OPass _ _ => true | _ => false end.

(* what a step other than the expiry pass logs: manual triggers, successors, removals, and submissions
   of tasks that were released *)
Lemma step_to_log st o p' g' nw ev :
  step_to st o p' g' nw -> is_pass o = false -> In ev nw ->
  match ev with
  | EvManual _ | EvNext _ _ | EvRemove _ => True
  | EvSubmit i s => exists rel t, forallb (releasable (s_pool st)) rel = true /\ In t (s_pool st) /\
                                  in_pre_prep rel t = true /\ i = t_id t /\ s = t_status t
  | _ => False
  end.
Proof.
  intros C Hp Hev.
  destruct C as [e now p' g' evs _ | o i f l Hop _ | rel Hrel | e i _ | e i t ss _ _ _ _].
  - discriminate.
  - apply (task_op_log _ _ _ _ _ Hop) in Hev. subst ev. exact I.
  - apply in_flat_map in Hev. destruct Hev as [t [Ht Hin]].
    destruct (in_pre_prep rel t) eqn:Ep; [|destruct Hin]. destruct Hin as [<-|[]]. exists rel, t. auto.
  - destruct Hev.
  - apply in_app_iff in Hev. destruct Hev as [Hev|[<-|[]]]; [|exact I].
    apply in_map_iff in Hev. destruct Hev as [s [<- _]]. exact I.
Qed.

Lemma step_log_ok st o st' :
  Good st -> step st o = Some st' ->
  (forall ev, In ev (s_log st) -> submit_ok ev) -> (forall ev, In ev (s_log st') -> submit_ok ev).
Proof.
  intros [Hwf Hok] H Hlog. destruct (step_inv _ _ _ H) as (p' & g' & nw & -> & C). simpl.
  intros ev Hev. apply in_app_iff in Hev. destruct Hev as [Hev|Hev]; [auto|].
  destruct (is_pass o) eqn:Ep.
  - destruct o; try discriminate. apply step_to_pass in C.
    apply (pass_event_kinds _ _ _ _ _ _ _ C) in Hev. destruct ev; try discriminate; exact I.
  - apply (step_to_log _ _ _ _ _ _ C Ep) in Hev. destruct ev; try exact I.
    destruct Hev as (rel & t & Hrel & Ht & Epp & -> & ->).
    intro Hs. rewrite (in_pre_prep_expired _ _ _ _ Hwf Hok Hrel Ht Hs) in Epp. discriminate.
Qed.

(* What a step does to a task that the expiry pass leaves alone: it is kept as it is, or it is the target
   of a task operation, or a job is submitted for it, or it is removed. *)
Lemma step_to_task st o p' g' nw t :
  step_to st o p' g' nw -> In t (s_pool st) -> t_manual t = true \/ t_status t <> Waiting ->
  In t p' \/
  (exists i f l, task_op o i f l /\ t_id t = i /\ In (f t) p') \/
  (exists rel, o = OReleaseSubmit rel /\ forallb (releasable (s_pool st)) rel = true /\
               in_pre_prep rel t = true /\ In (EvSubmit (t_id t) (t_status t)) nw) \/
  (exists e, o = ORemove e (t_id t) /\ In (EvRemove (t_id t)) nw).
Proof.
  intros C Ht Hne.
  destruct C as [e now p' g' evs Hp | o i f l Hop _ | rel Hrel | e i _ | e i t0 ss _ _ _ _].
  - left. apply (pass_ineligible_kept _ _ _ _ _ _ _ Hp _ Ht), eligible_false, Hne.
  - destruct (N.eqb (t_id t) i) eqn:E.
    + right; left. exists i, f, l. split; [exact Hop|]. split; [apply N.eqb_eq, E|].
      apply in_upd. exists t. rewrite E. auto.
    + left. apply in_upd. exists t. rewrite E. auto.
  - destruct (in_pre_prep rel t) eqn:Ep.
    + right; right; left. exists rel. repeat split; auto.
      apply in_flat_map. exists t. rewrite Ep. simpl; auto.
    + left. apply in_map_iff. exists t. rewrite Ep. auto.
  - left. apply in_app_iff. auto.
  - destruct (N.eqb (t_id t) i) eqn:E.
    + apply N.eqb_eq in E. subst i. right; right; right. exists e. split; [reflexivity|].
      apply in_app_iff. right. left. reflexivity.
    + left. apply in_app_iff. left. apply filter_In. rewrite E. auto.
Qed.

(* an expired task stays expired until it is triggered manually, a job message arrives for it,
   or it is removed *)
Lemma expired_stable st o st' t :
  Good st -> step st o = Some st' -> In t (s_pool st) -> t_status t = Expired -> touches o (t_id t) = false ->
  exists t', In t' (s_pool st') /\ t_id t' = t_id t /\ t_status t' = Expired.
Proof.
  intros [Hwf Hok] H Ht Hs Hto. destruct (step_inv _ _ _ H) as (p' & g' & nw & -> & C). simpl.
  assert (Hnw : t_status t <> Waiting) by congruence.
  destruct (step_to_task _ _ _ _ _ _ C Ht (or_intror Hnw)) as
    [Hin | [(i & f & l & Hop & Hid & Hin) | [(rel & -> & Hrel & Ep & _) | (e & -> & _)]]].
  - exists t. auto.
  - exists (f t). destruct (task_op_fields _ _ _ _ t Hop) as (Hid' & _ & Hst).
    rewrite Hid', Hst; [auto|]. rewrite <- Hid. exact Hto.
  - rewrite (in_pre_prep_expired _ _ _ _ Hwf Hok Hrel Ht Hs) in Ep. discriminate.
  - simpl in Hto. rewrite N.eqb_refl in Hto. discriminate.
Qed.

Definition no_revive (o : op) : bool :=
  match o with OManual _ _ | OMsg _ _ _ => false | _ => true end.

(* no instance is logged as expired twice, and one that is logged is gone or still expired in the pool
   ([settled]) *)
Definition Logged (st : state) : Prop :=
  NoDup (expired_ids (s_log st)) /\
  forall i, In i (expired_ids (s_log st)) ->
    In i (s_gone st) \/ exists t, In t (s_pool st) /\ t_id t = i /\ t_status t = Expired.

Lemma step_gone_mono st o st' : step st o = Some st' -> forall i, In i (s_gone st) -> In i (s_gone st').
Proof.
  intros H i Hi. destruct (step_inv _ _ _ H) as (p' & g' & nw & -> & C). simpl.
  destruct C as [e now p' g' evs Hp | | | |]; [exact (pass_gone_mono _ _ _ _ _ _ _ Hp _ Hi) | auto .. | right; exact Hi].
Qed.

Lemma step_remove_gone st e i st' : step st (ORemove e i) = Some st' -> In i (s_gone st').
Proof.
  destruct st as [p g lg]. simpl. destruct (find_task i p) as [t|]; [|discriminate].
  destruct (removal_spawn e t (ids p) g) as [succ evn]. intros [= <-]; simpl; auto.
Qed.

Lemma step_settled st o st' i :
  Good st -> no_revive o = true -> step st o = Some st' ->
  settled (s_pool st) (s_gone st) i -> settled (s_pool st') (s_gone st') i.
Proof.
  intros Hg Hnr H [Hgn|[t [Ht [Hid Hs]]]].
  - left. exact (step_gone_mono _ _ _ H _ Hgn).
  - destruct (touches o (t_id t)) eqn:Et.
    + destruct o; simpl in Et, Hnr; try discriminate. apply N.eqb_eq in Et. subst i0 i.
      left. exact (step_remove_gone _ _ _ _ H).
    + right. destruct (expired_stable _ _ _ _ Hg H Ht Hs Et) as [t' [H1 [H2 H3]]].
      exists t'. split; [auto|]. split; [congruence | auto].
Qed.

Lemma step_logged st o st' :
  Good st -> Logged st -> no_revive o = true -> step st o = Some st' -> Logged st'.
Proof.
  intros Hg [Hnd HL] Hnr H.
  pose proof (fun i Hi => step_settled _ _ _ i Hg Hnr H (HL i Hi)) as Hold.
  destruct Hg as [Hwf _]. destruct (step_inv _ _ _ H) as (p' & g' & nw & -> & C).
  unfold Logged. simpl in *. rewrite expired_ids_app. destruct (is_pass o) eqn:Ep.
  - (* the expiry pass logs the eligible tasks, each once; they were not settled, and are now *)
    destruct o; try discriminate. apply step_to_pass in C. split.
    + apply NoDup_app; [exact Hnd | rewrite (pass_expired_list _ _ _ _ _ _ _ C); apply NoDup_map_filter, Hwf |].
      intros i Hi Hni. apply in_expired_ids in Hni.
      exact (pass_settled_not_expired _ _ _ _ _ _ _ Hwf C i (HL _ Hi) Hni).
    + intros i Hi. apply in_app_iff in Hi. destruct Hi as [Hi|Hi]; [exact (Hold _ Hi)|].
      apply in_expired_ids in Hi. exact (pass_expired_settled _ _ _ _ _ _ _ Hwf C i Hi).
  - (* anything else logs no expiry *)
    destruct (expired_ids nw) as [|j r] eqn:Ej; [rewrite app_nil_r; auto|].
    destruct (step_to_log _ _ _ _ _ (EvExpired j) C Ep). apply in_expired_ids. rewrite Ej. left; reflexivity.
Qed.

(* TaskPool.remove spawns the next parentless instance of a runahead-limited task, but the expiry
   pass removes such a task without its successor (removal_spawn_expired); witness *)
Definition succ_env : env := mkEnv [] [(0%N, 1%N)] [(0%N, 0); (1%N, 86400)] [(0%N, CVar 0%N); (1%N, CVar 0%N)] [].
Definition succ_task : task :=
  mkTask 0%N Waiting false false false true (Some 0) true false [] (CVar 0%N) false false false.

Lemma succ_witness :
  clock_expire_tasks succ_env 0 [succ_task] [] = ([], [0%N], [EvExpired 0%N; EvRemove 0%N]).
Proof. vm_compute. reflexivity. Qed.

Lemma run_log_ext os st st' : run st os = Some st' -> exists nw, s_log st' = s_log st ++ nw.
Proof.
  intro Hr. refine (run_invariant (fun s => exists nw, s_log s = s_log st ++ nw) _ os st st' _ Hr).
  - intros s o s' [n1 H1] H. destruct (step_inv _ _ _ H) as (p' & g' & n2 & -> & _).
    exists (n1 ++ n2). simpl. rewrite H1, app_assoc. reflexivity.
  - exists []. symmetry. apply app_nil_r.
Qed.

Definition manual_after (st : state) (i : N) : Prop :=
  exists t', In t' (s_pool st) /\ t_id t' = i /\ t_manual t' = true.

Lemma trigger_marks st i limited st' : step st (OManual i limited) = Some st' -> manual_after st' i.
Proof.
  destruct st as [p g lg]. simpl. destruct (find_task i p) as [t|] eqn:Ef; [|discriminate].
  apply find_task_some in Ef. destruct Ef as [Ht Hid]. intro H.
  exists (queue_or_trigger limited t). split; [|auto].
  destruct (t_status t); try discriminate; injection H as <-; apply in_upd; exists t;
    rewrite Hid, N.eqb_refl; auto.
Qed.

(* a job has been submitted for i, or i has been removed *)
Definition released (i : N) (l : list event) : Prop :=
  (exists s, In (EvSubmit i s) l) \/ In (EvRemove i) l.

(* every expiry of i in l comes after that *)
Definition guarded (i : N) (l : list event) : Prop :=
  forall pre post, l = pre ++ EvExpired i :: post -> released i pre.

Lemma split_after {A} (n1 : list A) : forall n2 pre x post,
  n1 ++ n2 = pre ++ x :: post -> ~ In x n1 -> exists pre2, pre = n1 ++ pre2 /\ n2 = pre2 ++ x :: post.
Proof.
  induction n1 as [|a n1 IH]; intros n2 pre x post H Hn; simpl in *.
  - exists pre. auto.
  - destruct pre as [|b pre]; simpl in H.
    + injection H as -> _. exfalso. apply Hn; auto.
    + injection H as -> H2. destruct (IH _ _ _ _ H2) as [pre2 [-> ->]]; [tauto|]. exists pre2. auto.
Qed.

Lemma guarded_app i n1 n2 :
  ~ In (EvExpired i) n1 -> released i n1 \/ guarded i n2 -> guarded i (n1 ++ n2).
Proof.
  intros Hne H pre post Hsp. destruct (split_after _ _ _ _ _ Hsp Hne) as [pre2 [-> Hn]].
  assert (Hr : released i n1 \/ released i pre2) by (destruct H as [H|H]; [left | right; eapply H]; eassumption).
  unfold released. setoid_rewrite in_app_iff.
  destruct Hr as [[[s Hs]|Hr]|[[s Hs]|Hr]]; [left; exists s | right | left; exists s | right]; auto.
Qed.

Lemma manual_step st o st' t :
  Good st -> step st o = Some st' -> In t (s_pool st) -> t_manual t = true ->
  exists nw, s_log st' = s_log st ++ nw /\ ~ In (EvExpired (t_id t)) nw /\
             (released (t_id t) nw \/ manual_after st' (t_id t)).
Proof.
  intros [Hwf Hok] H Ht Hm. destruct (step_inv _ _ _ H) as (p' & g' & nw & -> & C).
  exists nw. simpl. split; [reflexivity|]. split.
  - destruct (is_pass o) eqn:Ep; [|exact (step_to_log _ _ _ _ _ (EvExpired (t_id t)) C Ep)].
    destruct o; try discriminate. apply step_to_pass in C.
    intro Hin. apply (pass_expires_iff _ _ _ _ _ _ _ C) in Hin. destruct Hin as [u [Hu [Hid [Hmu _]]]].
    assert (u = t) by (apply (WF_inj _ _ Hwf); auto). subst u. congruence.
  - destruct (step_to_task _ _ _ _ _ _ C Ht (or_introl Hm)) as
      [Hin | [(i & f & l & Hop & Hid & Hin) | [(rel & _ & _ & _ & Hsub) | (e & _ & Hrm)]]].
    + right. exists t. auto.
    + right. exists (f t). destruct (task_op_fields _ _ _ _ t Hop) as (Hid' & Hman & _). auto.
    + left. left. exists (t_status t). exact Hsub.
    + left. right. exact Hrm.
Qed.

(* a task that carries the manual flag does not expire before a job has been submitted for it
   (or it has been removed), whatever else happens *)
Theorem manual_guarded os : forall st st' t,
  Good st -> run st os = Some st' -> In t (s_pool st) -> t_manual t = true ->
  exists nw, s_log st' = s_log st ++ nw /\ guarded (t_id t) nw.
Proof.
  induction os as [|o os IH]; intros st st' t Hg H Ht Hm; simpl in H.
  - injection H as <-. exists []. split; [symmetry; apply app_nil_r|].
    intros [|x pre] post Hd; discriminate.
  - destruct (step st o) as [st1|] eqn:E; [|discriminate].
    destruct (manual_step _ _ _ _ Hg E Ht Hm) as (n1 & H1 & Hne & Hc).
    assert (exists n2, s_log st' = s_log st1 ++ n2 /\ (released (t_id t) n1 \/ guarded (t_id t) n2))
      as (n2 & H2 & Hc2).
    { destruct Hc as [Hc|(t1 & Ht1 & Hid1 & Hm1)].
      - destruct (run_log_ext _ _ _ H) as [n2 H2]. eauto.
      - destruct (IH st1 st' t1 (step_good _ _ _ Hg E) H Ht1 Hm1) as (n2 & H2 & G).
        rewrite Hid1 in G. eauto. }
    exists (n1 ++ n2). split; [rewrite H2, H1, app_assoc; reflexivity|].
    apply guarded_app; assumption.
Qed.
