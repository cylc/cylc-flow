(* Proofs/GraphSemProofs.v — C14, logical layer: stages 4-6 of parse_graph on
   the printed lines of well-formed chains.
   A chain gives pairs ([pdesc]); processing a pair applies actions to the two
   stores; what an action leaves there is a list of [fact]s.  The facts of a
   line are the chain's reference tasks, triggers and optionality assertions
   (the latter with the code's end-of-chain rule), the stores end up holding
   exactly the facts of all lines, and cutting chains / reordering / repeating
   lines does not change the facts when the graph is [eoc_safe]. *)
From Coq Require Import List Bool Arith String.
From Cylc Require Import Base.Util Gen.FamTables Model.GraphBase Model.GraphExpr Model.FamTrig
  Model.GraphParse Model.GraphAst Proofs.FamTrigProofs Proofs.GraphStoreProofs
  Proofs.GraphPairProofs.
Import ListNotations.

Lemma flat_map_ext_in {A B} (f g : A -> list B) l : (forall x, In x l -> f x = g x) -> flat_map f l = flat_map g l.
Proof. induction l as [|a r IH]; cbn; intros H; [reflexivity|]. rewrite H by now left. f_equal. apply IH. intros x Hx. apply H. now right. Qed.

Lemma exists_last_or_nil {A} (l : list A) : l = [] \/ exists l' x, l = l' ++ [x].
Proof. destruct l as [|a r]; [now left|]. right. destruct (exists_last (l := a :: r)) as [l' [x E]]; [discriminate|eauto]. Qed.

Lemma Forall2_in {A B} (R : A -> B -> Prop) l1 l2 : Forall2 R l1 l2 ->
  (forall a, In a l1 -> exists b, In b l2 /\ R a b) /\ (forall b, In b l2 -> exists a, In a l1 /\ R a b).
Proof.
  induction 1 as [|x y l1' l2' Hxy HF [IHl IHr]]; [split; intros ? []|]. split.
  - intros a [<-|Hin]; [exists y; split; [now left|exact Hxy]|].
    destruct (IHl a Hin) as [b [Hb HR]]. exists b. split; [now right|exact HR].
  - intros b [<-|Hin]; [exists x; split; [now left|exact Hxy]|].
    destruct (IHr b Hin) as [a [Ha HR]]. exists a. split; [now right|exact HR].
Qed.

Lemma dedup_first_in {A} (eqb : A -> A -> bool) (Heq : forall x y, eqb x y = true <-> x = y) :
  forall l seen x, In x (dedup_first eqb seen l) <-> (In x l /\ ~ In x seen).
Proof.
  induction l as [|y r IH]; intros seen x; cbn [dedup_first]; [cbn; tauto|].
  destruct (mem eqb y seen) eqn:Em.
  - apply (mem_In eqb Heq) in Em. split.
    + intros H. apply IH in H. destruct H as [H Hn]. split; [now right|exact Hn].
    + intros [[->|H] Hn]; [contradiction|]. apply IH. now split.
  - assert (Hy : ~ In y seen) by (intros H; apply (mem_In eqb Heq) in H; congruence).
    split.
    + intros [->|H]; [split; [now left|exact Hy]|]. apply IH in H. destruct H as [H Hn].
      split; [now right|]. intros Hs. apply Hn. now right.
    + intros [[->|H] Hn]; [now left|]. destruct (eqb y x) eqn:E; [apply Heq in E; now left|].
      right. apply IH. split; [exact H|]. intros [->|Hs]; [|contradiction].
      rewrite (proj2 (Heq x x) eq_refl) in E. discriminate.
Qed.

Lemma pair_eqb_true (a b : pair) : pair_eqb a b = true <-> a = b.
Proof.
  destruct a as [l1 r1], b as [l2 r2]. unfold pair_eqb. cbn [fst snd].
  rewrite andb_true_iff, toks_eqb_true, (option_eqb_spec _ toks_eqb_true).
  split; [intros [-> ->]; reflexivity|intros [= -> ->]; auto].
Qed.

Definition head_ok (h : lexpr) : bool :=
  wf_lvl 0 h && forallb (fun n => node_accepted [] n && node_fin_ok n) (nodes_e h).

Definition inner_ok (g : group) : bool := forallb (fun x => negb (r_s x) && node_fin_ok (r_n x)) g.

Lemma chain_ok_parts c : chain_ok c = true -> head_ok (ch_head c) = true /\ groups_ok (ch_groups c) = true.
Proof. unfold chain_ok. intros H. now apply andb_prop in H. Qed.

Lemma head_ok_nodes h n : head_ok h = true -> In n (nodes_e h) ->
  node_accepted [] n = true /\ node_fin_ok n = true.
Proof.
  unfold head_ok. intros H Hn. apply andb_prop in H. destruct H as [_ H].
  rewrite forallb_forall in H. now apply andb_prop, H.
Qed.

Lemma rnode_ok_inv r : rnode_ok r = true ->
  n_off (r_n r) = 0 /\ node_accepted [] (r_n r) = true /\ (r_s r || node_fin_ok (r_n r)) = true.
Proof.
  unfold rnode_ok. intros H. apply andb_prop in H. destruct H as [H H3]. apply andb_prop in H. destruct H as [H1 H2].
  apply Nat.eqb_eq in H1. auto.
Qed.

Lemma inner_ok_inv g r : inner_ok g = true -> In r g -> r_s r = false /\ node_fin_ok (r_n r) = true.
Proof.
  unfold inner_ok. rewrite forallb_forall. intros H Hr. apply H, andb_prop in Hr. destruct Hr as [Hs Hf].
  apply negb_true_iff in Hs. auto.
Qed.

Lemma inner_groups_removelast gs : inner_groups gs = removelast gs.
Proof. induction gs as [|g r IH]; [reflexivity|]. destruct r; [reflexivity|]. cbn [inner_groups removelast] in *. now rewrite IH. Qed.

Lemma groups_ok_cons g r : groups_ok (g :: r) = true ->
  g <> [] /\ forallb rnode_ok g = true /\ (r <> [] -> inner_ok g = true) /\ groups_ok r = true.
Proof.
  cbn [groups_ok]. intros H. apply andb_prop in H. destruct H as [H Hr]. apply andb_prop in H. destruct H as [H Hm].
  apply andb_prop in H. destruct H as [Hn Hg]. repeat split; auto.
  - destruct g; [discriminate|discriminate].
  - intros Hne. destruct r; [congruence|exact Hm].
Qed.

(* every group is non-empty and made of acceptable nodes; every group but the
   last is also the left side of the next arrow *)
Lemma groups_ok_spec gs : groups_ok gs = true <->
  (forall g, In g gs -> g <> [] /\ forallb rnode_ok g = true)
  /\ (forall g, In g (removelast gs) -> inner_ok g = true).
Proof.
  induction gs as [|g r IH]; [cbn; intuition|]. split.
  - intros H. destruct (groups_ok_cons g r H) as [Hn [Hg [Hm Hr]]]. apply IH in Hr. destruct Hr as [Hr1 Hr2]. split.
    + intros g' [<-|H']; [now split|now apply Hr1].
    + intros g' H'. destruct r as [|g2 r2]; [destruct H'|]. destruct H' as [<-|H']; [apply Hm; discriminate|now apply Hr2].
  - intros [H1 H2]. destruct (H1 g (or_introl eq_refl)) as [Hn Hg]. cbn [groups_ok]. rewrite Hg.
    replace (groups_ok r) with true.
    + destruct g as [|x g']; [congruence|]. destruct r as [|g2 r2]; [reflexivity|].
      cbn [is_nil negb andb orb]. rewrite andb_true_r. apply (H2 (x :: g')). now left.
    + symmetry. apply IH. split; [intros g' H'; apply H1; now right|].
      intros g' H'. apply H2. destruct r; [destruct H'|now right].
Qed.

Lemma groups_ok_app gs1 gi gs2 : gs2 <> [] -> groups_ok (gs1 ++ gi :: gs2) = true ->
  groups_ok (gs1 ++ [gi]) = true /\ groups_ok gs2 = true /\ inner_ok gi = true
  /\ gi <> [] /\ forallb rnode_ok gi = true.
Proof.
  intros Hne H. apply groups_ok_spec in H. destruct H as [H1 H2].
  rewrite removelast_app in H2 by discriminate. cbn [removelast] in H2.
  destruct gs2 as [|g2 gs2']; [congruence|].
  destruct (H1 gi) as [Hn Hg]; [apply in_or_app; right; now left|].
  split; [|split; [|split; [|split; [exact Hn|exact Hg]]]].
  - apply groups_ok_spec. rewrite removelast_last. split.
    + intros g Hin. apply H1. apply in_app_or in Hin. apply in_or_app.
      destruct Hin as [Hin|[<-|[]]]; [now left|right; now left].
    + intros g Hin. apply H2. apply in_or_app. now left.
  - apply groups_ok_spec. split.
    + intros g Hin. apply H1. apply in_or_app. right. now right.
    + intros g Hin. apply H2. apply in_or_app. right. now right.
  - apply H2. apply in_or_app. right. now left.
Qed.

Lemma split_arrow_groups : forall (gs : list group) (pre : list tok),
  existsb is_arrow pre = false ->
  split_on is_arrow (pre ++ flat_map (fun g => TArrow :: print_g g) gs) = pre :: map print_g gs.
Proof.
  induction gs as [|g r IH]; intros pre Hpre; cbn [flat_map map].
  - rewrite app_nil_r. now apply split_on_none.
  - change ((TArrow :: print_g g) ++ ?x) with (TArrow :: (print_g g ++ x)).
    rewrite split_on_sep; [|reflexivity|exact Hpre]. f_equal.
    apply IH. now apply print_g_no.
Qed.

Lemma split_chain c : split_on is_arrow (print_chain c) = print_e (ch_head c) :: map print_g (ch_groups c).
Proof. unfold print_chain. apply split_arrow_groups. now apply print_e_no. Qed.

Lemma auto_rights_nodes l : existsb is_bang l = false -> auto_rights l = map (fun n => [TN n]) (nodes_of l).
Proof.
  induction l as [|t r IH]; [reflexivity|]. cbn [existsb]. intros H. apply orb_false_iff in H. destruct H as [Ht Hr].
  destruct t; try discriminate; cbn; now rewrite IH.
Qed.

Lemma nodes_of_print_e e : nodes_of (print_e e) = nodes_e e.
Proof.
  unfold nodes_of. induction e; cbn [print_e nodes_e].
  - reflexivity.
  - cbn [flat_map app]. rewrite flat_map_app, IHe. apply app_nil_r.
  - rewrite flat_map_app. cbn [flat_map app]. now rewrite IHe1, IHe2.
  - rewrite flat_map_app. cbn [flat_map app]. now rewrite IHe1, IHe2.
Qed.

Lemma nodes_big_op all (l : list lexpr) : l <> [] -> nodes_e (big_op all l) = flat_map nodes_e l.
Proof.
  induction l as [|x r IH]; [congruence|]. intros _. destruct r as [|y r'].
  - cbn. now rewrite app_nil_r.
  - rewrite big_op_cons2. destruct all; cbn [nodes_e flat_map]; rewrite IH by discriminate; reflexivity.
Qed.

Lemma nodes_group_expr (g : group) : g <> [] -> nodes_e (group_expr g) = map r_n g.
Proof.
  intros H. unfold group_expr. rewrite nodes_big_op by (destruct g; [congruence|discriminate]).
  rewrite flat_map_map. clear H. induction g; cbn in *; congruence.
Qed.

Lemma print_group_expr (g : group) : g <> [] -> inner_ok g = true ->
  print_e (group_expr g) = print_g g.
Proof.
  unfold group_expr, print_g. induction g as [|r rest IH]; [congruence|]. intros _ H.
  destruct (inner_ok_inv _ r H (or_introl eq_refl)) as [Hr _]. destruct r as [s n]. cbn [r_s] in Hr. subst s.
  destruct rest as [|r2 rest']; [reflexivity|].
  cbn [inner_ok forallb] in H. apply andb_true_iff in H.
  cbn [map] in *. rewrite big_op_cons2, join_toks_cons2. cbn [print_e].
  rewrite IH by (try discriminate; apply H). reflexivity.
Qed.

Inductive pdesc := PAuto (n : node) | PMain (L : lexpr) (G : group).

Definition pair_of (d : pdesc) : pair :=
  match d with
  | PAuto n => (None, [TN n])
  | PMain L G => (Some (print_e L), print_g G)
  end.

Fixpoint chain_mains (L : lexpr) (gs : list group) : list pdesc :=
  match gs with
  | [] => []
  | g :: r => PMain L g :: chain_mains (group_expr g) r
  end.

Definition chain_descs (c : chain) : list pdesc :=
  map PAuto (nodes_e (ch_head c)) ++ chain_mains (ch_head c) (ch_groups c).

Lemma consecutive_mains : forall (gs : list group) L,
  groups_ok gs = true ->
  consecutive (print_e L :: map print_g gs) = map pair_of (chain_mains L gs).
Proof.
  induction gs as [|g r IH]; intros L Hok; [reflexivity|].
  cbn [map consecutive chain_mains pair_of]. f_equal.
  destruct (groups_ok_cons g r Hok) as [Hne [_ [Hin Hr]]].
  destruct r as [|g2 r2]; [reflexivity|].
  rewrite <- (print_group_expr g Hne) by (apply Hin; discriminate). apply (IH _ Hr).
Qed.

Lemma chain_pairs_descs c : groups_ok (ch_groups c) = true ->
  chain_pairs (split_on is_arrow (print_chain c)) = map pair_of (chain_descs c).
Proof.
  intros Hok. rewrite split_chain. unfold chain_pairs, chain_descs.
  rewrite auto_rights_nodes by (now apply print_e_no).
  rewrite nodes_of_print_e, map_app, !map_map. f_equal.
  now apply consecutive_mains.
Qed.

Lemma final_pieces_snoc h gs gl : final_pieces (mkChain h (gs ++ [gl])) = map print_r gl.
Proof. unfold final_pieces. cbn [ch_groups]. now rewrite rev_app_distr. Qed.

Lemma final_pieces_app h gs1 gs2 h' : gs2 <> [] ->
  final_pieces (mkChain h (gs1 ++ gs2)) = final_pieces (mkChain h' gs2).
Proof.
  intros Hne. destruct (exists_last_or_nil gs2) as [->|[gs [gl ->]]]; [congruence|].
  now rewrite app_assoc, !final_pieces_snoc.
Qed.

Lemma chain_eoc_final c : groups_ok (ch_groups c) = true ->
  chain_eoc (split_on is_arrow (print_chain c)) = final_pieces c.
Proof.
  intros Hok. rewrite split_chain. destruct c as [h gs]. cbn [ch_head ch_groups] in *. unfold chain_eoc.
  destruct (exists_last_or_nil gs) as [->|[gs' [gl ->]]]; [reflexivity|].
  rewrite final_pieces_snoc, map_app. cbn [map]. rewrite app_comm_cons, last_last.
  apply join_and_split. apply groups_ok_spec in Hok. apply Hok. apply in_or_app. right. now left.
Qed.

Definition facts_of (ns : list name) (ts : list tassert) (os : list oassert) : list fact :=
  map FTask ns ++ map FTrig ts ++ map FOpt os.

Lemma in_facts_of ns ts os x : In x (facts_of ns ts os) <->
  match x with FTask n => In n ns | FTrig t => In t ts | FOpt a => In a os end.
Proof.
  unfold facts_of. rewrite !in_app_iff, !in_map_iff. destruct x as [n|t|a]; split.
  - intros [[y [[= ->] H]]|[[y [[=] _]]|[y [[=] _]]]]. exact H.
  - intros H. left. eauto.
  - intros [[y [[=] _]]|[[y [[= ->] H]]|[y [[=] _]]]]. exact H.
  - intros H. right. left. eauto.
  - intros [[y [[=] _]]|[[y [[=] _]]|[y [[= ->] H]]]]. exact H.
  - intros H. right. right. eauto.
Qed.

Lemma in_facts_flat_map {A} (f : A -> list action) l x :
  In x (facts (flat_map f l)) <-> exists c, In c l /\ In x (facts (f c)).
Proof.
  unfold facts. induction l as [|a r IH]; cbn [flat_map]; [split; [intros []|intros [c [[] _]]]|].
  rewrite flat_map_app, in_app_iff, IH. split.
  - intros [H|[c [Hc H]]]; [exists a; split; [now left|exact H]|exists c; split; [now right|exact H]].
  - intros [c [[<-|Hc] H]]; [now left|right; eauto].
Qed.

Lemma facts_of_flat_map {A} (f1 : A -> list name) f2 f3 (l : list A) x :
  In x (facts_of (flat_map f1 l) (flat_map f2 l) (flat_map f3 l))
  <-> exists d, In d l /\ In x (facts_of (f1 d) (f2 d) (f3 d)).
Proof.
  rewrite in_facts_of. destruct x; rewrite in_flat_map; split; intros [d [Hd H]]; exists d; (split; [exact Hd|]);
    first [now apply in_facts_of|now apply in_facts_of in H].
Qed.

Lemma facts_opts l : facts (map AOpt l) = map FOpt l.
Proof. unfold facts. induction l as [|a r IH]; cbn [map flat_map act_facts app]; [reflexivity|]. now rewrite IH. Qed.

Lemma facts_right E expr atoms r :
  facts (right_actions E expr atoms r)
  = facts_of (if Nat.eqb (n_off (r_n r)) 0 then [n_name (r_n r)] else [])
             (if Nat.eqb (n_off (r_n r)) 0 && negb (is_nil expr) then [(n_name (r_n r), expr, r_s r)] else [])
             (rnode_asserts (negb (mem toks_eqb (print_r r) E) || is_nil expr) r).
Proof.
  unfold right_actions, facts_of, facts. rewrite flat_map_app. fold (facts (map AOpt (rnode_asserts (negb (mem toks_eqb (print_r r) E) || is_nil expr) r))).
  rewrite facts_opts. destruct (Nat.eqb (n_off (r_n r)) 0), expr; reflexivity.
Qed.

(* the code's rule: ":succeeded" is inferred for a plain right-hand node unless
   its text ends some line's chain *)
Definition rnode_asserts_E (E : list (list tok)) (r : rnode) : list oassert :=
  rnode_asserts (negb (mem toks_eqb (print_r r) E)) r.

Definition desc_tasks (d : pdesc) : list name :=
  match d with
  | PAuto n => if Nat.eqb (n_off n) 0 then [n_name n] else []
  | PMain _ G => map (fun r => n_name (r_n r)) G
  end.
Definition desc_trigs (d : pdesc) : list tassert :=
  match d with PAuto _ => [] | PMain L G => pair_trigs L G end.
Definition desc_opts (E : list (list tok)) (d : pdesc) : list oassert :=
  match d with
  | PAuto n => head_node_asserts n
  | PMain _ G => flat_map (rnode_asserts_E E) G
  end.

Definition acts_of (eoc : list (list tok)) (d : pdesc) : list action :=
  match d with
  | PAuto n => auto_actions eoc n
  | PMain L G => main_actions eoc L G
  end.

(* the pairs that well-formed chains give *)
Definition good_desc (d : pdesc) : Prop :=
  match d with
  | PAuto n => node_fin_ok n = true
  | PMain L G => G <> [] /\ forallb rnode_ok G = true /\ forallb (node_accepted []) (nodes_e L) = true
  end.

Lemma stored_expr_nonempty p : is_nil (stored_expr p) = false.
Proof.
  unfold stored_expr. destruct (print_e (expand_e [] p)) eqn:E; [exfalso; eapply print_e_nonempty; eauto|reflexivity].
Qed.

Lemma left_pieces_nonempty L : exists p, In p (left_pieces L).
Proof.
  unfold left_pieces. destruct (has_or_par L); [exists L; now left|].
  induction L; cbn; eauto. destruct IHL1 as [p Hp]. exists p. apply in_or_app. now left.
Qed.

Lemma head_asserts_auto n :
  rnode_asserts true (mkR false n) = head_node_asserts n.
Proof.
  unfold rnode_asserts, head_node_asserts, task_out, expand_assert. cbn [r_s r_n].
  destruct (n_qual n); [reflexivity|]. rewrite succeeded_not_finished. destruct (n_opt n); reflexivity.
Qed.

Lemma desc_facts E d : good_desc d -> forall x,
  In x (facts (acts_of E d)) <-> In x (facts_of (desc_tasks d) (desc_trigs d) (desc_opts E d)).
Proof.
  (* [facts_right] gives the facts of one right node under one left piece ([Hr]); both inclusions
     then go through the two nested flat_maps of [main_actions], a task or an optionality fact
     taking any left piece *)
  destruct d as [n|L G]; cbn [good_desc acts_of desc_tasks desc_trigs desc_opts].
  - intros _ x. unfold auto_actions. rewrite facts_right. cbn [r_n r_s is_nil negb].
    now rewrite andb_false_r, orb_true_r, head_asserts_auto.
  - intros [_ [HG _]] x.
    assert (Hr : forall p r, In r G ->
              facts (right_actions E (stored_expr p) (left_atoms p) r)
              = facts_of [n_name (r_n r)] [(n_name (r_n r), stored_expr p, r_s r)] (rnode_asserts_E E r)).
    { intros p r Hin. rewrite forallb_forall in HG. destruct (rnode_ok_inv r (HG r Hin)) as [H0 _].
      now rewrite facts_right, H0, stored_expr_nonempty, orb_false_r. }
    unfold main_actions. split.
    + intros H. apply in_facts_flat_map in H. destruct H as [p [Hp H]].
      apply in_facts_flat_map in H. destruct H as [r [Hin H]].
      rewrite (Hr p r Hin) in H. apply in_facts_of in H. apply in_facts_of.
      destruct x as [m|t|a].
      * destruct H as [<-|[]]. now apply (in_map (fun r => n_name (r_n r))).
      * destruct H as [<-|[]]. apply in_flat_map. exists p. split; [exact Hp|].
        now apply (in_map (fun r => (n_name (r_n r), stored_expr p, r_s r))).
      * apply in_flat_map. eauto.
    + intros H. apply in_facts_of in H. destruct (left_pieces_nonempty L) as [p0 Hp0].
      assert (Hx : exists p r, In p (left_pieces L) /\ In r G
                /\ In x (facts_of [n_name (r_n r)] [(n_name (r_n r), stored_expr p, r_s r)] (rnode_asserts_E E r))).
      { destruct x as [m|t|a].
        - apply in_map_iff in H. destruct H as [r [<- Hin]]. exists p0, r.
          split; [exact Hp0|]. split; [exact Hin|]. apply in_facts_of. now left.
        - apply in_flat_map in H. destruct H as [p [Hp H]]. apply in_map_iff in H. destruct H as [r [<- Hin]].
          exists p, r. split; [exact Hp|]. split; [exact Hin|]. apply in_facts_of. now left.
        - apply in_flat_map in H. destruct H as [r [Hin H]]. exists p0, r.
          split; [exact Hp0|]. split; [exact Hin|]. apply in_facts_of. exact H. }
      destruct Hx as [p [r [Hp [Hin H']]]]. apply in_facts_flat_map. exists p. split; [exact Hp|].
      apply in_facts_flat_map. exists r. split; [exact Hin|]. now rewrite (Hr p r Hin).
Qed.

(* the facts of a whole line: the chain's tasks and triggers, and its
   optionality assertions under the code's end-of-chain rule *)
Definition chain_asserts_E (E : list (list tok)) (c : chain) : list oassert :=
  flat_map head_node_asserts (nodes_e (ch_head c))
  ++ flat_map (flat_map (rnode_asserts_E E)) (ch_groups c).

Definition line_facts (E : list (list tok)) (c : chain) : list fact :=
  facts_of (chain_tasks c) (chain_trigs (ch_head c) (ch_groups c)) (chain_asserts_E E c).

Lemma chain_mains_facts E : forall (gs : list group) L,
  flat_map desc_tasks (chain_mains L gs) = flat_map (map (fun r => n_name (r_n r))) gs
  /\ flat_map desc_trigs (chain_mains L gs) = chain_trigs L gs
  /\ flat_map (desc_opts E) (chain_mains L gs) = flat_map (flat_map (rnode_asserts_E E)) gs.
Proof.
  induction gs as [|g r IH]; intros L; [auto|].
  destruct (IH (group_expr g)) as [H1 [H2 H3]]. cbn [chain_mains flat_map chain_trigs desc_tasks desc_trigs desc_opts].
  repeat split; f_equal; assumption.
Qed.

Lemma chain_descs_facts E c :
  facts_of (flat_map desc_tasks (chain_descs c)) (flat_map desc_trigs (chain_descs c))
           (flat_map (desc_opts E) (chain_descs c))
  = line_facts E c.
Proof.
  unfold line_facts, chain_descs, chain_tasks, chain_asserts_E. rewrite !flat_map_app, !flat_map_map.
  destruct (chain_mains_facts E (ch_groups c) (ch_head c)) as [-> [-> ->]]. f_equal.
  - f_equal. induction (nodes_e (ch_head c)) as [|n r IH]; [reflexivity|].
    cbn [flat_map filter]. rewrite IH. cbn [desc_tasks]. destruct (Nat.eqb (n_off n) 0); reflexivity.
  - induction (nodes_e (ch_head c)); auto.
Qed.

Lemma chain_mains_good : forall (gs : list group) L,
  groups_ok gs = true -> forallb (node_accepted []) (nodes_e L) = true ->
  forall d, In d (chain_mains L gs) -> good_desc d.
Proof.
  induction gs as [|g r IH]; intros L Hok Hacc d Hd; [destruct Hd|].
  destruct (groups_ok_cons g r Hok) as [Hne [Hg [_ Hr]]].
  destruct Hd as [<-|Hd]; [cbn; auto|].
  apply (IH (group_expr g) Hr); [|exact Hd].
  rewrite nodes_group_expr by exact Hne. apply forallb_forall. intros n Hn.
  apply in_map_iff in Hn. destruct Hn as [x [<- Hx]]. rewrite forallb_forall in Hg.
  now apply rnode_ok_inv, Hg.
Qed.

Lemma chain_descs_good c : chain_ok c = true -> forall d, In d (chain_descs c) -> good_desc d.
Proof.
  intros H d Hd. destruct (chain_ok_parts c H) as [Hh Hgs].
  unfold chain_descs in Hd. apply in_app_or in Hd. destruct Hd as [Hd|Hd].
  - apply in_map_iff in Hd. destruct Hd as [n [<- Hin]]. now apply (head_ok_nodes (ch_head c)).
  - apply (chain_mains_good (ch_groups c) (ch_head c) Hgs); [|exact Hd].
    apply forallb_forall. intros n Hin. now apply (head_ok_nodes (ch_head c)).
Qed.

Lemma line_facts_spec E c : chain_ok c = true -> forall x,
  In x (facts (flat_map (acts_of E) (chain_descs c))) <-> In x (line_facts E c).
Proof.
  intros Hok x. rewrite <- chain_descs_facts, facts_of_flat_map, in_facts_flat_map.
  split; intros [d [Hd H]]; exists d; (split; [exact Hd|]);
    apply (desc_facts E d (chain_descs_good c Hok d Hd)); exact H.
Qed.

(* the actions as a function of the pair's tokens: the pair list is only known
   as a set, and two descriptors might print alike *)
Definition right_actions_t (eoc : list (list tok)) (expr : list tok) (atoms : list atom)
    (piece : list tok) : list action :=
  match parse_rhs piece with
  | Some (s, n) => right_actions eoc expr atoms (mkR s n)
  | None => []
  end.

Definition pair_actions (eoc : list (list tok)) (p : pair) : list action :=
  match fst p with
  | None => right_actions_t eoc [] [] (snd p)
  | Some lt =>
      let lefts := if is_nil lt || existsb is_or lt || existsb is_lp lt
                   then [lt] else split_on is_and lt in
      flat_map (fun l => match expand_left [] l with
                         | Ok ea => flat_map (right_actions_t eoc (fst ea) (snd ea))
                                             (split_on is_and (snd p))
                         | _ => []
                         end) lefts
  end.

Lemma right_actions_t_print eoc expr atoms r : right_actions_t eoc expr atoms (print_r r) = right_actions eoc expr atoms r.
Proof. unfold right_actions_t. rewrite parse_print_r. destruct r; reflexivity. Qed.

Lemma pair_actions_of eoc d : good_desc d -> pair_actions eoc (pair_of d) = acts_of eoc d.
Proof.
  destruct d as [n|L G]; cbn [good_desc pair_of acts_of]; [reflexivity|]. intros [Hne [_ Hacc]].
  unfold pair_actions, main_actions. cbn [fst snd]. rewrite lefts_of_print, flat_map_map.
  apply flat_map_ext_in. intros p Hp.
  rewrite expand_left_stored.
  - cbn [fst snd]. rewrite join_and_split by exact Hne.
    rewrite flat_map_map. apply flat_map_ext_in. intros r _. apply right_actions_t_print.
  - apply forallb_forall. intros n Hn. rewrite forallb_forall in Hacc. apply Hacc.
    eapply left_pieces_nodes; eauto.
Qed.

Lemma proc_pair_desc eoc st d : good_desc d ->
  exists sb, ps_ct sb = ps_ct st
    /\ proc_pair [] eoc st (pair_of d)
       = lift (fold_res apply_core (pair_actions eoc (pair_of d)) (core_of st)) sb.
Proof.
  intros Hg. rewrite (pair_actions_of eoc d Hg).
  destruct d as [n|L G]; cbn [good_desc pair_of acts_of] in *.
  - now apply proc_pair_auto.
  - destruct Hg as [Hne [HG Hacc]]. apply proc_pair_main; [exact Hne| |exact Hacc].
    intros r Hr. rewrite forallb_forall in HG. destruct (rnode_ok_inv r (HG r Hr)) as [H0 [_ Hf]]. auto.
Qed.

Lemma fold_pairs eoc (ps : list pair) st :
  (forall p, In p ps -> exists d, good_desc d /\ p = pair_of d) ->
  exists sb, ps_ct sb = ps_ct st
    /\ fold_res (proc_pair [] eoc) ps st
       = lift (fold_res apply_core (flat_map (pair_actions eoc) ps) (core_of st)) sb.
Proof.
  intros Hg. pose proof (fold_lift (proc_pair [] eoc) (fun p => p) (pair_actions eoc) ps) as H.
  rewrite map_id in H. apply H. intros st' p Hp. destruct (Hg p Hp) as [d [Hd ->]]. now apply proc_pair_desc.
Qed.

Definition dd_lines (ls : graph) : list (list tok) := dedup_first toks_eqb [] (map print_chain ls).

Lemma dd_lines_in ls l : In l (dd_lines ls) <-> exists c, In c ls /\ l = print_chain c.
Proof.
  unfold dd_lines. rewrite (dedup_first_in toks_eqb toks_eqb_true). rewrite in_map_iff. cbn.
  split; [intros [[c [E H]] _]; eauto|intros [c [H ->]]; split; [eauto|tauto]].
Qed.

Lemma eoc_in ls : (forall c, In c ls -> chain_ok c = true) ->
  forall x, In x (lines_eoc (dd_lines ls)) <-> exists c, In c ls /\ In x (final_pieces c).
Proof.
  intros Hok x. unfold lines_eoc. rewrite in_flat_map. split.
  - intros [ch [Hch Hx]]. apply in_map_iff in Hch. destruct Hch as [l [<- Hl]].
    apply dd_lines_in in Hl. destruct Hl as [c [Hc ->]]. exists c. split; [exact Hc|].
    now rewrite chain_eoc_final in Hx by (apply chain_ok_parts; auto).
  - intros [c [Hc Hx]]. exists (split_on is_arrow (print_chain c)). split.
    + apply in_map. apply dd_lines_in. eauto.
    + now rewrite chain_eoc_final by (apply chain_ok_parts; auto).
Qed.

Lemma pairs_in ls : (forall c, In c ls -> chain_ok c = true) ->
  forall p, In p (lines_pairs (dd_lines ls)) <-> exists c d, In c ls /\ In d (chain_descs c) /\ p = pair_of d.
Proof.
  intros Hok p. unfold lines_pairs. rewrite (dedup_first_in pair_eqb pair_eqb_true). cbn.
  rewrite in_flat_map. split.
  - intros [[ch [Hch Hp]] _]. apply in_map_iff in Hch. destruct Hch as [l [<- Hl]].
    apply dd_lines_in in Hl. destruct Hl as [c [Hc ->]].
    rewrite chain_pairs_descs in Hp by (apply chain_ok_parts; auto).
    apply in_map_iff in Hp. destruct Hp as [d [<- Hd]]. eauto.
  - intros [c [d [Hc [Hd ->]]]]. split; [|tauto].
    exists (split_on is_arrow (print_chain c)). split.
    + apply in_map. apply dd_lines_in. eauto.
    + rewrite chain_pairs_descs by (apply chain_ok_parts; auto). now apply in_map.
Qed.

Lemma terminals_ok_nil st : ps_ct st = [] -> terminals_ok st = true.
Proof.
  intros H. unfold terminals_ok. rewrite H. apply forallb_forall. intros r _. cbn. apply orb_true_r.
Qed.

(* the lines are accepted when their facts are consistent, and the stores then
   hold exactly these facts *)
Theorem parse_lines_ok ls :
  (forall c, In c ls -> chain_ok c = true) ->
  let E := lines_eoc (dd_lines ls) in
  let F x := exists l, In l ls /\ In x (line_facts E l) in
  consistent F ->
  exists st, parse_lines [] (map print_chain ls) = Ok st
    /\ core_inv (core_of st) /\ forall x, core_has (core_of st) x <-> F x.
Proof.
  intros Hok E F HF.
  unfold parse_lines. fold (dd_lines ls). fold E.
  set (ps := lines_pairs (dd_lines ls)).
  destruct (fold_pairs E ps empty_state) as [sb [Hct ->]].
  { intros p Hp. apply (pairs_in ls Hok) in Hp. destruct Hp as [c [d [Hc [Hd ->]]]].
    exists d. split; [|reflexivity]. eapply chain_descs_good; eauto. }
  assert (Hset : forall x, In x (facts (flat_map (pair_actions E) ps)) <-> F x).
  { intros x. rewrite in_facts_flat_map. split.
    - intros [p [Hp H]]. apply (pairs_in ls Hok) in Hp. destruct Hp as [c [d [Hc [Hd ->]]]].
      exists c. split; [exact Hc|]. apply (line_facts_spec E c (Hok c Hc)). apply in_facts_flat_map.
      exists d. split; [exact Hd|]. rewrite <- pair_actions_of; [exact H|]. eapply chain_descs_good; eauto.
    - intros [c [Hc H]]. apply (line_facts_spec E c (Hok c Hc)) in H. apply in_facts_flat_map in H.
      destruct H as [d [Hd H]]. exists (pair_of d). split; [apply (pairs_in ls Hok); eauto|].
      rewrite pair_actions_of; [exact H|]. eapply chain_descs_good; eauto. }
  destruct (core_fold_ok (flat_map (pair_actions E) ps) ([], [])) as [c' [Ec [Hinv Hhas]]].
  - split; [split; [constructor|intros n l []]|]. split; [intros k v H; discriminate|constructor].
  - apply (consistent_sub _ _) with (2 := HF). intros x [H|H]; [destruct (core_has_empty x H)|now apply Hset].
  - change (core_of empty_state) with (([], []) : core). rewrite Ec. cbn [lift bind].
    rewrite terminals_ok_nil by (cbn; rewrite Hct; reflexivity).
    eexists. split; [reflexivity|]. rewrite core_with. split; [exact Hinv|].
    intros x. rewrite Hhas, Hset. split; [intros [H|H]; [destruct (core_has_empty x H)|exact H]|now right].
Qed.

Inductive cut_of : lexpr -> list group -> list chain -> Prop :=
| cut_done h gs : cut_of h gs [mkChain h gs]
| cut_at h gs1 gi gs2 rest :
    gs2 <> [] -> cut_of (group_expr gi) gs2 rest ->
    cut_of h (gs1 ++ gi :: gs2) (mkChain h (gs1 ++ [gi]) :: rest).

(* a presentation of g as lines: every chain cut somewhere (or not at all), the
   lines in any order, any line repeated any number of times *)
Definition presents (g ls : graph) : Prop :=
  exists parts, Forall2 (fun c p => cut_of (ch_head c) (ch_groups c) p) g parts
                /\ (forall c, In c ls <-> In c (List.concat parts)).

Definition part (g ls : graph) (c : chain) (p : list chain) : Prop :=
  In c g /\ cut_of (ch_head c) (ch_groups c) p /\ (forall l, In l p -> In l ls).

Lemma presents_parts g ls : presents g ls ->
  (forall c, In c g -> exists p, part g ls c p)
  /\ (forall l, In l ls -> exists c p, part g ls c p /\ In l p).
Proof.
  intros [parts [HF Hin]]. destruct (Forall2_in _ _ _ HF) as [Hl Hr].
  assert (Hsub : forall p, In p parts -> forall l, In l p -> In l ls)
    by (intros p Hp l Hl'; apply Hin, in_concat; eauto).
  split.
  - intros c Hc. destruct (Hl c Hc) as [p [Hp Hcut]]. exists p. exact (conj Hc (conj Hcut (Hsub p Hp))).
  - intros l Hl'. apply Hin, in_concat in Hl'. destruct Hl' as [p [Hp Hlp]].
    destruct (Hr p Hp) as [c [Hc Hcut]]. exists c, p. exact (conj (conj Hc (conj Hcut (Hsub p Hp))) Hlp).
Qed.

Lemma cut_of_first h gs lines : cut_of h gs lines -> exists l rest, lines = l :: rest /\ ch_head l = h.
Proof. intros H. destruct H; eauto. Qed.

Lemma group_expr_head_ok gi : gi <> [] -> inner_ok gi = true -> forallb rnode_ok gi = true ->
  head_ok (group_expr gi) = true.
Proof.
  intros Hne Hin Hok. unfold head_ok. apply andb_true_iff. split.
  - unfold group_expr. apply big_op_wf.
    + destruct gi; [congruence|discriminate].
    + intros x Hx. apply in_map_iff in Hx. destruct Hx as [r [<- _]]. reflexivity.
  - rewrite nodes_group_expr by exact Hne. apply forallb_forall. intros n Hn.
    apply in_map_iff in Hn. destruct Hn as [r [<- Hr]]. rewrite forallb_forall in Hok.
    destruct (rnode_ok_inv r (Hok r Hr)) as [_ [Ha _]]. destruct (inner_ok_inv gi r Hin Hr) as [_ Hf].
    now rewrite Ha, Hf.
Qed.

Lemma chain_ok_split h gs : chain_ok (mkChain h gs) = (head_ok h && groups_ok gs).
Proof. reflexivity. Qed.

Lemma cut_chain_ok h gs lines : cut_of h gs lines ->
  head_ok h = true -> groups_ok gs = true -> forall l, In l lines -> chain_ok l = true.
Proof.
  induction 1 as [h gs|h gs1 gi gs2 rest Hne Hcut IH]; intros Hh Hg l Hl.
  - destruct Hl as [<-|[]]. now rewrite chain_ok_split, Hh, Hg.
  - destruct (groups_ok_app gs1 gi gs2 Hne Hg) as [H1 [H2 [H3 [H4 H5]]]].
    destruct Hl as [<-|Hl]; [now rewrite chain_ok_split, Hh, H1|].
    apply IH; auto. now apply group_expr_head_ok.
Qed.

Lemma chain_trigs_app : forall gs1 h gi gs2,
  chain_trigs h (gs1 ++ gi :: gs2) = chain_trigs h (gs1 ++ [gi]) ++ chain_trigs (group_expr gi) gs2.
Proof.
  induction gs1 as [|g r IH]; intros h gi gs2; cbn [app chain_trigs].
  - now rewrite app_nil_r.
  - rewrite IH. now rewrite app_assoc.
Qed.

Lemma cut_trigs h gs lines : cut_of h gs lines ->
  flat_map (fun c => chain_trigs (ch_head c) (ch_groups c)) lines = chain_trigs h gs.
Proof.
  induction 1 as [h gs|h gs1 gi gs2 rest Hne Hcut IH]; cbn [flat_map ch_head ch_groups].
  - now rewrite app_nil_r.
  - rewrite IH. symmetry. apply chain_trigs_app.
Qed.

Lemma cut_lines_groups h gs lines : cut_of h gs lines -> flat_map ch_groups lines = gs.
Proof.
  induction 1 as [h gs|h gs1 gi gs2 rest Hne Hcut IH]; cbn [flat_map ch_groups].
  - apply app_nil_r.
  - now rewrite IH, <- app_assoc.
Qed.

(* a line starts with the chain's head or with a group that is not the last *)
Lemma cut_heads h gs lines : cut_of h gs lines -> groups_ok gs = true ->
  forall l n, In l lines -> In n (nodes_e (ch_head l)) ->
  In n (nodes_e h) \/ exists g r, In g (removelast gs) /\ In r g /\ n = r_n r.
Proof.
  induction 1 as [h gs|h gs1 gi gs2 rest Hne Hcut IH]; intros Hg l n Hl Hn.
  - destruct Hl as [<-|[]]. now left.
  - destruct (groups_ok_app gs1 gi gs2 Hne Hg) as [_ [H2 [_ [H4 _]]]].
    rewrite removelast_app by discriminate. cbn [removelast]. destruct gs2 as [|g2 gs2']; [congruence|].
    destruct Hl as [<-|Hl]; [now left|]. right.
    destruct (IH H2 l n Hl Hn) as [H|[g [r [Hgm R]]]].
    + rewrite nodes_group_expr in H by exact H4. apply in_map_iff in H. destruct H as [r [<- Hr]].
      exists gi, r. split; [apply in_or_app; right; now left|auto].
    + exists g, r. split; [apply in_or_app; right; now right|exact R].
Qed.

(* what ends a line ends the chain, or is a node that starts another line *)
Lemma cut_final h gs lines : cut_of h gs lines -> groups_ok gs = true ->
  forall l x, In l lines -> In x (final_pieces l) ->
  In x (final_pieces (mkChain h gs))
  \/ (exists l2 m, In l2 lines /\ x = [TN m] /\ In m (nodes_e (ch_head l2))).
Proof.
  induction 1 as [h gs|h gs1 gi gs2 rest Hne Hcut IH]; intros Hg l x Hl Hx.
  - destruct Hl as [<-|[]]. now left.
  - destruct (groups_ok_app gs1 gi gs2 Hne Hg) as [_ [H2 [H3 [H4 _]]]].
    destruct Hl as [<-|Hl].
    + right. rewrite final_pieces_snoc in Hx. apply in_map_iff in Hx. destruct Hx as [r [<- Hr]].
      destruct (cut_of_first _ _ _ Hcut) as [l2 [rest' [-> Hh]]].
      exists l2, (r_n r). split; [right; now left|]. split.
      * unfold print_r. now rewrite (proj1 (inner_ok_inv gi r H3 Hr)).
      * rewrite Hh, nodes_group_expr by exact H4. now apply in_map.
    + destruct (IH H2 l x Hl Hx) as [H|[l2 [m [Hl2 R]]]].
      * left. change (gs1 ++ gi :: gs2) with (gs1 ++ [gi] ++ gs2).
        now rewrite app_assoc, (final_pieces_app h (gs1 ++ [gi]) gs2 (group_expr gi) Hne).
      * right. exists l2, m. split; [now right|exact R].
Qed.

Lemma cut_last h gs lines : cut_of h gs lines ->
  exists l, In l lines /\ final_pieces l = final_pieces (mkChain h gs).
Proof.
  induction 1 as [h gs|h gs1 gi gs2 rest Hne Hcut [l [Hl E]]].
  - eexists. split; [now left|reflexivity].
  - exists l. split; [now right|]. rewrite E. change (gs1 ++ gi :: gs2) with (gs1 ++ [gi] ++ gs2).
    rewrite app_assoc. symmetry. now apply final_pieces_app.
Qed.

Lemma presents_lines_ok g ls : (forall c, In c g -> chain_ok c = true) -> presents g ls ->
  forall l, In l ls -> chain_ok l = true.
Proof.
  intros Hok Hp l Hl. destruct (proj2 (presents_parts g ls Hp) l Hl) as [c [p [[Hc [Hcut _]] Hlp]]].
  destruct (chain_ok_parts c (Hok c Hc)). eapply cut_chain_ok; eauto.
Qed.

Lemma presents_trigs g ls : presents g ls ->
  forall x, (exists l, In l ls /\ In x (chain_trigs (ch_head l) (ch_groups l))) <-> In x (graph_trigs g).
Proof.
  intros Hp x. destruct (presents_parts g ls Hp) as [Hcover Hfrom]. unfold graph_trigs. rewrite in_flat_map. split.
  - intros [l [Hl Hx]]. destruct (Hfrom l Hl) as [c [p [[Hc [Hcut _]] Hlp]]].
    exists c. split; [exact Hc|]. rewrite <- (cut_trigs _ _ _ Hcut). apply in_flat_map. eauto.
  - intros [c [Hc Hx]]. destruct (Hcover c Hc) as [p [_ [Hcut Hsub]]].
    rewrite <- (cut_trigs _ _ _ Hcut) in Hx. apply in_flat_map in Hx. destruct Hx as [l [Hl Hx]]. eauto.
Qed.

Lemma in_removelast {A} (l : list A) x : In x (removelast l) -> In x l.
Proof.
  destruct (exists_last_or_nil l) as [->|[l' [y ->]]]; [auto|].
  rewrite removelast_last. intros H. apply in_or_app. now left.
Qed.

Lemma in_last_or {A} (l : list A) x : In x l -> In x (removelast l) \/ exists l', l = l' ++ [x].
Proof.
  destruct (exists_last_or_nil l) as [->|[l' [y ->]]]; [intros []|].
  rewrite removelast_last. intros H. apply in_app_or in H. destruct H as [H|[->|[]]]; eauto.
Qed.

Lemma in_chain_tasks c n :
  In n (chain_tasks c)
  <-> ((exists x, In x (nodes_e (ch_head c)) /\ n_off x = 0 /\ n = n_name x)
       \/ (exists g r, In g (ch_groups c) /\ In r g /\ n = n_name (r_n r))).
Proof.
  unfold chain_tasks. split.
  - intros H. apply in_app_or in H. destruct H as [H|H].
    + apply in_map_iff in H. destruct H as [x [<- Hx]]. apply filter_In in Hx. destruct Hx as [Hx H0].
      apply Nat.eqb_eq in H0. left. eauto.
    + apply in_flat_map in H. destruct H as [g [Hg Hn]]. apply in_map_iff in Hn. destruct Hn as [r [<- Hr]].
      right. eauto.
  - intros [[x [Hx [H0 ->]]]|[g [r [Hg [Hr ->]]]]]; apply in_or_app.
    + left. apply in_map. apply filter_In. split; [exact Hx|now apply Nat.eqb_eq].
    + right. apply in_flat_map. exists g. split; [exact Hg|]. now apply (in_map (fun r => n_name (r_n r))).
Qed.

Lemma presents_tasks g ls : (forall c, In c g -> chain_ok c = true) -> presents g ls ->
  forall n, (exists l, In l ls /\ In n (chain_tasks l)) <-> In n (graph_tasks g).
Proof.
  intros Hok Hp n. destruct (presents_parts g ls Hp) as [Hcover Hfrom]. unfold graph_tasks. rewrite in_flat_map. split.
  - intros [l [Hl Hx]]. destruct (Hfrom l Hl) as [c [p [[Hc [Hcut _]] Hlp]]].
    destruct (chain_ok_parts c (Hok c Hc)) as [_ Hg]. exists c. split; [exact Hc|].
    apply in_chain_tasks. apply in_chain_tasks in Hx. destruct Hx as [[x [Hx R]]|[g0 [r [Hg0 R]]]].
    + destruct (cut_heads _ _ _ Hcut Hg l x Hlp Hx) as [H|[g0 [r [Hg0 [Hr ->]]]]]; [left; eauto|].
      right. exists g0, r. split; [now apply in_removelast|]. split; [exact Hr|apply R].
    + right. exists g0, r. split; [|exact R]. rewrite <- (cut_lines_groups _ _ _ Hcut). apply in_flat_map. eauto.
  - intros [c [Hc Hx]]. destruct (Hcover c Hc) as [p [_ [Hcut Hsub]]].
    apply in_chain_tasks in Hx. destruct Hx as [Hx|[g0 [r [Hg0 R]]]].
    + destruct (cut_of_first _ _ _ Hcut) as [l [rest [-> Hh]]]. exists l. split; [apply Hsub; now left|].
      apply in_chain_tasks. left. now rewrite Hh.
    + rewrite <- (cut_lines_groups _ _ _ Hcut) in Hg0. apply in_flat_map in Hg0. destruct Hg0 as [l [Hl Hg0]].
      exists l. split; [now apply Hsub|]. apply in_chain_tasks. right. eauto.
Qed.

(* optionality: the reference infers ":succeeded" for a plain node unless its
   group ends the chain, the code unless its text ends some line *)
Lemma groups_asserts_snoc : forall gs gl,
  groups_asserts (gs ++ [gl]) = flat_map (flat_map (rnode_asserts true)) gs ++ flat_map (rnode_asserts false) gl.
Proof.
  induction gs as [|g r IH]; intros gl; cbn [app groups_asserts flat_map is_nil negb].
  - apply app_nil_r.
  - rewrite IH, app_assoc. destruct (r ++ [gl]) eqn:E; [destruct r; discriminate|reflexivity].
Qed.

Lemma in_groups_asserts gs a : In a (groups_asserts gs) <->
  exists g r, In r g /\ ((In g (removelast gs) /\ In a (rnode_asserts true r))
                          \/ ((exists gs', gs = gs' ++ [g]) /\ In a (rnode_asserts false r))).
Proof.
  destruct (exists_last_or_nil gs) as [->|[gs' [gl ->]]].
  - split; [intros []|]. intros [g [r [_ [[[] _]|[[gs' E] _]]]]]. destruct gs'; discriminate.
  - rewrite groups_asserts_snoc, removelast_last. split.
    + intros H. apply in_app_or in H. destruct H as [H|H]; apply in_flat_map in H.
      * destruct H as [g [Hg H]]. apply in_flat_map in H. destruct H as [r [Hr H]]. exists g, r. auto.
      * destruct H as [r [Hr H]]. exists gl, r. split; [exact Hr|]. right. eauto.
    + intros [g [r [Hr [[Hg H]|[[gs'' E] H]]]]]; apply in_or_app.
      * left. apply in_flat_map. exists g. split; [exact Hg|]. apply in_flat_map. eauto.
      * apply app_inj_tail in E. destruct E as [_ <-]. right. apply in_flat_map. eauto.
Qed.

Lemma rnode_asserts_mono b r a : In a (rnode_asserts b r) -> In a (rnode_asserts true r).
Proof.
  unfold rnode_asserts. destruct (r_s r); [tauto|]. destruct (n_qual (r_n r)); [tauto|].
  destruct (n_opt (r_n r)); [tauto|]. destruct b; [tauto|intros []].
Qed.

Lemma rnode_asserts_false b r a : In a (rnode_asserts false r) -> In a (rnode_asserts b r).
Proof. destruct b; [apply rnode_asserts_mono|auto]. Qed.

Lemma rnode_asserts_E_cases E r a : In a (rnode_asserts true r) ->
  In a (rnode_asserts_E E r)
  \/ (r_s r = false /\ plain (r_n r) = true /\ mem toks_eqb [TN (r_n r)] E = true
      /\ a = (n_name (r_n r), TASK_OUTPUT_SUCCEEDED, false)).
Proof.
  unfold rnode_asserts_E, rnode_asserts, plain, print_r. destruct (r_s r); [tauto|].
  destruct (n_qual (r_n r)); [tauto|]. destruct (n_opt (r_n r)); [tauto|].
  destruct (mem toks_eqb [TN (r_n r)] E); cbn [negb]; [|tauto]. intros [<-|[]]. right. auto.
Qed.

Lemma head_asserts_plain n : plain n = true ->
  head_node_asserts n = [(n_name n, TASK_OUTPUT_SUCCEEDED, false)].
Proof.
  unfold plain, head_node_asserts, task_out, expand_assert. destruct (n_qual n); [discriminate|].
  intros H. apply negb_true_iff in H. now rewrite H, succeeded_not_finished.
Qed.

(* A plain inner node of g whose text ends some line starts a line: that line
   ends at a cut, or it ends a chain of g and the node is a head node by [eoc_safe]. *)
Lemma ends_line_starts_line g ls c g0 r :
  (forall c, In c g -> chain_ok c = true) -> eoc_safe g = true -> presents g ls ->
  In c g -> In g0 (removelast (ch_groups c)) -> In r g0 -> r_s r = false -> plain (r_n r) = true ->
  (exists l, In l ls /\ In [TN (r_n r)] (final_pieces l)) ->
  exists l2, In l2 ls /\ In (r_n r) (nodes_e (ch_head l2)).
Proof.
  intros Hok Hsafe Hp Hc Hg0 Hr Hs Hpl [l' [Hl' Hx]]. destruct (presents_parts g ls Hp) as [Hcover Hfrom].
  destruct (Hfrom l' Hl') as [c' [p' [[Hc' [Hcut' Hsub']] Hlp']]].
  destruct (chain_ok_parts c' (Hok c' Hc')) as [_ Hg'].
  destruct (cut_final _ _ _ Hcut' Hg' l' _ Hlp' Hx) as [Hf|[l2 [m [Hl2 [[= <-] Hm2]]]]]; [|eauto].
  unfold eoc_safe in Hsafe. rewrite forallb_forall in Hsafe.
  assert (Hi : In (r_n r) (inner_plain_nodes g)).
  { unfold inner_plain_nodes. apply in_flat_map. exists c. split; [exact Hc|].
    apply in_flat_map. exists g0. split; [now rewrite inner_groups_removelast|]. apply in_map. apply filter_In.
    split; [exact Hr|]. now rewrite Hs, Hpl. }
  specialize (Hsafe _ Hi). apply orb_true_iff in Hsafe. destruct Hsafe as [Hsafe|Hsafe].
  - apply negb_true_iff in Hsafe. exfalso.
    assert (Hmem : mem toks_eqb [TN (r_n r)] (flat_map final_pieces g) = true).
    { apply (mem_In toks_eqb toks_eqb_true). apply in_flat_map. exists c'. destruct c'. auto. }
    congruence.
  - apply (mem_In node_eqb node_eqb_true) in Hsafe. apply in_flat_map in Hsafe.
    destruct Hsafe as [c2 [Hc2 Hn2]]. destruct (Hcover c2 Hc2) as [p2 [_ [Hcut2 Hsub2]]].
    destruct (cut_of_first _ _ _ Hcut2) as [l2 [rest2 [-> Hh2]]].
    exists l2. split; [apply Hsub2; now left|now rewrite Hh2].
Qed.

Lemma presents_asserts g ls E :
  (forall c, In c g -> chain_ok c = true) -> eoc_safe g = true -> presents g ls ->
  (forall x, mem toks_eqb x E = true <-> exists l, In l ls /\ In x (final_pieces l)) ->
  forall a, (exists l, In l ls /\ In a (chain_asserts_E E l)) <-> In a (graph_asserts g).
Proof.
  intros Hok Hsafe Hp HE a. destruct (presents_parts g ls Hp) as [Hcover Hfrom].
  unfold graph_asserts. rewrite in_flat_map. split.
  - intros [l [Hl Ha]]. destruct (Hfrom l Hl) as [c [p [[Hc [Hcut Hsub]] Hlp]]].
    destruct (chain_ok_parts c (Hok c Hc)) as [_ Hg]. exists c. split; [exact Hc|].
    apply in_or_app. apply in_app_or in Ha. destruct Ha as [Ha|Ha].
    + (* a node that starts the line *)
      apply in_flat_map in Ha. destruct Ha as [n [Hn Ha]].
      destruct (cut_heads _ _ _ Hcut Hg l n Hlp Hn) as [H|[g0 [r [Hg0 [Hr ->]]]]].
      * left. apply in_flat_map. eauto.
      * right. apply in_groups_asserts. exists g0, r. split; [exact Hr|]. left. split; [exact Hg0|].
        apply groups_ok_spec in Hg. destruct (inner_ok_inv g0 r (proj2 Hg g0 Hg0) Hr) as [Hs _].
        rewrite <- head_asserts_auto in Ha. destruct r as [s n]. cbn in Hs. now subst s.
    + (* a right-hand node of the line *)
      apply in_flat_map in Ha. destruct Ha as [g0 [Hg0 Ha]]. apply in_flat_map in Ha. destruct Ha as [r [Hr Ha]].
      assert (Hin : In g0 (ch_groups c)) by (rewrite <- (cut_lines_groups _ _ _ Hcut); apply in_flat_map; eauto).
      right. apply in_groups_asserts. exists g0, r. split; [exact Hr|].
      destruct (in_last_or _ _ Hin) as [Hi|[gs' Egs]]; [left; split; [exact Hi|]; eapply rnode_asserts_mono; eauto|].
      right. split; [eauto|]. destruct (cut_last _ _ _ Hcut) as [l' [Hl' Ef]].
      assert (Hm : mem toks_eqb (print_r r) E = true).
      { apply HE. exists l'. split; [now apply Hsub|]. rewrite Ef, Egs, final_pieces_snoc. now apply in_map. }
      unfold rnode_asserts_E in Ha. now rewrite Hm in Ha.
  - intros [c [Hc Ha]]. destruct (Hcover c Hc) as [p [_ [Hcut Hsub]]].
    destruct (chain_ok_parts c (Hok c Hc)) as [_ Hg].
    apply in_app_or in Ha. destruct Ha as [Ha|Ha].
    + destruct (cut_of_first _ _ _ Hcut) as [l [rest [-> Hh]]]. exists l. split; [apply Hsub; now left|].
      apply in_or_app. left. now rewrite Hh.
    + apply in_groups_asserts in Ha. destruct Ha as [g0 [r [Hr Ha]]].
      assert (Hl : In g0 (ch_groups c) -> forall a', In a' (rnode_asserts_E E r) ->
                   exists l, In l ls /\ In a' (chain_asserts_E E l)).
      { intros Hin a' Ha'. rewrite <- (cut_lines_groups _ _ _ Hcut) in Hin. apply in_flat_map in Hin.
        destruct Hin as [l [Hl Hin]]. exists l. split; [now apply Hsub|].
        apply in_or_app. right. apply in_flat_map. exists g0. split; [exact Hin|]. apply in_flat_map. eauto. }
      destruct Ha as [[Hi Ha]|[[gs' Egs] Ha]].
      2:{ apply Hl; [rewrite Egs; apply in_or_app; right; now left|now apply rnode_asserts_false]. }
      destruct (rnode_asserts_E_cases E r a Ha) as [H|[Hs [Hpl [Hm ->]]]]; [apply Hl; [now apply in_removelast|exact H]|].
      (* the inferred ":succeeded" of a plain inner node whose text ends some line *)
      destruct (ends_line_starts_line g ls c g0 r Hok Hsafe Hp Hc Hi Hr Hs Hpl (proj1 (HE _) Hm)) as [l2 [Hl2 Hn2]].
      exists l2. split; [exact Hl2|].
      apply in_or_app. left. apply in_flat_map. exists (r_n r). split; [exact Hn2|].
      rewrite (head_asserts_plain _ Hpl). now left.
Qed.

Definition graph_facts (g : graph) : list fact :=
  facts_of (graph_tasks g) (graph_trigs g) (graph_asserts g).

Lemma in_graph_facts g x : In x (graph_facts g) <->
  match x with
  | FTask n => In n (graph_tasks g) | FTrig t => In t (graph_trigs g) | FOpt a => In a (graph_asserts g)
  end.
Proof. apply in_facts_of. Qed.

Theorem presents_facts g ls E :
  (forall c, In c g -> chain_ok c = true) -> eoc_safe g = true -> presents g ls ->
  (forall x, mem toks_eqb x E = true <-> exists l, In l ls /\ In x (final_pieces l)) ->
  forall x, (exists l, In l ls /\ In x (line_facts E l)) <-> In x (graph_facts g).
Proof.
  intros Hok Hsafe Hp HE x. rewrite in_graph_facts.
  destruct x as [n|t|a];
    [rewrite <- (presents_tasks g ls Hok Hp n)|rewrite <- (presents_trigs g ls Hp t)
     |rewrite <- (presents_asserts g ls E Hok Hsafe Hp HE a)];
    split; intros [l [Hl H]]; exists l; (split; [exact Hl|]);
    first [now apply in_facts_of|now apply in_facts_of in H].
Qed.
