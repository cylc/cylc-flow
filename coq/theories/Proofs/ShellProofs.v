(* Proofs/ShellProofs.v — lemmas about Model/Shell.v: what bash's double-quote evaluator [dq]
   makes of the words [definition] writes.  Vocabulary of C41: [plain_str], [tilde_start],
   [valid_name], [stop_char], [home_of]. *)
From Coq Require Import List BinInt Bool Lia ZifyBool.
From Cylc Require Import Base.Util Model.Shell.
Import ListNotations.
Open Scope Z_scope.

(* none of the characters that are special inside double quotes *)
Definition plain_char (c : Z) : bool :=
  negb ((c =? c_dollar) || (c =? c_bt) || (c =? c_bs) || (c =? c_dq)).
Definition plain_str (v : str) : bool := forallb plain_char v.
Definition tilde_start (v : str) : bool :=
  match v with c :: _ => c =? c_tilde | [] => false end.
(* a character that ends the tilde run of _get_variable_value_definition *)
Definition stop_char (c : Z) : bool := (c =? c_slash) || is_space c.
Definition valid_name (x : str) : bool :=
  match x with c :: r => name_start c && forallb name_char r | [] => false end.

Lemma rmap_rmap {A B C} (f : A -> B) (g : B -> C) r : rmap g (rmap f r) = rmap (fun a => g (f a)) r.
Proof. destruct r; reflexivity. Qed.

Lemma dq_plain_cons e c s :
  plain_char c = true -> dq e Plain (c :: s) = rmap (cons c) (dq e Plain s).
Proof.
  unfold plain_char. intros H. cbn [dq].
  destruct (c =? c_bs) eqn:E1; [cbn in H; rewrite ?orb_true_r in H; discriminate|].
  destruct (c =? c_dollar) eqn:E2; [discriminate|].
  destruct (c =? c_bt) eqn:E3; [discriminate|].
  destruct (c =? c_dq) eqn:E4; [cbn in H; discriminate|]. reflexivity.
Qed.

Lemma dq_plain_app e a s :
  plain_str a = true -> dq e Plain (a ++ s) = rmap (app a) (dq e Plain s).
Proof.
  induction a as [|c a IH]; cbn [plain_str forallb app]; intros H.
  - destruct (dq e Plain s); reflexivity.
  - apply andb_true_iff in H. destruct H as [Hc Ha].
    rewrite dq_plain_cons by exact Hc. rewrite IH by exact Ha.
    rewrite rmap_rmap. reflexivity.
Qed.

Lemma dq_plain e v : plain_str v = true -> dq e Plain v = Ok v.
Proof.
  intros H. pose proof (dq_plain_app e v [] H) as E. rewrite app_nil_r in E.
  rewrite E. cbn. now rewrite app_nil_r.
Qed.

Lemma name_char_not_rbrace c : name_char c = true -> (c =? c_rbrace) = false.
Proof. unfold name_char, is_alpha_us, is_digit, c_rbrace. lia. Qed.

Lemma name_start_char c : name_start c = true -> name_char c = true.
Proof. unfold name_start, name_char. intros ->. reflexivity. Qed.

Lemma dq_brace_rest e r : forall acc s,
  acc <> [] -> forallb name_char r = true ->
  dq e (Brace acc) (r ++ c_rbrace :: s) = rmap (app (lookup e (acc ++ r))) (dq e Plain s).
Proof.
  induction r as [|c r IH]; intros acc s Hacc Hr.
  - cbn [app dq]. rewrite Z.eqb_refl. rewrite app_nil_r. destruct acc; [congruence|reflexivity].
  - cbn [forallb] in Hr. apply andb_true_iff in Hr. destruct Hr as [Hc Hr].
    cbn [app dq]. rewrite (name_char_not_rbrace c Hc).
    destruct acc as [|a0 acc0]; [congruence|]. rewrite Hc.
    rewrite IH; [|destruct acc0; discriminate|exact Hr].
    rewrite <- app_assoc. reflexivity.
Qed.

Lemma dq_dollar_lbrace e s : dq e Plain (c_dollar :: c_lbrace :: s) = dq e (Brace []) s.
Proof. reflexivity. Qed.

Lemma dq_brace_ref e x s :
  valid_name x = true ->
  dq e Plain (c_dollar :: c_lbrace :: x ++ c_rbrace :: s) = rmap (app (lookup e x)) (dq e Plain s).
Proof.
  destruct x as [|c r]; [discriminate|]. cbn [valid_name]. intros H.
  apply andb_true_iff in H. destruct H as [Hc Hr].
  rewrite dq_dollar_lbrace. cbn [dq app].
  rewrite (name_char_not_rbrace c (name_start_char c Hc)). rewrite Hc.
  now rewrite (dq_brace_rest e r [c] s) by (try discriminate; exact Hr).
Qed.

Lemma definition_not_tilde v : tilde_start v = false -> definition v = WQuoted v.
Proof. destruct v as [|c r]; [reflexivity|]. cbn. intros ->. reflexivity. Qed.

Lemma split_run_nostop run : forall rest,
  forallb (fun c => negb (stop_char c)) run = true ->
  split_run (run ++ rest) =
  (let '(r2, st) := split_run rest in (run ++ r2, st)).
Proof.
  induction run as [|c run IH]; intros rest H; cbn [app].
  - destruct (split_run rest). reflexivity.
  - cbn [forallb] in H. apply andb_true_iff in H. destruct H as [Hc Hr].
    cbn [split_run]. unfold stop_char in Hc. apply negb_true_iff in Hc. rewrite Hc.
    rewrite IH by exact Hr. destruct (split_run rest). reflexivity.
Qed.

Lemma login_char_nostop c : login_char c = true -> negb (stop_char c) = true.
Proof.
  unfold login_char, name_char, is_alpha_us, is_digit, stop_char, is_space, c_slash. lia.
Qed.

Lemma safe_login_nostop run :
  safe_login run = true -> forallb (fun c => negb (stop_char c)) run = true.
Proof.
  destruct run as [|c r]; [discriminate|]. cbn [safe_login forallb]. intros H.
  apply andb_true_iff in H. destruct H as [Hc Hr]. apply andb_true_iff. split.
  - apply login_char_nostop. unfold login_char. rewrite (name_start_char c Hc). reflexivity.
  - exact (forallb_impl _ _ r login_char_nostop Hr).
Qed.

Lemma definition_tilde_slash run tail :
  forallb (fun c => negb (stop_char c)) run = true -> has_nl tail = false ->
  definition (c_tilde :: run ++ c_slash :: tail) = WTildeSlash run tail.
Proof.
  intros Hr Hn. cbn [definition]. rewrite Z.eqb_refl.
  rewrite split_run_nostop by exact Hr. cbn [split_run]. rewrite Z.eqb_refl. cbn [orb].
  rewrite app_nil_r. rewrite Z.eqb_refl. rewrite Hn. reflexivity.
Qed.

Lemma definition_tilde_only run :
  forallb (fun c => negb (stop_char c)) run = true ->
  definition (c_tilde :: run) = WTildeOnly run false.
Proof.
  intros Hr. cbn [definition]. rewrite Z.eqb_refl.
  pose proof (split_run_nostop run [] Hr) as E. rewrite app_nil_r in E.
  rewrite E. cbn. now rewrite app_nil_r.
Qed.

Lemma definition_tilde_space run d rest :
  forallb (fun c => negb (stop_char c)) run = true -> is_space d = true -> rest <> [] ->
  definition (c_tilde :: run ++ d :: rest) = WQuoted (c_tilde :: run ++ d :: rest).
Proof.
  intros Hr Hd Hne. cbn [definition]. rewrite Z.eqb_refl.
  rewrite split_run_nostop by exact Hr. cbn [split_run]. rewrite Hd, orb_true_r.
  rewrite app_nil_r.
  destruct (Z.eqb_spec d c_slash) as [->|_]; [vm_compute in Hd; discriminate Hd|].
  destruct rest; [congruence|reflexivity].
Qed.

Lemma eval_literal e users v :
  plain_str v = true -> tilde_start v = false ->
  definition v = WQuoted v /\ eval_word e users (definition v) = Ok v.
Proof.
  intros Hp Ht. rewrite (definition_not_tilde v Ht). split; [reflexivity|].
  cbn. now apply dq_plain.
Qed.

Definition home_of (users : list (str * str)) (run : str) : str :=
  match assoc str_eqb run users with Some h => h | None => c_tilde :: run end.

Lemma tilde_expand_login e users run :
  safe_login run = true -> tilde_expand e users run = Ok (home_of users run).
Proof. unfold tilde_expand, home_of. destruct run; [discriminate|]. intros ->. reflexivity. Qed.

Lemma tilde_expand_home e users h :
  assoc str_eqb s_HOME e = Some h -> tilde_expand e users [] = Ok h.
Proof. unfold tilde_expand. intros ->. reflexivity. Qed.

Lemma run_assignments_app e users a1 a2 :
  run_assignments e users (a1 ++ a2) =
  rbind (run_assignments e users a1) (fun e' => run_assignments e' users a2).
Proof.
  revert e; induction a1 as [|[n w] a1 IH]; intros e; cbn; [reflexivity|].
  destruct (eval_word e users w); [apply IH|reflexivity].
Qed.

Lemma run_section_app e users c1 c2 :
  run_section e users (c1 ++ c2) =
  rbind (run_section e users c1) (fun e' => run_section e' users c2).
Proof. unfold run_section, assignments. rewrite map_app. apply run_assignments_app. Qed.

Lemma lookup_update_same e n v : lookup (update e n v) n = v.
Proof.
  unfold lookup, update. cbn. assert (str_eqb n n = true) as -> by (apply list_eqb_Z_eq; reflexivity).
  reflexivity.
Qed.

Lemma lookup_update_other e n v x : x <> n -> lookup (update e n v) x = lookup e x.
Proof.
  intros H. unfold lookup, update. cbn. destruct (str_eqb x n) eqn:E; [|reflexivity].
  apply list_eqb_Z_eq in E. congruence.
Qed.

Lemma run_assignments_keeps e users a : forall e' x,
  run_assignments e users a = Ok e' -> ~ In x (map fst a) -> lookup e' x = lookup e x.
Proof.
  revert e; induction a as [|[n w] a IH]; intros e e' x; cbn.
  - intros [= <-] _. reflexivity.
  - destruct (eval_word e users w) as [v|]; [|discriminate]. intros H Hx.
    rewrite (IH _ _ _ H) by (intros Hin; apply Hx; now right).
    apply lookup_update_other. intros ->. apply Hx. now left.
Qed.

Lemma later_refers_earlier e users pre mid x vx y a b e2 :
  plain_str vx = true -> tilde_start vx = false ->
  plain_str a = true -> tilde_start a = false -> plain_str b = true ->
  valid_name x = true ->
  ~ In x (map fst mid) ->
  run_section e users (pre ++ (x, vx) :: mid) = Ok e2 ->
  run_section e users
    (pre ++ (x, vx) :: mid ++ [(y, a ++ c_dollar :: c_lbrace :: x ++ c_rbrace :: b)]) =
  Ok (update e2 y (a ++ vx ++ b)).
Proof.
  intros Hvx Htx Ha Hta Hb Hx Hmid Hrun.
  replace (pre ++ (x, vx) :: mid ++ [(y, a ++ c_dollar :: c_lbrace :: x ++ c_rbrace :: b)])
    with ((pre ++ (x, vx) :: mid) ++ [(y, a ++ c_dollar :: c_lbrace :: x ++ c_rbrace :: b)])
    by (rewrite <- app_assoc; reflexivity).
  rewrite run_section_app, Hrun. cbn [rbind].
  (* the value x had when y is evaluated *)
  assert (Hlx : lookup e2 x = vx).
  { rewrite run_section_app in Hrun.
    destruct (run_section e users pre) as [e1|] eqn:E1; [|discriminate]. cbn [rbind] in Hrun.
    unfold run_section, assignments in Hrun. cbn [map run_assignments fst snd] in Hrun.
    destruct (eval_literal e1 users vx Hvx Htx) as [_ Hev]. rewrite Hev in Hrun.
    rewrite (run_assignments_keeps _ _ _ _ x Hrun).
    - apply lookup_update_same.
    - rewrite map_map. cbn [fst]. exact Hmid. }
  unfold run_section, assignments. cbn [map run_assignments fst snd].
  assert (Hd : definition (a ++ c_dollar :: c_lbrace :: x ++ c_rbrace :: b) =
               WQuoted (a ++ c_dollar :: c_lbrace :: x ++ c_rbrace :: b)).
  { apply definition_not_tilde. destruct a as [|c a']; [reflexivity|exact Hta]. }
  rewrite Hd. cbn [eval_word].
  rewrite dq_plain_app by exact Ha. rewrite dq_brace_ref by exact Hx.
  rewrite (dq_plain e2 b Hb). cbn [rmap]. rewrite Hlx. reflexivity.
Qed.
