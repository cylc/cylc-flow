(* Proofs/InstallProofs.v — lemmas for C48 over Model/Install.v.
   One case lemma ([step_cases]) says what a step does to the run numbers and
   to runN: it creates run [next_num s], or it [shrinks].  The invariant [inv],
   [linked] and the behaviour of the maximum are read off it. *)
From Coq Require Import List NArith Bool Arith.
From Cylc Require Import Base.Util Model.Install.
Import ListNotations.
Open Scope N_scope.

(* [maxnum s] is [lmax (nums s)] by definition: the lemmas below apply to it by conversion *)
Definition lmax (l : list N) : N := fold_right N.max 0 l.

Lemma lmax_ge : forall l k, In k l -> k <= lmax l.
Proof.
  induction l as [|x l IH]; intros k H; [destruct H|].
  change (lmax (x :: l)) with (N.max x (lmax l)).
  destruct H as [->|H]; [apply N.le_max_l|].
  exact (N.le_trans _ _ _ (IH k H) (N.le_max_r _ _)).
Qed.

Lemma lmax_in : forall l, l <> [] -> In (lmax l) l.
Proof.
  induction l as [|x l IH]; intros H; [congruence|].
  change (lmax (x :: l)) with (N.max x (lmax l)). destruct l as [|y l'].
  - left. symmetry. apply N.max_l, N.le_0_l.
  - assert (G : In (lmax (y :: l')) (y :: l')) by (apply IH; discriminate).
    destruct (N.max_spec x (lmax (y :: l'))) as [[_ E]|[_ E]]; rewrite E; [right; exact G|left; reflexivity].
Qed.

Lemma lmax_unique : forall l m, (forall k, In k l -> k <= m) -> In m l -> lmax l = m.
Proof.
  intros l m Hle Hin. apply N.le_antisymm.
  - destruct l as [|x l']; [destruct Hin|]. apply Hle. apply lmax_in. discriminate.
  - apply lmax_ge. exact Hin.
Qed.

(* a part of the list that still holds its maximum has the same maximum *)
Lemma lmax_incl : forall l l', incl l' l -> (l <> [] -> In (lmax l) l') -> lmax l' = lmax l.
Proof.
  intros l l' Hi Hm. destruct l as [|x l].
  - apply incl_l_nil in Hi. rewrite Hi. reflexivity.
  - apply lmax_unique; [|apply Hm; discriminate]. intros k Hk. apply lmax_ge, Hi, Hk.
Qed.

Lemma has_num_In : forall s k, has_num s k = true <-> In k (nums s).
Proof. intros s k. apply mem_In, N.eqb_eq. Qed.

Lemma has_num_false : forall s k, has_num s k = false <-> ~ In k (nums s).
Proof. intros s k. apply mem_false, N.eqb_eq. Qed.

Lemma In_remove_pair : forall k l (e : N * nat),
  In e (remove_key N.eqb k l) <-> In e l /\ fst e <> k.
Proof.
  intros k l e. unfold remove_key. rewrite filter_In, negb_true_iff, N.eqb_neq. reflexivity.
Qed.

Lemma In_remove : forall k l x,
  In x (map fst (remove_key N.eqb k l)) <-> In x (map fst l) /\ x <> k.
Proof.
  intros k l x. rewrite !in_map_iff. split.
  - intros (e & <- & H). apply In_remove_pair in H. destruct H. eauto.
  - intros [(e & <- & H) Hk]. exists e. rewrite In_remove_pair. auto.
Qed.

Lemma fst_restamp {K} (eqb : K -> K -> bool) : (forall a b, eqb a b = true -> a = b) ->
  forall k c l, map fst (restamp eqb k c l) = map fst l.
Proof.
  intros Heq k c l. unfold restamp. rewrite map_map. apply map_ext. intros e.
  destruct (eqb (fst e) k) eqn:E; [symmetry; apply Heq, E|reflexivity].
Qed.

Lemma names_restamp : forall j c l, map fst (restamp Nat.eqb j c l) = map fst l.
Proof. apply fst_restamp. intros a b. apply Nat.eqb_eq. Qed.

Arguments has_num : simpl never.
Arguments has_name : simpl never.
Arguments next_num : simpl never.
Arguments finish_install : simpl never.
Arguments tidy : simpl never.
Arguments clean_num : simpl never.
Arguments maxnum : simpl never.
Arguments dir_exists : simpl never.

(* a runN link whose target exists points at the highest numbered run *)
Definition inv (s : st) : Prop :=
  forall t, runN s = Some t -> In t (nums s) -> forall k, In k (nums s) -> k <= t.

(* runN never dangles *)
Definition linked (s : st) : Prop := forall t, runN s = Some t -> In t (nums s).

Lemma inv_empty : inv empty.
Proof. intros t H. discriminate. Qed.

Lemma linked_empty : linked empty.
Proof. intros t H. discriminate. Qed.

(* get_next_rundir_number: one above the largest run number, hence above all ([next_above]) and fresh ([next_fresh]) *)
Lemma next_num_eq : forall s, inv s -> next_num s = N.succ (maxnum s).
Proof.
  intros s I. unfold next_num. destruct (runN s) as [t|] eqn:R; [|reflexivity].
  destruct (has_num s t) eqn:H; [|reflexivity].
  apply has_num_In in H. f_equal. symmetry. apply lmax_unique; [apply (I t R H)|exact H].
Qed.

Lemma next_above : forall s, inv s -> forall k, In k (nums s) -> k < next_num s.
Proof.
  intros s I k H. rewrite (next_num_eq s I). apply N.lt_succ_r, lmax_ge, H.
Qed.

Lemma next_fresh : forall s, inv s -> ~ In (next_num s) (nums s).
Proof. intros s I H. exact (N.lt_irrefl _ (next_above s I _ H)). Qed.

(* finish_install only touches the source link, tidy only resets an already
   empty directory *)
Lemma finish_install_all : forall s src,
  let s' := fst (finish_install s src) in
  numbered s' = numbered s /\ runN s' = runN s /\ named s' = named s /\ flat s' = flat s.
Proof.
  intros s src. unfold finish_install. destruct (source s) as [s0|]; [destruct (Nat.eqb s0 src)|]; cbn; auto.
Qed.

Lemma finish_install_eq : forall s src s1 e, finish_install s src = (s1, e) ->
  numbered s1 = numbered s /\ runN s1 = runN s /\ named s1 = named s /\ flat s1 = flat s.
Proof. intros s src s1 e E. pose proof (finish_install_all s src) as F. rewrite E in F. exact F. Qed.

Lemma finish_install_ok_or_source : forall s src,
  snd (finish_install s src) = Ok \/ snd (finish_install s src) = ESource.
Proof.
  intros s src. unfold finish_install. destruct (source s) as [s0|]; [destruct (Nat.eqb s0 src)|]; cbn; auto.
Qed.

Lemma tidy_fields : forall s, numbered (tidy s) = numbered s /\ runN (tidy s) = runN s.
Proof.
  intros s. unfold tidy. destruct (numbered s) eqn:E1, (runN s) eqn:E2; cbn [is_nil is_some negb andb]; auto.
  destruct (_ && _); auto.
Qed.

Lemma clean_num_fields : forall s k, has_num s k = true ->
  numbered (clean_num s k) = remove_key N.eqb k (numbered s) /\
  runN (clean_num s k) = match runN s with
                         | Some t => if N.eqb t k then None else Some t
                         | None => None
                         end.
Proof. intros s k H. unfold clean_num. rewrite H. apply tidy_fields. Qed.

(* the three guards of [install] in one place: it fails on one of them and
   leaves the run dirs alone, or creates run [next_num s] and links runN to it *)
Lemma install_cases : forall s src c,
  let s' := fst (install s src c) in
  let e := snd (install s src c) in
  named s' = named s /\ flat s' = flat s /\
  ((created s (Install src c) = None /\ (e = ENamedExist \/ e = ENested \/ e = EExists) /\
    numbered s' = numbered s /\ (runN s' = runN s \/ runN s' = None)) \/
   (created s (Install src c) = Some (next_num s) /\ has_num s (next_num s) = false /\
    numbered s' = numbered s ++ [(next_num s, c)] /\ runN s' = Some (next_num s))).
Proof.
  intros s src c. destruct (install s src c) as [s1 e] eqn:E. cbn [fst snd].
  unfold install in E. unfold created.
  destruct (is_nil (named s)); cbn in *; [|injection E as <- <-; auto 9].
  change (has_num (set_runN s None) (next_num s)) with (has_num s (next_num s)) in E.
  destruct (is_some (flat s)); cbn in *; [injection E as <- <-; auto 9|].
  destruct (has_num s (next_num s)) eqn:H; cbn in *; [injection E as <- <-; auto 9|].
  apply finish_install_eq in E. cbn in E. destruct E as (-> & -> & -> & ->). auto 7.
Qed.

Lemma install_named_fields : forall s j src c,
  let s' := fst (install_named s j src c) in
  numbered s' = numbered s /\ runN s' = runN s /\ flat s' = flat s /\
  (named s' = named s \/ named s' = named s ++ [(j, c)]).
Proof.
  intros s j src c. unfold install_named.
  destruct (reserved_name j); [cbn; auto|].
  destruct (negb (is_nil (numbered s))); [cbn; auto|].
  destruct (is_some (flat s)); [cbn; auto|].
  destruct (has_name s j); [cbn; auto|].
  set (x := Build_st _ _ _ _ _). destruct (finish_install_all x src) as (-> & -> & -> & ->).
  cbn. auto.
Qed.

Lemma install_flat_fields : forall s src c,
  let s' := fst (install_flat s src c) in
  numbered s' = numbered s /\ runN s' = runN s /\ named s' = named s /\
  (flat s' = flat s \/ flat s = None).
Proof.
  intros s src c. unfold install_flat. destruct (dir_exists s) eqn:D; [cbn; auto|].
  set (x := Build_st _ _ _ _ _). destruct (finish_install_all x src) as (-> & -> & -> & _).
  repeat split. right.
  unfold dir_exists in D. destruct (flat s); [|reflexivity].
  cbn in D. rewrite !orb_true_r in D. discriminate.
Qed.

Lemma reinstall_fields : forall s t c,
  nums (fst (reinstall s t c)) = nums s /\ runN (fst (reinstall s t c)) = runN s.
Proof.
  intros s t c. unfold reinstall, nums. destruct t as [k|j| |]; cbn.
  - destruct (negb (has_num s k)); [auto|]. destruct (is_some (flat s)); cbn; [auto|].
    rewrite fst_restamp; [auto|]. intros a b. apply N.eqb_eq.
  - destruct (negb (has_name s j)); [auto|]. destruct (is_some (flat s)); cbn; auto.
  - auto.
  - destruct (flat s); cbn; auto.
Qed.

Definition manual_rm (o : op) : bool := match o with RmRun _ => true | _ => false end.

(* the operation removes the currently highest numbered run *)
Definition removes_top (s : st) (o : op) : bool :=
  match o with
  | Clean (TNum k) | RmRun k => negb (is_nil (numbered s)) && N.eqb k (maxnum s)
  | Clean TRunN => match runN s with Some t => has_num s t | None => false end
  | Clean TAll => negb (is_nil (numbered s))
  | _ => false
  end.

(* [s'] has some of the numbered runs of [s] and the same runN or none; unless
   [o] is a removal by hand an existing target of runN survives, and unless [o]
   removes the highest run that one survives *)
Definition shrinks (s : st) (o : op) (s' : st) : Prop :=
  incl (nums s') (nums s) /\
  (runN s' = runN s \/ runN s' = None) /\
  (manual_rm o = false -> forall t, runN s' = Some t -> In t (nums s) -> In t (nums s')) /\
  (removes_top s o = false -> nums s <> [] -> In (maxnum s) (nums s')).

Lemma shrinks_keep : forall s o s',
  nums s' = nums s -> runN s' = runN s \/ runN s' = None -> shrinks s o s'.
Proof.
  intros s o s' E R. unfold shrinks. rewrite E. split; [apply incl_refl|]. split; [exact R|].
  split; [auto|]. intros _. apply lmax_in.
Qed.

Lemma shrinks_remove : forall s o s' k,
  numbered s' = remove_key N.eqb k (numbered s) ->
  runN s' = runN s \/ runN s' = None ->
  (manual_rm o = false -> runN s' <> Some k) ->
  (removes_top s o = false -> nums s <> [] -> k <> maxnum s) ->
  shrinks s o s'.
Proof.
  intros s o s' k E R M T.
  assert (K : forall x, In x (nums s') <-> In x (nums s) /\ x <> k).
  { intros x. unfold nums. rewrite E. apply In_remove. }
  split; [|split; [exact R|split]].
  - intros x Hx. apply K in Hx. apply Hx.
  - intros Hm t Rt Ht. apply K. split; [exact Ht|]. intros ->. exact (M Hm Rt).
  - intros Ht Hn. apply K. split; [apply lmax_in; exact Hn|]. intros E'. exact (T Ht Hn (eq_sym E')).
Qed.

Lemma not_top : forall s k,
  negb (is_nil (numbered s)) && N.eqb k (maxnum s) = false -> nums s <> [] -> k <> maxnum s.
Proof.
  intros s k H Hn. unfold nums in Hn. destruct (numbered s); [destruct Hn; reflexivity|]. apply N.eqb_neq. exact H.
Qed.

Lemma shrinks_clean_num : forall s o k,
  (removes_top s o = false -> nums s <> [] -> k <> maxnum s) -> shrinks s o (clean_num s k).
Proof.
  intros s o k T. destruct (has_num s k) eqn:H.
  2:{ unfold clean_num. rewrite H. apply shrinks_keep; auto. }
  destruct (clean_num_fields s k H) as [E R]. apply (shrinks_remove s o _ k E); [| |exact T]; rewrite R.
  - destruct (runN s) as [t|]; [destruct (N.eqb t k)|]; auto.
  - intros _. destruct (runN s) as [t|]; [|discriminate]. destruct (N.eqb_spec t k); congruence.
Qed.

Lemma step_cases : forall s o,
  (created s o = None /\ shrinks s o (fst (step s o))) \/
  (created s o = Some (next_num s) /\ has_num s (next_num s) = false /\
   runN (fst (step s o)) = Some (next_num s) /\
   exists c, numbered (fst (step s o)) = numbered s ++ [(next_num s, c)]).
Proof.
  intros s o. destruct o as [src c|j src c|src c|t c|t| |k]; cbn [step fst].
  - destruct (install_cases s src c) as (_ & _ & [(C & _ & E & R)|(C & H & E & R)]).
    + left. split; [exact C|]. apply shrinks_keep; [exact (f_equal (map fst) E)|exact R].
    + right. eauto.
  - left. split; [reflexivity|]. destruct (install_named_fields s j src c) as (E & R & _).
    apply shrinks_keep; [exact (f_equal (map fst) E)|left; exact R].
  - left. split; [reflexivity|]. destruct (install_flat_fields s src c) as (E & R & _).
    apply shrinks_keep; [exact (f_equal (map fst) E)|left; exact R].
  - left. split; [reflexivity|]. destruct (reinstall_fields s t c) as (E & R).
    apply shrinks_keep; [exact E|left; exact R].
  - left. split; [reflexivity|]. destruct t as [k|j| |]; cbn [clean].
    + apply shrinks_clean_num. apply not_top.
    + destruct (has_name s j); [|apply shrinks_keep; auto].
      set (x := Build_st _ _ _ _ _). destruct (tidy_fields x) as [E R].
      apply shrinks_keep; [exact (f_equal (map fst) E)|left; exact R].
    + destruct (runN s) as [t|] eqn:R; [|apply shrinks_keep; auto].
      destruct (has_num s t) eqn:H; [|apply shrinks_keep; auto].
      apply shrinks_clean_num. cbn [removes_top]. rewrite R, H. discriminate.
    + split; [intros x []|]. split; [right; reflexivity|]. split; [discriminate|].
      unfold nums. cbn [removes_top]. destruct (numbered s); [intros _ []; reflexivity|discriminate].
  - left. split; [reflexivity|]. apply shrinks_keep; auto.
  - left. split; [reflexivity|].
    apply (shrinks_remove s _ _ k); [reflexivity|left; reflexivity|discriminate|apply not_top].
Qed.

Lemma inv_step : forall s o, inv s -> inv (fst (step s o)).
Proof.
  intros s o I t Rt Ht j Hj. destruct (step_cases s o) as [(_ & Hi & R & _)|(_ & _ & R & c & E)].
  - destruct R as [R|R]; rewrite R in Rt; [|discriminate]. apply (I t Rt); apply Hi; assumption.
  - rewrite R in Rt. injection Rt as <-. unfold nums in Hj. rewrite E, map_app in Hj.
    apply in_app_or in Hj. destruct Hj as [Hj|[<-|[]]]; [|reflexivity].
    apply N.lt_le_incl, next_above; assumption.
Qed.

Lemma inv_run : forall ops s, inv s -> inv (run s ops).
Proof.
  induction ops as [|o r IH]; intros s I; [exact I|]. cbn. apply IH. apply inv_step. exact I.
Qed.

(* runN never dangles unless a run dir is removed by hand *)
Lemma linked_step : forall s o, manual_rm o = false -> linked s -> linked (fst (step s o)).
Proof.
  intros s o M L t Rt. destruct (step_cases s o) as [(_ & _ & R & K & _)|(_ & _ & R & c & E)].
  - apply (K M t Rt). apply L. destruct R as [R|R]; rewrite R in Rt; [exact Rt|discriminate].
  - rewrite R in Rt. injection Rt as <-. unfold nums. rewrite E, map_app.
    apply in_or_app. right. left. reflexivity.
Qed.

Lemma linked_run : forall ops s,
  forallb (fun o => negb (manual_rm o)) ops = true -> linked s -> linked (run s ops).
Proof.
  induction ops as [|o r IH]; intros s F L; [exact L|]. cbn in *.
  apply andb_prop in F. destruct F as [F1 F2]. apply IH; [exact F2|].
  apply linked_step; [|exact L]. apply negb_true_iff. exact F1.
Qed.

Lemma created_spec : forall s o k, created s o = Some k ->
  k = next_num s /\ ~ In k (nums s) /\
  runN (fst (step s o)) = Some k /\
  (exists c, numbered (fst (step s o)) = numbered s ++ [(k, c)]).
Proof.
  intros s o k H. destruct (step_cases s o) as [(C & _)|(C & Hf & R)]; rewrite C in H; [discriminate|].
  injection H as <-. apply has_num_false in Hf. auto.
Qed.

(* no install overwrites or removes an existing run dir (any state) *)
Definition is_install (o : op) : bool :=
  match o with Install _ _ | InstallNamed _ _ _ | InstallFlat _ _ => true | _ => false end.

Lemma install_keeps : forall s o, is_install o = true ->
  let s' := fst (step s o) in
  (numbered s' = numbered s \/
   exists k c, numbered s' = numbered s ++ [(k, c)] /\ ~ In k (nums s)) /\
  (named s' = named s \/ exists e, named s' = named s ++ [e]) /\
  (flat s' = flat s \/ flat s = None).
Proof.
  intros s o Hi. destruct o as [src c|j src c|src c| | | | ]; try discriminate; cbn [step fst].
  - destruct (install_cases s src c) as (E3 & E4 & [(_ & _ & E1 & _)|(_ & H & E1 & _)]).
    + auto.
    + apply has_num_false in H. split; [right; exists (next_num s), c|]; auto.
  - destruct (install_named_fields s j src c) as (E1 & _ & E4 & E3).
    split; [auto|split; [|auto]]. destruct E3; eauto.
  - destruct (install_flat_fields s src c) as (E1 & _ & E3 & E4). auto.
Qed.

(* numbers are never re-used while the highest run is never removed *)
Fixpoint safe (s : st) (ops : list op) : bool :=
  match ops with
  | [] => true
  | o :: r => negb (removes_top s o) && safe (fst (step s o)) r
  end.

Fixpoint created_list (s : st) (ops : list op) : list N :=
  match ops with
  | [] => []
  | o :: r => match created s o with Some k => [k] | None => [] end
              ++ created_list (fst (step s o)) r
  end.

Fixpoint increasing_from (b : N) (l : list N) : Prop :=
  match l with
  | [] => True
  | k :: r => b < k /\ increasing_from k r
  end.

(* a created run becomes the highest; a safe step that creates nothing does
   not lower the highest number *)
Lemma step_max : forall s o, inv s -> removes_top s o = false ->
  match created s o with
  | Some k => maxnum s < k /\ maxnum (fst (step s o)) = k
  | None => maxnum (fst (step s o)) = maxnum s
  end.
Proof.
  intros s o I S. destruct (step_cases s o) as [(-> & Hi & _ & _ & T)|(-> & _ & _ & c & E)].
  - apply lmax_incl; [exact Hi|exact (T S)].
  - split; [rewrite (next_num_eq s I); apply N.lt_succ_diag_r|].
    unfold maxnum, nums. rewrite E, map_app. apply lmax_unique.
    + intros j Hj. apply in_app_or in Hj. destruct Hj as [Hj|[<-|[]]]; [|reflexivity].
      apply N.lt_le_incl, next_above; assumption.
    + apply in_or_app. right. left. reflexivity.
Qed.

Lemma no_reuse_gen : forall ops s b, inv s -> b <= maxnum s -> safe s ops = true ->
  increasing_from b (created_list s ops).
Proof.
  induction ops as [|o r IH]; intros s b I B S; [exact Logic.I|].
  cbn in S. apply andb_prop in S. destruct S as [S1 S2]. apply negb_true_iff in S1.
  cbn [created_list]. pose proof (inv_step s o I) as I'. pose proof (step_max s o I S1) as M.
  destruct (created s o) as [k|].
  - destruct M as [M1 M2]. split; [exact (N.le_lt_trans _ _ _ B M1)|].
    apply IH; [exact I'|rewrite M2; apply N.le_refl|exact S2].
  - apply IH; [exact I'|rewrite M; exact B|exact S2].
Qed.

Lemma increasing_from_bound : forall l b x, increasing_from b l -> In x l -> b < x.
Proof.
  induction l as [|k r IH]; intros b x H Hx; [destruct Hx|].
  destruct H as [H1 H2]. destruct Hx as [<-|Hx]; [exact H1|].
  exact (N.lt_trans _ _ _ H1 (IH k x H2 Hx)).
Qed.

Lemma increasing_NoDup : forall l b, increasing_from b l -> NoDup l.
Proof.
  induction l as [|k r IH]; intros b H; [constructor|].
  destruct H as [H1 H2]. constructor; [|eapply IH; eauto].
  intros Hin. exact (N.lt_irrefl _ (increasing_from_bound r k k H2 Hin)).
Qed.
