(* Proofs/CompletionProofs.v — Model/Completion.v: the default completion expression taken apart
   into the parts get_completion_expression appends ([parts0], [parts1], [opt_part]), each with its
   value, its names and whether it is there; its value is [spec_complete]; [is_complete] over
   [registered] names never raises. *)
From Coq Require Import List Bool Arith.
From Cylc Require Import Base.Util Model.BExpr Model.Completion Proofs.BExprProofs.
Import ListNotations.

(* the local definitions [parts0] and [parts1] of [default_parts]: steps (1) and
   (2) of get_completion_expression *)
Definition parts0 (t : tdef) : list bexpr :=
  match conj_list (map BVar (required t)) with Some c => [c] | None => [] end.

Definition parts1 (t : tdef) : list bexpr :=
  if fail_tolerated t then
    match parts0 t with
    | c :: _ => [BOr (BAnd c (BVar SUCCEEDED)) (BVar FAILED)]
    | [] => [BOr (BVar SUCCEEDED) (BVar FAILED)]
    end
  else parts0 t.

(* the part appended for a tolerated pre-execution outcome *)
Definition opt_part (b : bool) (a : nat) : list bexpr := if b then [BVar a] else [].

Lemma default_parts_eq t :
  default_parts t =
  parts1 t ++ opt_part (submit_fail_tolerated t) SUBMIT_FAILED
           ++ opt_part (expiry_tolerated t) EXPIRED.
Proof.
  unfold default_parts. fold (parts0 t). fold (parts1 t).
  destruct (submit_fail_tolerated t), (expiry_tolerated t); cbn;
    rewrite ?app_nil_r, <- ?app_assoc; reflexivity.
Qed.

Lemma opt_part_eval s b a : existsb (eval s) (opt_part b a) = b && s a.
Proof. destruct b; cbn; [apply orb_false_r|reflexivity]. Qed.

Lemma opt_part_vars b a : flat_map vars (opt_part b a) = if b then [a] else [].
Proof. now destruct b. Qed.

Lemma opt_part_nonempty b a : nonempty (opt_part b a) = b.
Proof. now destruct b. Qed.

Lemma parts0_cases t :
  (required t = [] /\ parts0 t = []) \/
  (required t <> [] /\ exists c,
      parts0 t = [c] /\ (forall s, eval s c = forallb s (required t)) /\ vars c = required t).
Proof.
  unfold parts0. destruct (conj_list (map BVar (required t))) as [c|] eqn:E.
  - right. split; [now destruct (required t)|]. exists c. repeat split.
    + intros s. now rewrite (eval_conj_list s _ _ E), forallb_eval_vars.
    + now rewrite (vars_conj_list _ _ E), flat_map_vars_atoms.
  - left. now destruct (required t).
Qed.

Lemma parts1_eval t s :
  existsb (eval s) (parts1 t) =
  if fail_tolerated t then (forallb s (required t) && s SUCCEEDED) || s FAILED
  else nonempty (required t) && forallb s (required t).
Proof.
  unfold parts1.
  destruct (parts0_cases t) as [[Hr ->]|[Hr (c & -> & Hc & _)]], (fail_tolerated t); cbn.
  - rewrite Hr. apply orb_false_r.
  - now rewrite Hr.
  - rewrite Hc. apply orb_false_r.
  - rewrite Hc, orb_false_r. now destruct (required t).
Qed.

Lemma parts1_vars t :
  flat_map vars (parts1 t) =
  required t ++ if fail_tolerated t then [SUCCEEDED; FAILED] else [].
Proof.
  unfold parts1.
  destruct (parts0_cases t) as [[-> ->]|[_ (c & -> & _ & <-)]], (fail_tolerated t); cbn;
    [reflexivity|reflexivity| |reflexivity].
  now rewrite app_nil_r, <- app_assoc.
Qed.

Lemma parts1_nonempty t :
  nonempty (parts1 t) = fail_tolerated t || nonempty (required t).
Proof.
  unfold parts1.
  destruct (parts0_cases t) as [[-> ->]|[Hr (c & -> & _)]], (fail_tolerated t);
    try reflexivity.
  now destruct (required t).
Qed.

Lemma nonempty_app {A} (a b : list A) : nonempty (a ++ b) = nonempty a || nonempty b.
Proof. now destruct a. Qed.

Lemma default_parts_nonempty t :
  nonempty (default_parts t) =
  (fail_tolerated t || nonempty (required t)) || submit_fail_tolerated t || expiry_tolerated t.
Proof.
  rewrite default_parts_eq, !nonempty_app, parts1_nonempty, !opt_part_nonempty.
  apply orb_assoc.
Qed.

Lemma default_parts_eval t s :
  existsb (eval s) (default_parts t) =
  ((fail_tolerated t || nonempty (required t)) &&
     (if fail_tolerated t then (forallb s (required t) && s SUCCEEDED) || s FAILED
      else forallb s (required t)))
  || (submit_fail_tolerated t && s SUBMIT_FAILED)
  || (expiry_tolerated t && s EXPIRED).
Proof.
  rewrite default_parts_eq, !existsb_app, parts1_eval, !opt_part_eval, orb_assoc.
  now destruct (fail_tolerated t).
Qed.

Lemma default_parts_vars t :
  flat_map vars (default_parts t) =
  required t ++ (if fail_tolerated t then [SUCCEEDED; FAILED] else [])
             ++ (if submit_fail_tolerated t then [SUBMIT_FAILED] else [])
             ++ (if expiry_tolerated t then [EXPIRED] else []).
Proof.
  rewrite default_parts_eq, !flat_map_app, parts1_vars, !opt_part_vars.
  symmetry. apply app_assoc.
Qed.

Lemma default_expr_semantics t s :
  eval s (completion_expr t None) = spec_complete t s.
Proof.
  unfold completion_expr, default_expr, spec_complete. cbv zeta.
  rewrite <- default_parts_nonempty, <- default_parts_eval.
  destruct (default_parts t) as [|p ps]; [reflexivity|]. now apply eval_disj_list.
Qed.

Lemma default_completion_expr t e : default_expr t = Some e -> completion_expr t None = e.
Proof. unfold completion_expr. now intros ->. Qed.

Lemma spec_complete_missing_required t s o :
  In o (required t) -> s o = false -> s SUBMIT_FAILED = false -> s EXPIRED = false ->
  spec_complete t s = fail_tolerated t && s FAILED.
Proof.
  intros Ho Hso Hss Hse. unfold spec_complete.
  assert (forallb s (required t) = false) as ->.
  { destruct (forallb s (required t)) eqn:E; [|reflexivity].
    rewrite forallb_forall in E. now rewrite (E o Ho) in Hso. }
  assert (nonempty (required t) = true) as -> by (now destruct (required t)).
  rewrite Hss, Hse, orb_true_r, !andb_false_r, !orb_false_r.
  now destruct (fail_tolerated t).
Qed.

Lemma complete_implies t s :
  spec_complete t s = true ->
  (forall a, In a (required t) -> s a = true)
  \/ (fail_tolerated t = true /\ s FAILED = true)
  \/ (submit_fail_tolerated t = true /\ s SUBMIT_FAILED = true)
  \/ (expiry_tolerated t = true /\ s EXPIRED = true).
Proof.
  unfold spec_complete. destruct (nonempty (required t)) eqn:Hr.
  - rewrite orb_true_r. cbn [orb negb].
    intros [[[_ H]%andb_prop|H%andb_prop]%orb_prop|H%andb_prop]%orb_prop; [|auto..].
    destruct (fail_tolerated t).
    + apply orb_prop in H as [[H _]%andb_prop|H]; [left|auto]. now apply forallb_forall.
    + left. now apply forallb_forall.
  - (* nothing is required *)
    intros _. left. now destruct (required t).
Qed.

Definition registered (t : tdef) (a : nat) : Prop := assoc Nat.eqb a t <> None.

Definition std_registered (t : tdef) : Prop :=
  registered t EXPIRED /\ registered t SUBMIT_FAILED /\ registered t SUCCEEDED /\ registered t FAILED.

Lemma required_In_fst t a : In a (required t) -> In a (map fst t).
Proof.
  unfold required. intros [p [<- Hp]]%in_map_iff. apply in_map.
  now apply filter_In in Hp.
Qed.

Lemma required_registered t a : In a (required t) -> registered t a.
Proof. intros H E. exact (proj1 (assoc_None Nat.eqb Nat.eqb_eq a t) E (required_In_fst t a H)). Qed.

Lemma In_if_nil {A} (b : bool) (l : list A) x : In x (if b then l else []) -> In x l.
Proof. now destruct b. Qed.

Lemma completion_expr_vars_cases t a :
  In a (vars (completion_expr t None)) ->
  In a (required t) \/ In a [SUCCEEDED; FAILED; SUBMIT_FAILED; EXPIRED].
Proof.
  unfold completion_expr, default_expr.
  destruct (disj_list (default_parts t)) as [d|] eqn:Ed; [|now right].
  rewrite (vars_disj_list _ _ Ed), default_parts_vars.
  intros [H|[H|[H|H]%in_app_or]%in_app_or]%in_app_or; [now left|right..];
    apply In_if_nil in H; cbn in *; tauto.
Qed.

Lemma required_in_default_vars t e o :
  default_expr t = Some e -> In o (required t) -> In o (vars e).
Proof.
  intros He Ho. rewrite (vars_disj_list _ _ He), default_parts_vars.
  apply in_or_app. now left.
Qed.

Lemma completion_expr_vars t a :
  std_registered t -> In a (vars (completion_expr t None)) -> registered t a.
Proof.
  intros (H0 & H2 & H4 & H5) [H|H]%completion_expr_vars_cases.
  - now apply required_registered.
  - cbn in H. destruct H as [<-|[<-|[<-|[<-|[]]]]]; assumption.
Qed.

(* evaluating Python-style over the registered outputs only: no NameError, and
   the truth value over the completed set, whenever all names are registered *)
Lemma is_complete_registered t user done :
  (forall a, In a (vars (completion_expr t user)) -> registered t a) ->
  is_complete t user done = Some (eval (env_of done) (completion_expr t user)).
Proof.
  intros H. apply evalo_total. intros a Ha%H. unfold registered in Ha.
  unfold completed_env, env_of. now destruct (assoc Nat.eqb a t).
Qed.
