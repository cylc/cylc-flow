(* Proofs/PoolProofs.v — invariants of every trace accepted by the pool monitor (Model/Pool.v).
   First what acceptance of each kind of event says ([step_spawn], [step_state], ...: the guards of
   [step] as propositions, and the successor state); then the invariant [Inv] and its preservation. *)
From Coq Require Import List Bool Arith ZArith Lia.
From Cylc Require Import Base.Util Model.Pool.
Import ListNotations.
Open Scope Z_scope.

Lemma pair_eqb_eq {A B} (ea : A -> A -> bool) (eb : B -> B -> bool) :
  (forall x y, ea x y = true <-> x = y) -> (forall x y, eb x y = true <-> x = y) ->
  forall a b, pair_eqb ea eb a b = true <-> a = b.
Proof.
  intros Ha Hb [x y] [x' y']. unfold pair_eqb. cbn. rewrite andb_true_iff, Ha, Hb.
  split; [intros [-> ->]; reflexivity|intros [= -> ->]; auto].
Qed.
(* [tid_eqb] and [key_eqb] are [pair_eqb]s written out *)
Lemma tid_eqb_eq a b : tid_eqb a b = true <-> a = b.
Proof. exact (pair_eqb_eq Z.eqb Nat.eqb Z.eqb_eq Nat.eqb_eq a b). Qed.
Lemma tid_eqb_refl a : tid_eqb a a = true.
Proof. apply tid_eqb_eq; reflexivity. Qed.
Lemma tid_neqb a b : negb (tid_eqb a b) = true <-> a <> b.
Proof. rewrite negb_true_iff, <- not_true_iff_false, tid_eqb_eq. tauto. Qed.
Lemma key_eqb_eq a b : key_eqb a b = true <-> a = b.
Proof. exact (pair_eqb_eq tid_eqb Nat.eqb tid_eqb_eq Nat.eqb_eq a b). Qed.
Lemma status_eqb_eq a b : status_eqb a b = true <-> a = b.
Proof. split; [destruct a, b; (reflexivity || discriminate)|intros ->; now destruct b]. Qed.
Lemma option_Z_eqb_eq a b : option_eqb Z.eqb a b = true -> a = b.
Proof.
  destruct a as [x|], b as [y|]; cbn; intros E; try discriminate; auto. apply Z.eqb_eq in E. now subst.
Qed.
Lemma mem_key_In k l : mem key_eqb k l = true <-> In k l.
Proof. apply mem_In. apply key_eqb_eq. Qed.
Lemma mem_tid_In k l : mem tid_eqb k l = true <-> In k l.
Proof. apply mem_In. apply tid_eqb_eq. Qed.

Lemma negb_forallb_false {A} (f : A -> bool) l : negb (forallb f l) = false -> forall x, In x l -> f x = true.
Proof. rewrite negb_false_iff, forallb_forall. auto. Qed.

Lemma find_task_In l t p : find_task l t = Some p -> In p l /\ p_id p = t.
Proof.
  induction l as [|x r IH]; cbn; [discriminate|].
  destruct (tid_eqb (p_id x) t) eqn:E.
  - intros [= <-]. apply tid_eqb_eq in E. auto.
  - intros H. destruct (IH H). auto.
Qed.
Lemma find_task_None l t : find_task l t = None -> forall p, In p l -> p_id p <> t.
Proof.
  induction l as [|x r IH]; cbn; [tauto|].
  destruct (tid_eqb (p_id x) t) eqn:E; [discriminate|].
  intros H p [<-|Hin]; [|eauto]. intros Heq. apply tid_eqb_eq in Heq. congruence.
Qed.
(* with distinct ids, a member is what [find_task] finds under its id *)
Lemma find_task_NoDup l p : NoDup (map p_id l) -> In p l -> find_task l (p_id p) = Some p.
Proof.
  induction l as [|x r IH]; cbn; [tauto|]. intros N [->|Hp]; [now rewrite tid_eqb_refl|].
  inversion N as [|? ? Hx Hr]; subst.
  destruct (tid_eqb (p_id x) (p_id p)) eqn:E; [|auto].
  apply tid_eqb_eq in E. destruct Hx. rewrite E. now apply in_map.
Qed.
Lemma existsb_id_false l t :
  existsb (fun p => tid_eqb (p_id p) t) l = false -> ~ In t (map p_id l).
Proof.
  intros H Hin. apply in_map_iff in Hin. destruct Hin as [p [<- Hp]].
  apply (proj1 (existsb_false _ _) H) in Hp. now rewrite tid_eqb_refl in Hp.
Qed.
Lemma update_task_ids l p' : map p_id (update_task l p') = map p_id l.
Proof.
  induction l as [|x r IH]; cbn; [reflexivity|].
  destruct (tid_eqb (p_id x) (p_id p')) eqn:E; cbn; [|now rewrite IH].
  apply tid_eqb_eq in E. now rewrite E.
Qed.
Lemma In_update_task l p' q : In q (update_task l p') -> q = p' \/ In q l.
Proof.
  induction l as [|x r IH]; cbn; [tauto|].
  destruct (tid_eqb (p_id x) (p_id p')); cbn; intros [H|H]; auto.
  destruct (IH H); auto.
Qed.
Lemma In_remove_task l t q : In q (remove_task l t) -> In q l.
Proof.
  induction l as [|x r IH]; cbn; [tauto|].
  destruct (tid_eqb (p_id x) t); cbn; [auto|]. intros [H|H]; auto.
Qed.
Lemma find_remove_task l t x p :
  find_task l t = Some x -> In p l -> p = x \/ In p (remove_task l t).
Proof.
  induction l as [|y r IH]; cbn; [discriminate|].
  destruct (tid_eqb (p_id y) t).
  - intros [= <-] [<-|Hp]; auto.
  - intros Hf [<-|Hp]; [right; now left|]. destruct (IH Hf Hp); [auto|right; now right].
Qed.
Lemma NoDup_remove_task l t : NoDup (map p_id l) -> NoDup (map p_id (remove_task l t)).
Proof.
  induction l as [|x r IH]; cbn; [auto|]. intros H. inversion H as [|? ? Hx Hr]; subst.
  destruct (tid_eqb (p_id x) t); cbn; [exact Hr|].
  constructor; [|auto]. intros Hin. apply Hx. apply in_map_iff in Hin.
  destruct Hin as [q [Hq Hin]]. apply in_map_iff. exists q. split; [auto|eapply In_remove_task; eauto].
Qed.

Lemma lookup_spec s t p inp :
  lookup s t = Some (p, inp) ->
  p_id p = t /\ (if inp then In p (pool s) else In p (limbo s)).
Proof.
  unfold lookup. destruct (find_task (pool s) t) as [p0|] eqn:E1.
  - intros [= <- <-]. apply find_task_In in E1. tauto.
  - destruct (find_task (limbo s) t) as [p0|] eqn:E2; [|discriminate].
    intros [= <- <-]. apply find_task_In in E2. tauto.
Qed.

Lemma set_status_id p st : p_id (set_status p st) = p_id p. Proof. reflexivity. Qed.
Lemma set_flags_id p h q r : p_id (set_flags p h q r) = p_id p. Proof. reflexivity. Qed.

(* The fields the invariant and the trace theorems speak of.  Most events leave all of them alone
   ([step_quiet] below); so do [add_hold] and, but for the one task it replaces, [store]. *)
Definition core (s : mstate) := (pool s, limbo s, saved s, done s, abs_done s, subs s, bcast s).

Lemma add_hold_core s t : core (add_hold s t) = core s.
Proof. unfold add_hold. destruct (mem tid_eqb t (to_hold s)); reflexivity. Qed.
Lemma fold_add_hold_core ids : forall s, core (fold_left add_hold ids s) = core s.
Proof. induction ids as [|t r IH]; intros s; cbn; [reflexivity|]. rewrite IH. apply add_hold_core. Qed.
Lemma add_hold_if_core (b : bool) s t : core (if b then add_hold s t else s) = core s.
Proof. destruct b; [apply add_hold_core|reflexivity]. Qed.
Lemma lookup_add_hold s t t' : lookup (add_hold s t) t' = lookup s t'.
Proof. unfold lookup. pose proof (add_hold_core s t) as [= -> -> _ _ _ _]. reflexivity. Qed.

Lemma store_pool_ids s p inp : map p_id (pool (store s p inp)) = map p_id (pool s).
Proof. unfold store. destruct inp; cbn; [apply update_task_ids|reflexivity]. Qed.
Lemma In_store s p inp q :
  In q (pool (store s p inp)) \/ In q (limbo (store s p inp)) ->
  q = p \/ In q (pool s) \/ In q (limbo s).
Proof.
  unfold store. destruct inp; cbn; intros [H|H]; auto;
    apply In_update_task in H; destruct H; auto.
Qed.
Lemma store_done s p inp : done (store s p inp) = done s.
Proof. unfold store; destruct inp; reflexivity. Qed.
Lemma store_abs s p inp : abs_done (store s p inp) = abs_done s.
Proof. unfold store; destruct inp; reflexivity. Qed.
Lemma store_subs s p inp : subs (store s p inp) = subs s.
Proof. unfold store; destruct inp; reflexivity. Qed.
Lemma store_saved s p inp : saved (store s p inp) = saved s.
Proof. unfold store; destruct inp; reflexivity. Qed.
Lemma store_bcast s p inp : bcast (store s p inp) = bcast s.
Proof. unfold store; destruct inp; reflexivity. Qed.

Lemma bx_eval_mono (f g : key -> bool) e :
  (forall k, f k = true -> g k = true) -> bx_eval f e = true -> bx_eval g e = true.
Proof.
  intros Hfg. induction e as [k pre|a IHa b IHb|a IHa b IHb]; cbn; intros H.
  - destruct pre; cbn in *; auto.
  - apply andb_true_iff in H. apply andb_true_iff. destruct H; auto.
  - apply orb_true_iff in H. apply orb_true_iff. destruct H; auto.
Qed.

(* Prop-level reading of a prerequisite expression *)
Fixpoint bx_holds (P : key -> Prop) (e : bx) : Prop :=
  match e with
  | BAtom k pre => pre = true \/ P k
  | BAnd a b => bx_holds P a /\ bx_holds P b
  | BOr a b => bx_holds P a \/ bx_holds P b
  end.
Lemma bx_eval_holds (f : key -> bool) (P : key -> Prop) e :
  (forall k, f k = true -> P k) -> bx_eval f e = true -> bx_holds P e.
Proof.
  intros Hf. induction e as [k pre|a IHa b IHb|a IHa b IHb]; cbn; intros H.
  - apply orb_true_iff in H. destruct H; auto.
  - apply andb_true_iff in H. destruct H; auto.
  - apply orb_true_iff in H. destruct H; auto.
Qed.

Lemma sat_of_spec p k : sat_of p k = true <-> In k (p_sat p) \/ In k (p_forced p).
Proof. unfold sat_of. rewrite orb_true_iff, !mem_key_In. tauto. Qed.

Lemma prereqs_ok_mono i p p' :
  (forall k, In k (p_sat p) -> In k (p_sat p')) ->
  (forall k, In k (p_forced p) -> In k (p_forced p')) ->
  prereqs_ok i p = true -> prereqs_ok i p' = true.
Proof.
  unfold prereqs_ok. rewrite !forallb_forall. intros Hs Hf H e He.
  eapply bx_eval_mono; [|apply H; exact He].
  intros k. rewrite !sat_of_spec. intros [Hk|Hk]; auto.
Qed.
Lemma prereqs_ok_ext i p p' : p_sat p = p_sat p' -> p_forced p = p_forced p' -> prereqs_ok i p = prereqs_ok i p'.
Proof. unfold prereqs_ok, sat_of. intros -> ->. reflexivity. Qed.
Lemma ready_prereqs i p : ready i p = true -> prereqs_ok i p = true.
Proof. unfold ready. rewrite !andb_true_iff. tauto. Qed.

Lemma subset_keys_In a b : subset_keys a b = true -> forall k, In k a -> In k b.
Proof.
  unfold subset_keys. rewrite forallb_forall. intros H k Hk. apply mem_key_In. auto.
Qed.
Lemma expected_sat0_abs s i k : In k (expected_sat0 s i) -> In k (abs_done s).
Proof.
  unfold expected_sat0. intros H. apply in_map_iff in H. destruct H as [[k' pre] [<- H]].
  apply filter_In in H. destruct H as [_ H]. apply andb_true_iff in H. destruct H as [_ H].
  cbn. now apply mem_key_In.
Qed.
Lemma out_done_In s k : out_done s (fst k) (snd k) = true <-> In k (done s).
Proof. destruct k. apply mem_key_In. Qed.

Fixpoint exec (c : cfg) (s : mstate) (tr : list event) : option mstate :=
  match tr with
  | [] => Some s
  | e :: r => match step c s e with Ok s' => exec c s' r | Err _ => None end
  end.

Lemma run_from_exec c tr : forall s i,
  fst (run_from c s i tr) = None <-> exists s', exec c s tr = Some s'.
Proof.
  induction tr as [|e r IH]; intros s i; cbn.
  - split; eauto.
  - destruct (step c s e) as [s'|code]; [apply IH|].
    cbn. split; [discriminate|intros [s' H]; discriminate].
Qed.
Lemma run_accepts c tr : run c tr = None <-> exists s, exec c (init_state c) tr = Some s.
Proof. apply run_from_exec. Qed.

Lemma exec_app c tr1 : forall s tr2 s',
  exec c s (tr1 ++ tr2) = Some s' -> exists s1, exec c s tr1 = Some s1 /\ exec c s1 tr2 = Some s'.
Proof.
  induction tr1 as [|e r IH]; intros s tr2 s'; cbn; [eauto|].
  destruct (step c s e); [apply IH|discriminate].
Qed.
Lemma exec_cons c e tr s s' :
  exec c s (e :: tr) = Some s' -> exists s1, step c s e = Ok s1 /\ exec c s1 tr = Some s'.
Proof. cbn. destruct (step c s e) as [s1|]; [eauto|discriminate]. Qed.
Lemma exec_snoc c tr e s s' :
  exec c s (tr ++ [e]) = Some s' -> exists s1, exec c s tr = Some s1 /\ step c s1 e = Ok s'.
Proof.
  intros H. apply exec_app in H. destruct H as [s1 [H1 H2]]. exists s1. split; [auto|].
  apply exec_cons in H2. destruct H2 as [s2 [H2 [= <-]]]. exact H2.
Qed.

(* induction over an accepted trace, for a property of the trace so far and the state reached *)
Lemma exec_ind c s0 (P : list event -> mstate -> Prop) :
  P [] s0 -> (forall tr s e s', P tr s -> step c s e = Ok s' -> P (tr ++ [e]) s') ->
  forall tr s, exec c s0 tr = Some s -> P tr s.
Proof.
  intros H0 Hstep tr. induction tr as [|e tr IH] using rev_ind; intros s H.
  - injection H as <-. exact H0.
  - apply exec_snoc in H. destruct H as [s1 [H1 H2]]. eauto.
Qed.

Definition valid_id (c : cfg) (t : tid) : Prop :=
  (exists i, find_inst (c_insts c) t = Some i) /\ c_icp c <= fst t <= c_fcp c.

(* Passing a check of the monitor, and a lookup it needs.  ([apply] of these is much cheaper than
   [destruct] of the test on the large goals that [step] gives.) *)
Lemma passed (b : bool) n r s' (P : Prop) :
  (b = false -> r = Ok s' -> P) -> (if b then Err n else r) = Ok s' -> P.
Proof. destruct b; [discriminate|auto]. Qed.
Lemma found {A} (o : option A) (f : A -> res) n s' (P : Prop) :
  (forall x, o = Some x -> f x = Ok s' -> P) -> match o with Some x => f x | None => Err n end = Ok s' -> P.
Proof. destruct o; [eauto|discriminate]. Qed.

Lemma bounds_guard a x b : negb ((a <=? x) && (x <=? b)) = false -> a <= x <= b.
Proof. rewrite negb_false_iff, andb_true_iff, !Z.leb_le. auto. Qed.

Lemma step_spawn c s t fl sat0 held s' :
  step c s (ESpawn t fl sat0 held) = Ok s' ->
  valid_id c t /\ ~ In t (map p_id (pool s)) /\ (forall k, In k sat0 -> In k (abs_done s)) /\
  held = hold_expected s t /\ c_start c <= fst t /\
  s' = with_limbo (if held then add_hold s t else s) (new_task t fl sat0 held :: remove_task (limbo s) t).
Proof.
  cbn [step]. apply found; intros i Ei.
  apply passed; intros Eb. apply passed; intros Ep. apply passed; intros Es. apply passed; intros Eh.
  apply passed; intros Ew. intros [= <-]. apply negb_false_iff in Es, Eh.
  split; [split; [eauto|now apply bounds_guard]|]. split; [now apply existsb_id_false|].
  split; [intros k Hk; eapply expected_sat0_abs, subset_keys_In; eauto|].
  split; [now apply eqb_prop|]. split; [now apply Z.ltb_ge|reflexivity].
Qed.

Lemma step_add c s t s' :
  step c s (EAdd t) = Ok s' ->
  exists p, find_task (limbo s) t = Some p /\ ~ In t (map p_id (pool s)) /\
    s' = with_limbo (with_pool s (pool s ++ [p])) (remove_task (limbo s) t).
Proof.
  cbn [step]. destruct (find_task (limbo s) t) as [p|]; [|discriminate]. apply passed; intros Ep. intros [= <-].
  exists p. split; [reflexivity|]. split; [now apply existsb_id_false|reflexivity].
Qed.

(* satisfaction by an output -- natural or set by command -- touches exactly the matching atoms,
   and only for outputs that were really completed *)
Lemma step_sat c s t msgs new s' :
  step c s (ESat t msgs new) = Ok s' ->
  exists p inp i, lookup s t = Some (p, inp) /\ find_inst (c_insts c) t = Some i /\
    (forall k, In k msgs -> In k (done s)) /\
    (forall k, In k new <->
       (exists pre, In (k, pre) (inst_keys i) /\ pre = false) /\ In k msgs /\ sat_of p k = false) /\
    s' = store s (set_sat p (new ++ p_sat p)) inp.
Proof.
  cbn [step]. apply found; intros [p inp] El. apply found; intros i Ei.
  apply passed; intros Em. apply passed; intros En. intros [= <-]. exists p, inp, i. do 2 (split; [assumption|]).
  split; [intros k Hk; apply out_done_In; now apply (negb_forallb_false _ _ Em)|]. split; [|reflexivity].
  apply negb_false_iff, andb_true_iff in En. destruct En as [E1 E2]. intros k.
  transitivity (In k (dedup key_eqb (map fst (filter
    (fun kp => negb (snd kp) && mem key_eqb (fst kp) msgs && negb (sat_of p (fst kp))) (inst_keys i))))).
  { split; eapply subset_keys_In; eauto. }
  rewrite (In_dedup _ key_eqb_eq), in_map_iff. split.
  - intros [[k' pre] [<- Hf]]. apply filter_In in Hf. cbn in Hf.
    rewrite !andb_true_iff, !negb_true_iff, mem_key_In in Hf.
    destruct Hf as [Hin [[-> Hm] Hs]]. eauto.
  - intros [[pre [Hin ->]] [Hm Hs]]. exists (k, false). split; [reflexivity|]. apply filter_In. split; [exact Hin|].
    cbn. apply mem_key_In in Hm. now rewrite Hm, Hs.
Qed.

Lemma step_state c s t st h q r s' p inp :
  step c s (EState t st h q r) = Ok s' -> lookup s t = Some (p, inp) ->
  exists i, find_inst (c_insts c) t = Some i /\
    (st = p_status p \/ p_manual p = true \/ trans_ok p (p_status p) st = true) /\
    (q = true -> p_queued p = false -> p_manual p = true \/ ready i (set_flags p h false r) = true) /\
    (r = false -> p_runahead p = true ->
       within_limit s p = true \/ p_manual p = true \/ is_final (p_status p) = true) /\
    (st = Preparing -> p_held p = true -> p_status p = Preparing \/ p_manual p = true) /\
    (h = true -> p_held p = false -> hold_expected s t = true) /\
    (h = false -> p_held p = true -> mem tid_eqb t (to_hold s) = false) /\
    s' = store (if h && negb (p_held p) then add_hold s t else s) (set_flags (set_status p st) h q r) inp.
Proof.
  cbn [step]. intros H El. rewrite El in H. revert H. apply found; intros i Ei.
  apply passed; intros E1. apply passed; intros E2. apply passed; intros E3. apply passed; intros E4.
  apply passed; intros E5. apply passed; intros E6. intros [= <-]. exists i. split; [exact Ei|].
  split. { destruct (status_eqb st (p_status p)) eqn:E; [left; now apply status_eqb_eq|].
           destruct (p_manual p), (trans_ok p (p_status p) st); auto; discriminate. }
  split. { intros -> Hq. rewrite Hq in E2.
           destruct (p_manual p), (ready i (set_flags p h false r)); auto; discriminate. }
  split. { intros -> Hr. rewrite Hr in E3.
           destruct (within_limit s p), (p_manual p), (is_final (p_status p)); auto; discriminate. }
  split. { intros -> Hh. rewrite Hh in E4. destruct (status_eqb (p_status p) Preparing) eqn:E;
             [left; now apply status_eqb_eq|]. destruct (p_manual p); auto; discriminate. }
  split. { intros -> Hh. rewrite Hh in E5. now apply negb_false_iff in E5. }
  split; [|reflexivity]. intros -> Hh. now rewrite Hh in E6.
Qed.

Lemma step_release c s l s' :
  step c s (ERelease l) = Ok s' ->
  (forall t, In t l -> exists p i, find_task (pool s) t = Some p /\ find_inst (c_insts c) t = Some i /\
     (p_rel p = true \/ In t (relq s) \/ p_manual p = true) /\ (p_held p = false \/ p_manual p = true) /\
     (p_manual p = true \/ prereqs_ok i p = true)) /\
  release_ok c s (filter (fun t => match find_task (pool s) t with
                                   | Some p => negb (p_rel p) && negb (p_manual p) | None => true end) l) = true /\
  s' = with_pool s (map (fun p => if mem tid_eqb (p_id p) l then set_rel p true else p) (pool s)).
Proof.
  cbn [step]. apply passed; intros E1. apply passed; intros E2. intros [= <-].
  split; [|split; [now apply negb_false_iff|reflexivity]].
  intros t Ht. apply (negb_forallb_false _ _ E1) in Ht.
  destruct (find_task (pool s) t) as [p|]; [|discriminate].
  destruct (find_inst (c_insts c) t) as [i|]; [|discriminate].
  exists p, i. do 2 (split; [reflexivity|]). apply andb_true_iff in Ht. destruct Ht as [Ht Hok].
  apply andb_true_iff in Ht. destruct Ht as [Hq Hh]. split; [|split; [|now apply orb_true_iff]].
  - destruct (p_rel p); [now left|]. destruct (p_manual p); [now do 2 right|].
    right. left. apply mem_tid_In. now rewrite orb_false_r in Hq.
  - destruct (p_held p); [now right|now left].
Qed.

Lemma step_submit c s t sn s' :
  step c s (ESubmit t sn) = Ok s' ->
  exists p i, find_task (pool s) t = Some p /\ find_inst (c_insts c) t = Some i /\
    p_status p = Preparing /\ ~ In (t, sn) (subs s) /\
    (p_manual p = true \/ (count_true (fun x => tid_eqb (fst x) t) (subs s) < i_tries i)%nat) /\
    (p_manual p = true \/ fst t <= stop_point s) /\
    s' = with_subs (with_pool s (update_task (pool s) (set_sn p sn))) ((t, sn) :: subs s).
Proof.
  cbn [step]. apply found; intros p Ef. apply found; intros i Ei.
  apply passed; intros Ep. apply passed; intros Em. apply passed; intros Eb. apply passed; intros Ez. intros [= <-].
  exists p, i. do 2 (split; [assumption|]).
  split; [now apply negb_false_iff, status_eqb_eq in Ep|].
  split; [rewrite <- (mem_In _ (pair_eqb_eq _ _ tid_eqb_eq Nat.eqb_eq)), Em; discriminate|].
  split; [|split; [|reflexivity]]; destruct (p_manual p); auto; right;
    rewrite andb_true_r in *; [now apply negb_false_iff, Nat.ltb_lt in Eb|now apply Z.ltb_ge].
Qed.

Lemma step_remove c s t completed s' :
  step c s (ERemove t completed) = Ok s' ->
  exists p i, find_task (pool s) t = Some p /\ find_inst (c_insts c) t = Some i /\
    (completed = true -> is_final (p_status p) = true /\ cx_eval (has_out (p_outs p)) (i_comp i) = true) /\
    s' = with_hist (with_pool s (remove_task (pool s) t))
           ({| h_id := t; h_flows := p_flows p; h_status := p_status p; h_outs := p_outs p |} :: hist s).
Proof.
  cbn [step]. apply found; intros p Ef. apply found; intros i Ei.
  apply passed; intros E. intros [= <-]. exists p, i. do 2 (split; [assumption|]). split; [|reflexivity].
  intros ->. now apply negb_false_iff, andb_true_iff in E.
Qed.

(* the accepted limit is the specification for the current pool -- or (finding C04: the code's
   early return) the previous limit when that already sits at the stop point *)
Lemma step_limit c s l s' :
  step c s (ELimit l) = Ok s' ->
  (pool s = [] \/ l = spec_limit c s \/ (limit s = Some (stop_point s) /\ l = limit s)) /\ s' = with_limit s l.
Proof.
  cbn [step]. destruct (pool s); [intros [= <-]; auto|].
  destruct (option_eqb Z.eqb l (spec_limit c s)) eqn:E; [intros [= <-]; apply option_Z_eqb_eq in E; auto|].
  destruct (_ && _) eqn:E2; [|discriminate]. intros [= <-]. apply andb_true_iff in E2.
  destruct E2 as [A B]. apply option_Z_eqb_eq in A, B. auto.
Qed.

Lemma step_force_sat c s t keys s' p inp :
  step c s (EForceSat t keys) = Ok s' -> lookup s t = Some (p, inp) ->
  exists i, find_inst (c_insts c) t = Some i /\
    (forall k, In k keys -> exists pre, In (k, pre) (inst_keys i)) /\
    s' = store s (set_forced p (keys ++ p_forced p)) inp.
Proof.
  cbn [step]. intros H El. rewrite El in H. revert H.
  apply found; intros i Ei. apply passed; intros E. intros [= <-].
  exists i. split; [exact Ei|]. split; [|reflexivity]. intros k Hk.
  apply (negb_forallb_false _ _ E), existsb_exists in Hk. destruct Hk as [[k' pre] [Hin Heq]].
  apply key_eqb_eq in Heq. cbn in Heq. subst k'. eauto.
Qed.

Lemma step_state_forced c s t st h q r s' p inp :
  step c s (EStateForced t st h q r) = Ok s' -> lookup s t = Some (p, inp) ->
  st <> Submitted /\ st <> Running /\ s' = store s (set_manual (set_flags (set_status p st) h q r) true) inp.
Proof.
  cbn [step]. intros H El. rewrite El in H. revert H. apply passed; intros E. intros [= <-].
  apply orb_false_iff in E. destruct E as [E1 E2].
  split; [intros ->; discriminate|]. split; [intros ->; discriminate|reflexivity].
Qed.

(* the task a crashed scheduler's database gives back *)
Definition of_view (v : tview) : ptask :=
  {| p_id := v_id v; p_status := v_status v; p_held := v_held v; p_queued := false;
     p_runahead := v_runahead v; p_flows := v_flows v; p_sat := v_sat v; p_forced := v_fsat v; p_outs := v_outs v;
     p_sn := v_sn v; p_rel := false; p_manual := false; p_idle := 0%nat; p_lag := 0%nat |}.

Lemma step_restore_crash c s v s' :
  crash_mode s = true -> step c s (ERestore v) = Ok s' ->
  valid_id c (v_id v) /\ ~ In (v_id v) (map p_id (pool s)) /\
  (forall k, In k (v_sat v) -> In k (done s)) /\ (forall o, In o (v_outs v) -> In (v_id v, o) (done s)) /\
  (forall i, find_inst (c_insts c) (v_id v) = Some i ->
     v_status v = Waiting \/ v_status v = Expired \/ prereqs_ok i (of_view v) = true) /\
  s' = with_subs (with_pool s (pool s ++ [of_view v]))
         (filter (fun x => negb (tid_eqb (fst x) (v_id v)) || Nat.leb (snd x) (v_sn v)) (subs s)).
Proof.
  cbn [step]. case (crash_mode s); [intros _|discriminate]. apply found; intros i Ei.
  apply passed; intros Eb. apply passed; intros Ep. apply passed; intros Es. apply passed; intros Eo.
  apply passed; intros Er. intros [= <-].
  split; [split; [eauto|now apply bounds_guard]|]. split; [now apply existsb_id_false|].
  split; [intros k Hk; apply mem_key_In; now apply (negb_forallb_false _ _ Es)|].
  split; [intros o Ho; apply mem_key_In; now apply (negb_forallb_false _ _ Eo)|]. split; [|reflexivity].
  intros i' Hi'. rewrite Ei in Hi'. injection Hi' as <-. fold (of_view v) in Er.
  destruct (status_eqb (v_status v) Waiting) eqn:E1; [left; now apply status_eqb_eq|].
  destruct (status_eqb (v_status v) Expired) eqn:E2; [right; left; now apply status_eqb_eq|].
  right; right. now apply negb_false_iff in Er.
Qed.

Lemma step_restore c s v s' :
  crash_mode s = false -> step c s (ERestore v) = Ok s' ->
  exists p, find_task (saved s) (v_id v) = Some p /\ view_matches p v = true /\
    ~ In (v_id v) (map p_id (pool s)) /\
    s' = with_saved (with_pool s (pool s ++ [p])) (remove_task (saved s) (v_id v)).
Proof.
  cbn [step]. case (crash_mode s); [discriminate|intros _]. apply found; intros p Ef.
  apply passed; intros E. apply passed; intros Ep. intros [= <-].
  exists p. split; [exact Ef|]. split; [now apply negb_false_iff|].
  split; [now apply existsb_id_false|reflexivity].
Qed.

(* a tick end is accepted only if the reported pool, hold set and hold point are the abstract ones, no
   ready task has been left unqueued and no task within the runahead limit left unreleased for
   [max_idle] consecutive iterations, every recorded absolute output is reflected in every pooled
   dependent, and no finished and complete task is retained *)
Lemma step_tick c s snap hl hp s' :
  step c s (ETickEnd snap hl hp) = Ok s' ->
  length snap = length (pool s) /\
  (forall v, In v snap -> exists p, find_task (pool s) (v_id v) = Some p /\ view_matches p v = true) /\
  same_tids hl (to_hold s) = true /\ hp = hold_pt s /\
  (forall p, In p (pool s) -> p_held p = mem tid_eqb (p_id p) (to_hold s)) /\
  (forall p, In p (pool s') -> (p_idle p < max_idle)%nat /\ (p_lag p < max_idle)%nat) /\
  (forall p i, In p (pool s) -> find_inst (c_insts c) (p_id p) = Some i ->
     abs_reflected s i p = true /\
     (is_final (p_status p) = true -> cx_eval (has_out (p_outs p)) (i_comp i) = false)) /\
  s' = with_hist (with_limbo (with_pool s (map (tick_counters c s) (pool s))) [])
         (map (fun p => {| h_id := p_id p; h_flows := p_flows p; h_status := p_status p; h_outs := p_outs p |})
              (limbo s) ++ hist s).
Proof.
  cbn [step]. apply passed; intros E1. apply passed; intros E2. apply passed; intros E3. apply passed; intros E4.
  apply passed; intros E5. apply passed; intros E6. apply passed; intros E7. apply passed; intros E8. intros [= <-].
  apply negb_false_iff, andb_true_iff in E2. destruct E2 as [E2 E2'].
  split; [now apply negb_false_iff, Nat.eqb_eq in E1|].
  split. { intros v Hv. apply (negb_forallb_false _ _ E4) in Hv.
           destruct (find_task (pool s) (v_id v)) as [p|]; [eauto|discriminate]. }
  split; [exact E2|]. split; [now apply option_Z_eqb_eq|].
  split; [intros p Hp; apply eqb_prop; now apply (negb_forallb_false _ _ E3)|].
  split. { intros p Hp. cbn [pool with_hist with_limbo with_pool] in Hp.
           apply (proj1 (existsb_false _ _) E5) in Hp as H5. apply (proj1 (existsb_false _ _) E6) in Hp.
           now apply Nat.leb_gt in H5, Hp. }
  split; [|reflexivity]. intros p i Hp Hi.
  apply (negb_forallb_false _ _ E7) in Hp as H7. apply (proj1 (existsb_false _ _) E8) in Hp.
  rewrite Hi in H7, Hp. split; [exact H7|]. intros Hf. now rewrite Hf in Hp.
Qed.

Lemma step_shutdown_auto c s s' :
  step c s EShutdownAuto = Ok s' ->
  (forall p, In p (pool s) ->
     is_active (p_status p) = false /\
     (p_status p = Waiting -> p_runahead p = true) /\
     (fst (p_id p) <= stop_point s ->
        is_final (p_status p) = false /\ (p_status p = Waiting -> p_sat p = []))) /\
  s' = with_stop s (c_fcp c) (Some SAuto) (stop_task s).
Proof.
  cbn [step]. apply passed; intros E1. apply passed; intros E2. apply passed; intros E3. apply passed; intros E4.
  intros [= <-]. split; [|reflexivity]. intros p Hp.
  apply (proj1 (existsb_false _ _) E1) in Hp as H1. apply (proj1 (existsb_false _ _) E2) in Hp as H2.
  apply (proj1 (existsb_false _ _) E3) in Hp as H3. apply (proj1 (existsb_false _ _) E4) in Hp. clear E1 E2 E3 E4.
  split; [exact H1|]. split; [intros Hw; rewrite Hw in H2; now apply negb_false_iff in H2|].
  intros Hle. apply Z.leb_le in Hle. rewrite Hle, andb_true_r in H3. split; [exact H3|].
  intros Hw. rewrite Hw, Hle in Hp. apply negb_false_iff, Nat.eqb_eq in Hp. now destruct (p_sat p).
Qed.

(* Events that touch none of the [core] fields: queue-release bookkeeping, the runahead limit, hold and
   stop commands, and the observations that only compare. *)
Definition quiet (e : event) : bool :=
  match e with
  | EReleaseBegin | ELimit _ | ECmdHold _ | ECmdRelease _ | ECmdHoldPoint _ | ECmdReleaseHoldPoint
  | ERemoveBegin _ | ERestartDone | EAdopt _ _ _ _ | ECmdStop _ | ECmdStopPoint _ | ECmdStopTask _
  | EStopTaskDone | EShutdownReq _ | EParams _ _ | EShutdownAuto | EStaleHold _ | EBcastDb _ => true
  | _ => false
  end.

(* [peel]: go down through what an accepted step tested to the successor states, splitting only
   where a test does not reject ([case], as [destruct] is slow on these large goals).  The lemma to
   apply is chosen by the shape of the test: an [apply] that fails on these goals is slow too. *)
Ltac peel :=
  repeat
    match goal with
    | |- (if _ then Err _ else _) = Ok _ -> _ => apply passed; intros _
    | |- match _ with Some _ => _ | None => Err _ end = Ok _ -> _ => apply found; intros ? _
    | |- (match ?x with _ => _ end) = Ok _ -> _ =>
        lazymatch type of x with
        | option _ => case x; [intros ?|]
        | prod _ _ => case x; intros ? ?
        | list _ => case x; [|intros ? ?]
        | _ => case x
        end
    end;
  try discriminate.

Lemma step_quiet c s e s' : quiet e = true -> step c s e = Ok s' -> core s' = core s.
Proof.
  intros Q. destruct e; try discriminate Q; clear Q.
  all: cbn [step]; peel; intros [= <-]; try reflexivity.
  - apply fold_add_hold_core.
  - apply add_hold_core.
Qed.

(* a task that must have true prerequisites (or be manual): beyond waiting/expired, or queued, or released *)
Definition needs_ok (p : ptask) : bool :=
  (negb (status_eqb (p_status p) Waiting) && negb (status_eqb (p_status p) Expired))
  || p_queued p || p_rel p.

Definition tracked (s : mstate) (p : ptask) : Prop := In p (pool s) \/ In p (limbo s).

Record Inv (c : cfg) (s : mstate) : Prop := {
  inv_nodup : NoDup (map p_id (pool s));
  inv_valid : forall p, tracked s p -> valid_id c (p_id p);
  inv_sat : forall p k, tracked s p -> In k (p_sat p) -> In k (done s);
  inv_abs : forall k, In k (abs_done s) -> In k (done s);
  inv_ok : forall p i, tracked s p -> find_inst (c_insts c) (p_id p) = Some i ->
           needs_ok p = true -> p_manual p = true \/ prereqs_ok i p = true;
  inv_subs : NoDup (subs s);
  inv_saved : forall p, In p (saved s) ->
      valid_id c (p_id p) /\ (forall k, In k (p_sat p) -> In k (done s)) /\
      (forall i, find_inst (c_insts c) (p_id p) = Some i -> needs_ok p = true ->
                 p_manual p = true \/ prereqs_ok i p = true);
}.

Lemma Inv_init c : Inv c (init_state c).
Proof. constructor; unfold tracked; cbn; (tauto || constructor). Qed.

(* The invariant read task by task: every task in the pool, being spawned or saved for a restart is
   a graph instance in bounds, satisfied only by outputs recorded in [d] = [done s], and, once
   beyond waiting (or queued, or released), manually triggered or with true prerequisites. *)
Definition task_ok (c : cfg) (d : list key) (p : ptask) : Prop :=
  valid_id c (p_id p) /\ (forall k, In k (p_sat p) -> In k d) /\
  (forall i, find_inst (c_insts c) (p_id p) = Some i -> needs_ok p = true ->
             p_manual p = true \/ prereqs_ok i p = true).

Lemma Inv_tasks c s :
  Inv c s <->
  NoDup (map p_id (pool s)) /\ NoDup (subs s) /\ (forall k, In k (abs_done s) -> In k (done s)) /\
  forall p, (In p (pool s) \/ In p (limbo s)) \/ In p (saved s) -> task_ok c (done s) p.
Proof.
  unfold task_ok. split.
  - intros [I1 I2 I3 I4 I5 I6 I7]. do 3 (split; [assumption|]). intros p [Hp|Hp]; [|exact (I7 p Hp)].
    split; [auto|]. split; [intros k; apply I3; exact Hp|intros i; apply I5; exact Hp].
  - intros (N & S & A & T). constructor; auto; intros p; intros; apply (T p); auto.
Qed.

Lemma task_ok_mono c d d' p : (forall k, In k d -> In k d') -> task_ok c d p -> task_ok c d' p.
Proof. intros H (V & S & O). split; [exact V|]. split; [auto|exact O]. Qed.

(* [Inv_tasks] as a rule for a successor state: each part of the invariant of [s'] from the same part
   for [s].  For the fields an event leaves alone the premise reads [X -> X] after [cbn]. *)
Lemma Inv_next c s s' :
  Inv c s ->
  (NoDup (map p_id (pool s)) -> NoDup (map p_id (pool s'))) ->
  (NoDup (subs s) -> NoDup (subs s')) ->
  ((forall k, In k (abs_done s) -> In k (done s)) -> forall k, In k (abs_done s') -> In k (done s')) ->
  ((forall p, (In p (pool s) \/ In p (limbo s)) \/ In p (saved s) -> task_ok c (done s) p) ->
   forall p, (In p (pool s') \/ In p (limbo s')) \/ In p (saved s') -> task_ok c (done s') p) ->
  Inv c s'.
Proof.
  intros I N S A T. apply Inv_tasks in I. destruct I as (N0 & S0 & A0 & T0). apply Inv_tasks.
  split; [auto|]. split; [auto|]. split; auto.
Qed.

(* an updated copy [p'] of [p] whose satisfied and forced atoms have only grown *)
Lemma task_ok_grow c d p p' :
  task_ok c d p -> p_id p' = p_id p -> p_manual p' = p_manual p ->
  (needs_ok p' = true -> needs_ok p = true) ->
  (forall k, In k (p_sat p) -> In k (p_sat p')) -> (forall k, In k (p_sat p') -> In k (p_sat p) \/ In k d) ->
  (forall k, In k (p_forced p) -> In k (p_forced p')) -> task_ok c d p'.
Proof.
  intros (V & S & O) Hid Hm Hn Hs Hd Hf. rewrite <- Hid in V. split; [exact V|].
  split; [intros k Hk; destruct (Hd k Hk); auto|].
  intros i Hi Hn'. rewrite Hid in Hi. rewrite Hm. destruct (O i Hi (Hn Hn')) as [M|P]; [now left|right].
  eapply prereqs_ok_mono; eauto.
Qed.

Lemma task_ok_manual c d p p' :
  task_ok c d p -> p_id p' = p_id p -> p_sat p' = p_sat p -> p_manual p' = true -> task_ok c d p'.
Proof. intros (V & S & _) Hid Hs Hm. rewrite <- Hid in V. rewrite <- Hs in S. split; [exact V|]. split; auto. Qed.

(* the invariant looks at the [core] fields only *)
Lemma Inv_core c s s' : core s' = core s -> Inv c s -> Inv c s'.
Proof.
  intros [= E1 E2 E3 E4 E5 E6 _] [I1 I2 I3 I4 I5 I6 I7].
  constructor; unfold tracked; rewrite ?E1, ?E2, ?E3, ?E4, ?E5, ?E6; assumption.
Qed.
Lemma Inv_add_hold c s t : Inv c s -> Inv c (add_hold s t).
Proof. apply Inv_core, add_hold_core. Qed.

Lemma Inv_with_done c s l :
  Inv c s -> (forall k, In k (done s) -> In k l) -> Inv c (with_done s l).
Proof.
  intros I Hl. apply (Inv_next c s _ I); cbn; auto.
  intros T p Hp. eapply task_ok_mono; [exact Hl|]. now apply T.
Qed.

Lemma Inv_store_in c s p (inp : bool) p' :
  Inv c s -> (if inp then In p (pool s) else In p (limbo s)) ->
  (task_ok c (done s) p -> task_ok c (done s) p') -> Inv c (store s p' inp).
Proof.
  intros I Hin Hp'. apply (Inv_next c s _ I).
  all: rewrite ?store_pool_ids, ?store_subs, ?store_abs, ?store_done, ?store_saved; auto.
  intros T q [Hq|Hq]; [|auto]. apply In_store in Hq. destruct Hq as [->|Hq]; [|auto].
  apply Hp', T. left. destruct inp; [now left|now right].
Qed.
Lemma Inv_store c s t p inp p' :
  Inv c s -> lookup s t = Some (p, inp) -> (task_ok c (done s) p -> task_ok c (done s) p') ->
  Inv c (store s p' inp).
Proof. intros I El. apply lookup_spec in El. now apply Inv_store_in. Qed.

Lemma Inv_spawn c s t flows sat0 held s' :
  Inv c s -> step c s (ESpawn t flows sat0 held) = Ok s' -> Inv c s'.
Proof.
  intros I H. apply step_spawn in H. destruct H as (V & _ & Hs & _ & _ & ->).
  pose proof (add_hold_if_core held s t) as [= Ep _ Ev Ed Ea Eu _].
  apply (Inv_next c s _ I); cbn; rewrite ?Ep, ?Ev, ?Ed, ?Ea, ?Eu; auto.
  intros T p [[Hp|[<-|Hp]]|Hp].
  2: split; [exact V|]; split; [intros k Hk; apply (inv_abs c s I), Hs, Hk|discriminate].
  all: apply T; eauto using In_remove_task.
Qed.

Lemma Inv_add c s t s' : Inv c s -> step c s (EAdd t) = Ok s' -> Inv c s'.
Proof.
  intros I H. apply step_add in H. destruct H as (p & Hf & Hn & ->). apply find_task_In in Hf. destruct Hf as [Hin <-].
  apply (Inv_next c s _ I); cbn; auto.
  - intros N. rewrite map_app. now apply NoDup_snoc.
  - intros T q Hq. apply T. rewrite in_app_iff in Hq. destruct Hq as [[[Hq|[<-|[]]]|Hq]|Hq]; eauto using In_remove_task.
Qed.

Lemma Inv_sat c s t msgs new s' : Inv c s -> step c s (ESat t msgs new) = Ok s' -> Inv c s'.
Proof.
  intros I H. apply step_sat in H. destruct H as (p & inp & i & El & _ & Hm & Hnew & ->).
  eapply Inv_store; eauto. intros T. apply (task_ok_grow c _ p); auto; cbn; intros k; rewrite in_app_iff; [auto|].
  intros [Hk|Hk]; [|auto]. right. now apply Hm, Hnew.
Qed.

Lemma Inv_output c s t o s' : Inv c s -> step c s (EOutput t o) = Ok s' -> Inv c s'.
Proof.
  intros I. cbn [step]. destruct (lookup s t) as [[p inp]|] eqn:El.
  - apply passed; intros E. intros [= <-]. apply Inv_with_done; [|rewrite store_done; now right].
    (* [task_ok] reads no field that [set_outs] changes *)
    apply (Inv_store c s t p inp); auto.
  - intros [= <-]. apply Inv_with_done; [exact I|now right].
Qed.

Lemma Inv_state c s t st h q r s' : Inv c s -> step c s (EState t st h q r) = Ok s' -> Inv c s'.
Proof.
  intros I H. destruct (lookup s t) as [[p inp]|] eqn:El.
  2:{ cbn [step] in H. rewrite El in H. destruct h; injection H as <-; [now apply Inv_add_hold|exact I]. }
  destruct (step_state _ _ _ _ _ _ _ _ _ _ H El) as (i & Hi & Ht & Hq & _ & _ & _ & _ & ->).
  assert (Hs1 : forall s1, (s1 = s \/ s1 = add_hold s t) ->
                 Inv c s1 /\ lookup s1 t = Some (p, inp) /\ done s1 = done s).
  { intros s1 [->| ->]; [auto|]. split; [now apply Inv_add_hold|]. split; [now rewrite lookup_add_hold|].
    now pose proof (add_hold_core s t) as [= _ _ _ -> _ _ _]. }
  destruct (Hs1 (if h && negb (p_held p) then add_hold s t else s)) as (I1 & El1 & Ed);
    [destruct (h && negb (p_held p)); auto|].
  eapply Inv_store; eauto. rewrite Ed. intros (V & S & O). split; [exact V|]. split; [exact S|].
  apply lookup_spec in El. destruct El as [<- _]. intros i' Hi' Hn.
  cbn [p_id set_flags set_status] in Hi'. rewrite Hi in Hi'. injection Hi' as <-.
  cbn [p_manual set_flags set_status]. rewrite (prereqs_ok_ext i _ p) by reflexivity.
  destruct (p_manual p) eqn:Em; [now left|right].
  destruct (needs_ok p) eqn:Eo; [destruct (O i Hi eq_refl) as [?|?]; [discriminate|assumption]|].
  (* the old record did not need its prerequisites: it was waiting or expired, neither queued nor released *)
  unfold needs_ok in Eo, Hn. cbn [p_status p_queued p_rel set_flags set_status] in Hn.
  apply orb_false_iff in Eo. destruct Eo as [Eo Erel]. apply orb_false_iff in Eo. destruct Eo as [Est Equ].
  destruct q.
  - (* newly queued: the monitor checked readiness *)
    destruct (Hq eq_refl Equ) as [?|R]; [discriminate|]. exact (ready_prereqs _ _ R).
  - (* not queued: the status left waiting/expired, which needs a release or a manual trigger *)
    exfalso. rewrite Erel in Hn.
    destruct Ht as [->|[?|Ht]]; [|discriminate|].
    + rewrite Est in Hn. now destruct (status_eqb (p_status p) Preparing).
    + destruct (p_status p); try discriminate Est; destruct st; try discriminate Ht; try discriminate Hn.
      cbn in Ht. rewrite Erel, Em in Ht. discriminate.
Qed.

Lemma Inv_release c s l s' : Inv c s -> step c s (ERelease l) = Ok s' -> Inv c s'.
Proof.
  intros I H. apply step_release in H. destruct H as (Hl & _ & ->).
  set (f := fun p => if mem tid_eqb (p_id p) l then set_rel p true else p).
  assert (Hid : forall p, p_id (f p) = p_id p) by (intros p; unfold f; now destruct (mem tid_eqb (p_id p) l)).
  apply (Inv_next c s _ I); cbn; auto.
  { now rewrite map_map, (map_ext _ p_id Hid). }
  intros T q [[Hq|Hq]|Hq]; [|apply T; left; now right|apply T; now right].
  apply in_map_iff in Hq. destruct Hq as [p [<- Hp]]. assert (Tp : task_ok c (done s) p) by (apply T; now do 2 left).
  unfold f. destruct (mem tid_eqb (p_id p) l) eqn:Em; [|exact Tp].
  (* a released task is what the pool holds under its id, and the monitor checked its prerequisites *)
  apply mem_tid_In, Hl in Em. destruct Em as (p0 & i & Hf & Hi & _ & _ & Hok).
  rewrite (find_task_NoDup _ _ (inv_nodup c s I) Hp) in Hf. injection Hf as <-.
  destruct Tp as (V & Sa & _). split; [exact V|]. split; [exact Sa|]. intros i' Hi' _. cbn in Hi'.
  rewrite Hi in Hi'. injection Hi' as <-. exact Hok.
Qed.

Lemma Inv_submit c s t sn s' : Inv c s -> step c s (ESubmit t sn) = Ok s' -> Inv c s'.
Proof.
  intros I H. apply step_submit in H. destruct H as (p & i & Hf & _ & _ & Hn & _ & _ & ->).
  assert (El : lookup s t = Some (p, true)) by (unfold lookup; now rewrite Hf).
  apply (Inv_store c s t p true (set_sn p sn)) in I; [|exact El|exact (fun T => T)].
  apply (Inv_next c _ _ I); cbn; auto. intros S. now constructor.
Qed.

Lemma Inv_remove c s t b s' : Inv c s -> step c s (ERemove t b) = Ok s' -> Inv c s'.
Proof.
  intros I H. apply step_remove in H. destruct H as (p & i & _ & _ & _ & ->).
  apply (Inv_next c s _ I); cbn; auto using NoDup_remove_task.
  intros T q [[Hq|Hq]|Hq]; apply T; eauto using In_remove_task.
Qed.

Lemma Inv_merge c s t fl s' : Inv c s -> step c s (EMerge t fl) = Ok s' -> Inv c s'.
Proof.
  intros I. cbn [step]. destruct (lookup s t) as [[p inp]|] eqn:El; [|discriminate]. intros [= <-].
  apply (Inv_store c s t p inp); auto.
Qed.

Lemma Inv_abs c s k s' : Inv c s -> step c s (EAbs k) = Ok s' -> Inv c s'.
Proof.
  intros I. cbn [step]. destruct (out_done s (fst k) (snd k)) eqn:Eo; [|discriminate]. intros [= <-].
  apply out_done_In in Eo. apply (Inv_next c s _ I); cbn; auto.
  intros A k' [<-|Hk]; auto.
Qed.

Lemma Inv_tick c s snap hl hp s' : Inv c s -> step c s (ETickEnd snap hl hp) = Ok s' -> Inv c s'.
Proof.
  intros I H. apply step_tick in H. destruct H as (_ & _ & _ & _ & _ & _ & _ & ->).
  apply (Inv_next c s _ I); cbn; auto.
  { now rewrite map_map. }
  intros T q [[Hq|[]]|Hq]; [|apply T; now right]. apply in_map_iff in Hq. destruct Hq as [p [<- Hp]].
  (* [task_ok] reads no field that [tick_counters] changes *)
  apply (T p). now do 2 left.
Qed.

Lemma Inv_crash c s s' : Inv c s -> step c s ECrash = Ok s' -> Inv c s'.
Proof.
  intros I [= <-]. apply (Inv_next c s _ I); cbn; auto.
  - intros _. constructor.
  - intros _ k [].
  - intros _ p [[[]|[]]|[]].
Qed.

Lemma restored_needs_ok p : needs_ok (restored p) = true -> needs_ok p = true.
Proof.
  unfold needs_ok, restored. cbn. destruct (p_status p); cbn; intros H; try discriminate; reflexivity.
Qed.

Lemma Inv_restart c s s' : Inv c s -> step c s ERestart = Ok s' -> Inv c s'.
Proof.
  intros I [= <-]. apply (Inv_next c s _ I); cbn; auto.
  - intros _. constructor.
  - intros T q [[[]|[]]|Hq]. apply in_map_iff in Hq. destruct Hq as [p [<- Hp]].
    apply (task_ok_grow c _ p); auto using restored_needs_ok.
Qed.

Lemma Inv_restore_crash c s v s' :
  Inv c s -> crash_mode s = true -> step c s (ERestore v) = Ok s' -> Inv c s'.
Proof.
  intros I Hc H. apply (step_restore_crash _ _ _ _ Hc) in H. destruct H as (V & Hn & Hs & _ & Hok & ->).
  apply (Inv_next c s _ I); cbn; auto using NoDup_filter.
  - intros N. rewrite map_app. now apply NoDup_snoc.
  - intros T q Hq. rewrite in_app_iff in Hq.
    destruct Hq as [[[Hq|[<-|[]]]|Hq]|Hq]; [apply T; now do 2 left| |apply T; auto..].
    split; [exact V|]. split; [exact Hs|]. intros i Hi Hne. right.
    destruct (Hok i Hi) as [E|[E|E]]; [| |exact E]; unfold needs_ok in Hne; cbn in Hne; now rewrite E in Hne.
Qed.

Lemma Inv_restore c s v s' : Inv c s -> step c s (ERestore v) = Ok s' -> Inv c s'.
Proof.
  destruct (crash_mode s) eqn:Hc; [intros I H; eapply Inv_restore_crash; eauto|].
  intros I H. apply (step_restore _ _ _ _ Hc) in H. destruct H as (p & Hf & _ & Hn & ->).
  apply find_task_In in Hf. destruct Hf as [Hin Hid]. rewrite <- Hid in Hn.
  apply (Inv_next c s _ I); cbn; auto.
  - intros N. rewrite map_app. now apply NoDup_snoc.
  - intros T q Hq. apply T. rewrite in_app_iff in Hq. destruct Hq as [[[Hq|[<-|[]]]|Hq]|Hq]; eauto using In_remove_task.
Qed.

Lemma Inv_spawnhist c s t st outs sn s' :
  Inv c s -> step c s (ESpawnHist t st outs sn) = Ok s' -> Inv c s'.
Proof.
  intros I. cbn [step]. apply found; intros p Ef. apply passed; intros E. intros [= <-].
  apply find_task_In in Ef. apply (Inv_store_in c s p false); [exact I|apply Ef|].
  intros T. now apply (task_ok_manual c _ p).
Qed.

Lemma Inv_transient c s t fl outs s' :
  Inv c s -> step c s (ETransient t fl outs) = Ok s' -> Inv c s'.
Proof.
  intros I. cbn [step]. apply found; intros i Ei.
  apply passed; intros Eb. apply passed; intros Ep. apply passed; intros Eo. intros [= <-].
  apply (Inv_next c s _ I); cbn; auto. intros T p [[Hp|[<-|Hp]]|Hp].
  2: split; [split; [eauto|now apply bounds_guard]|]; split; [intros k []|now left].
  all: apply T; eauto using In_remove_task.
Qed.

Lemma Inv_forcesat c s t keys s' : Inv c s -> step c s (EForceSat t keys) = Ok s' -> Inv c s'.
Proof.
  intros I H. destruct (lookup s t) as [[p inp]|] eqn:El.
  2:{ cbn [step] in H. rewrite El in H. now injection H as <-. }
  destruct (step_force_sat _ _ _ _ _ _ _ H El) as (_ & _ & _ & ->).
  eapply Inv_store; eauto. intros T. apply (task_ok_grow c _ p); auto. cbn. intros k. rewrite in_app_iff. auto.
Qed.

Lemma Inv_stateforced c s t st h q r s' : Inv c s -> step c s (EStateForced t st h q r) = Ok s' -> Inv c s'.
Proof.
  intros I H. destruct (lookup s t) as [[p inp]|] eqn:El.
  2:{ cbn [step] in H. rewrite El in H. now injection H as <-. }
  destruct (step_state_forced _ _ _ _ _ _ _ _ _ _ H El) as (_ & _ & ->).
  eapply Inv_store; eauto. intros T. now apply (task_ok_manual c _ p).
Qed.

Lemma Inv_manual c s t s' : Inv c s -> step c s (EManual t) = Ok s' -> Inv c s'.
Proof.
  intros I. cbn [step]. destruct (lookup s t) as [[p inp]|] eqn:El; intros [= <-]; [|exact I].
  eapply Inv_store; eauto. intros T. now apply (task_ok_manual c _ p).
Qed.

Lemma Inv_cmdremove c s t s' : Inv c s -> step c s (ECmdRemove t) = Ok s' -> Inv c s'.
Proof.
  intros I [= <-]. cbn.
  set (keep := fun k : key => negb (tid_eqb (fst k) t)).
  set (fix_task := fun p : ptask =>
        if forallb keep (p_sat p) then p else set_manual (set_sat p (filter keep (p_sat p))) true).
  assert (Fid : forall p, p_id (fix_task p) = p_id p)
    by (intros p; unfold fix_task; now destruct (forallb keep (p_sat p))).
  (* a task keeps only atoms of other instances, which stay recorded; one that lost atoms becomes manual *)
  assert (F : forall p, task_ok c (done s) p ->
                task_ok c (filter (fun k => keep k || mem key_eqb k (abs_done s)) (done s)) (fix_task p)).
  { intros p (V & Sa & O). unfold fix_task. destruct (forallb keep (p_sat p)) eqn:E.
    - split; [exact V|]. split; [|exact O]. intros k Hk. apply filter_In. split; [auto|].
      rewrite forallb_forall in E. now rewrite (E k Hk).
    - split; [exact V|]. split; [|now left]. cbn. intros k Hk. apply filter_In in Hk. destruct Hk as [Hk Hkeep].
      apply filter_In. split; [auto|]. now rewrite Hkeep. }
  apply (Inv_next c s _ I); cbn; auto using NoDup_filter.
  - now rewrite map_map, (map_ext _ p_id Fid).
  - intros A k Hk. apply filter_In. split; [auto|]. apply mem_key_In in Hk. rewrite Hk. apply orb_true_r.
  - intros T q [[Hq|Hq]|Hq]; apply in_map_iff in Hq; destruct Hq as [p [<- Hp]]; apply F, T; auto.
Qed.

Lemma step_Inv c s e s' : Inv c s -> step c s e = Ok s' -> Inv c s'.
Proof.
  intros I H. destruct (quiet e) eqn:Q; [exact (Inv_core _ _ _ (step_quiet _ _ _ _ Q H) I)|].
  destruct e; try discriminate Q; clear Q.
  - eapply Inv_spawn; eauto.
  - eapply Inv_add; eauto.
  - eapply Inv_sat; eauto.
  - eapply Inv_output; eauto.
  - eapply Inv_state; eauto.
  - eapply Inv_release; eauto.
  - eapply Inv_submit; eauto.
  - eapply Inv_remove; eauto.
  - eapply Inv_merge; eauto.
  - eapply Inv_abs; eauto.
  - eapply Inv_restart; eauto.
  - eapply Inv_restore; eauto.
  - eapply Inv_spawnhist; eauto.
  - eapply Inv_transient; eauto.
  - eapply Inv_forcesat; eauto.
  - eapply Inv_stateforced; eauto.
  - eapply Inv_manual; eauto.
  - eapply Inv_cmdremove; eauto.
  - eapply Inv_crash; eauto.
  - eapply Inv_tick; eauto.
  - injection H as <-. apply Inv_with_done; [exact I|now right].
  - injection H as <-. now apply (Inv_next c s _ I).
  - cbn [step] in H. destruct (crash_mode s); [|destruct (Nat.eqb n (bcast s)); [|discriminate]];
      injection H as <-; [now apply (Inv_next c s _ I)|exact I].
Qed.

Lemma exec_Inv c tr : forall s s', Inv c s -> exec c s tr = Some s' -> Inv c s'.
Proof.
  intros s s' I. apply (exec_ind c s (fun _ => Inv c)); [exact I|]. intros _ s1 e s2. apply step_Inv.
Qed.

Theorem reachable_Inv c tr s : exec c (init_state c) tr = Some s -> Inv c s.
Proof. apply exec_Inv. apply Inv_init. Qed.
