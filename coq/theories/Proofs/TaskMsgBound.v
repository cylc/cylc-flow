(* Proofs/TaskMsgBound.v - retries and the submission bound (C02): under the environment hypothesis
   env_run, no step raises the potential sn + budget (step_budget, run_budget) *)
From Coq Require Import List Bool Arith ZArith Lia.
From Cylc Require Import Base.Util Gen.TaskMsgTables Model.TaskMsg Proofs.TaskMsgProofs Proofs.TaskMsgInv Proofs.TaskMsgEdges.
Import ListNotations.

Definition num_of (x : option timer) : nat := match x with Some y => tm_num y | None => 0 end.
Definition started_zone (s : status) : bool := rk Running <=? rk s.
(* how many more submissions the retry timers allow *)
Definition bud (s : status) (e sb N M : nat) : nat :=
  let A := (N - e) * (M + 1) in
  if started_zone s then A
  else if status_eqb s Waiting then 1 + (M - sb) + A
  else (M - sb) + A.
Definition budget (t : task) : nat :=
  bud (st t) (num_of (texec t)) (num_of (tsub t)) (cf_n t) (cf_m t).
Definition cbud (c : ctl) (N M : nat) : nat :=
  bud (c_st c) (num_of (c_exec c)) (num_of (c_sub c)) N M.
Lemma budget_cbud t : budget t = cbud (ctl_of t) (cf_n t) (cf_m t).
Proof. reflexivity. Qed.

(* environment hypothesis of the bound: expiry only for waiting tasks; a
   polled/internal "submission failed" is not delivered once the job started *)
Definition env2_msg (m : msg) (r : bool) (a : status) : bool :=
  match m with
  | MExpired => status_eqb a Waiting
  | MSubFail => r || negb (started_zone a)
  | _ => true
  end.
Definition env_c02 (t : task) (o : op) : bool :=
  match o with
  | OpPrep => true
  | OpSubRes ok => ok || negb (started_zone (st t))
  | OpMsg m f _ => env2_msg m (flag_received f) (st t)
  end.
Fixpoint env_run (t : task) (ops : list op) : bool :=
  match ops with
  | [] => true
  | o :: r => env_c02 t o && env_run (fst (step t o)) r
  end.

Lemma next_of_num x y' len : timer_ok x len -> next_of x = Some y' ->
  num_of x < len /\ tm_num y' = S (num_of x).
Proof.
  intros Hx. unfold next_of. destruct x as [y|]; [|discriminate]. intros H.
  destruct (Hx y eq_refl) as [Hl _]. unfold timer_next in H.
  destruct (tm_num y <? tm_len y) eqn:E; [|discriminate]. apply Nat.ltb_lt in E.
  injection H as <-. cbn. lia.
Qed.

(* the least budget: that of a started job *)
Lemma bud_ge s e sb N M : (N - e) * (M + 1) <= bud s e sb N M.
Proof. unfold bud. destruct (started_zone s), (status_eqb s Waiting); lia. Qed.

(* one action does not raise the budget, provided 'expired' comes to a waiting
   task and 'submission failed' acts before the job has started *)
Lemma act_budget m c N M :
  timer_ok (c_exec c) N -> timer_ok (c_sub c) M ->
  match m with
  | MExpired => c_st c = Waiting
  | MSubFail => started_zone (c_st c) = false
  | _ => True
  end ->
  cbud (act m c) N M <= cbud c N M.
Proof.
  intros TE TS Env. destruct c as [s xe xs]. cbn [c_st c_exec c_sub] in *. unfold cbud.
  destruct m; cbn [act c_st c_exec c_sub]; try apply Nat.le_refl; try apply bud_ge.
  - destruct s; cbn; lia.
  - destruct (next_of xe) as [x'|] eqn:NX; cbn [c_st c_exec c_sub num_of]; [|apply bud_ge].
    destruct (next_of_num _ _ _ TE NX) as [L1 ->]. eapply Nat.le_trans; [|apply bud_ge].
    (* each remaining execution retry stands for M + 1 submissions *)
    replace (N - num_of xe) with (S (N - S (num_of xe))) by lia. cbn. lia.
  - unfold bud. rewrite Env. destruct (next_of xs) as [x'|] eqn:NX; cbn [c_st c_exec c_sub num_of].
    + destruct (next_of_num _ _ _ TS NX) as [L1 ->]. destruct (status_eqb s Waiting); cbn; lia.
    + destruct (status_eqb s Waiting); cbn; lia.
  - rewrite Env. cbn. lia.
Qed.

Lemma pm_budget t m f n : wf t -> env2_msg m (flag_received f) (st t) = true ->
  let t' := fst (process_message t m f n) in
  sn t' + budget t' <= sn t + budget t.
Proof.
  intros W Env. cbn zeta.
  destruct (check t m f n) eqn:C; [|rewrite pm_ignored by exact C; cbn [fst]; lia].
  destruct (pm_frame t m f n) as (Hsn & Hn & Hm & _). rewrite !budget_cbud, Hsn, Hn, Hm.
  apply Nat.add_le_mono_l.
  destruct (pm_act t m f n C) as [-> _].
  (* the implied outputs first *)
  set (P c := ctl_wf (sn t) (cf_n t) (cf_m t) c /\ cbud c (cf_n t) (cf_m t) <= cbud (ctl_of t) (cf_n t) (cf_m t)).
  assert (I : P (implied_ctl m (hs t) (ht t) (ctl_of t))).
  { apply implied_ind; [split; [apply wf_ctl_wf; exact W|apply Nat.le_refl]| |];
      intros c [K L]; (split; [apply act_wf; exact K|]);
      (eapply Nat.le_trans; [apply act_budget; [apply K|apply K|exact I]|exact L]). }
  destruct I as [K L]. destruct (flag_received f && _) eqn:G; [exact L|].
  eapply Nat.le_trans; [apply act_budget; [apply K|apply K|]|exact L].
  destruct m; try exact I; cbn [implied_ctl backward env2_msg ctl_of c_st] in *.
  - destruct (flag_received f); cbn [orb andb] in *; [|apply negb_true_iff; exact Env].
    apply Nat.ltb_ge in G. apply Nat.leb_gt. cbn in *. lia.
  - apply status_eqb_eq. exact Env.
Qed.

Lemma prep_budget t : wf t -> preppable t = true ->
  sn (prep_raw t) + budget (prep_raw t) <= sn t + budget t.
Proof.
  intros W P. unfold preppable in P. apply orb_true_iff in P.
  unfold prep_raw, budget. destruct (status_eqb (st t) Preparing) eqn:E.
  - cbn. destruct (texec t), (tsub t); apply Nat.le_refl.
  - destruct P as [P|P]; [|congruence]. apply status_eqb_eq in P. rewrite P. cbn.
    destruct (texec t), (tsub t); cbn; lia.
Qed.

Lemma step_budget t o : wf t -> env_c02 t o = true ->
  sn (fst (step t o)) + budget (fst (step t o)) <= sn t + budget t.
Proof.
  intros W Env. destruct o as [|ok|m f rel]; cbn [step env_c02] in *.
  - destruct (preppable t) eqn:P; cbn [fst]; [apply prep_budget; assumption|lia].
  - apply pm_budget; [exact W|]. destruct ok; [reflexivity|exact Env].
  - apply pm_budget; assumption.
Qed.

Lemma run_budget ops : forall t, wf t -> env_run t ops = true ->
  sn (final t ops) + budget (final t ops) <= sn t + budget t.
Proof.
  induction ops as [|o r IH]; intros t W E; [cbn; lia|].
  cbn [env_run] in E. apply andb_true_iff in E. destruct E as [E1 E2].
  rewrite final_cons. pose proof (step_budget t o W E1). 
  pose proof (IH _ (wf_step t o W) E2). lia.
Qed.

(* the bound fails without the hypothesis: failed submit results after 'started' *)
Definition sfstart_ops : list op :=
  [OpPrep; OpMsg MStarted Received 0%Z; OpSubRes false;
   OpPrep; OpMsg MStarted Received 0%Z; OpSubRes false; OpPrep].
Lemma submit_bound_needs_env : (0 + 1) * (1 + 1) < sn (final (fresh 0 1 0) sfstart_ops).
Proof. vm_compute. auto. Qed.

(* b = false: failed and the execution timer; b = true: submit-failed and the
   submission timer *)
Lemma pm_fail_only_exhausted (b : bool) t m f n :
  let p := process_message t m f n in
  let o := if b then OSubmitFailed else OFailed in
  (In (ESpawn o) (snd p) \/ (In o (outs (fst p)) /\ ~ In o (outs t))) ->
  no_next (if b then tsub t else texec t) = true.
Proof.
  cbn zeta. destruct (check t m f n) eqn:C; [|rewrite pm_ignored by exact C; cbn; tauto].
  destruct (pm_act t m f n C) as [_ ->].
  intros [H|[H N]].
  - (* spawned: by the message's own action, with next() = None *)
    apply In_acts in H. destruct H as [H|[H|H]]; try (destruct b; discriminate H).
    destruct (flag_received f && _); [destruct b; discriminate H|].
    apply act_eff_inv in H. unfold no_next. destruct b; destruct H as [_ ->]; reflexivity.
  - (* completed: fail_final / subfail_final say so *)
    destruct (pm_outs_inv _ _ _ _ _ H) as [H'|H']; [contradiction|]. destruct b; destruct H' as [_ F];
      apply andb_true_iff in F; destruct F as [F _]; apply andb_true_iff in F; apply F.
Qed.

(* a new submission starts only from waiting, and after the first one only
   with a retry lined up *)
Lemma step_new_submission t o : wf t ->
  sn (fst (step t o)) <> sn t ->
  o = OpPrep /\ st t = Waiting /\ sn (fst (step t o)) = S (sn t) /\
  (sn t = 0 \/ retry_lined_up t = true).
Proof.
  intros W. destruct o as [|ok|m f rel]; cbn [step].
  - unfold preppable. destruct (status_eqb (st t) Waiting) eqn:E1; cbn [orb fst].
    + apply status_eqb_eq in E1. unfold prep_raw. rewrite E1. cbn. intros _.
      repeat split; auto. destruct (sn t) eqn:Z; [left; reflexivity|right].
      apply (wf_wait t W E1). lia.
    + destruct (status_eqb (st t) Preparing) eqn:E2; cbn [fst]; [|congruence].
      unfold prep_raw. rewrite E2. cbn. congruence.
  - destruct (pm_frame t (if ok then MSubmitted else MSubFail) Internal (Z.of_nat (sn t))) as [H _]. congruence.
  - destruct (pm_frame t m f (Z.of_nat (sn t) + rel)) as [H _]. congruence.
Qed.
