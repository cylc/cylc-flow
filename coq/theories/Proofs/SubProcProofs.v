(* Proofs/SubProcProofs.v — lemmas about Model/SubProc.v: the launch loop of process()
   inside a relation ([launches]), and the counting of command ids ([occ]: queued + running
   + called back + dropped) behind C42. *)
From Coq Require Import List Bool Arith Lia.
From Cylc Require Import Base.Util Model.SubProc.
Import ListNotations.

Notation ids := (map c_id).
Definition occ (i : nat) (l : list nat) : nat := count_occ Nat.eq_dec l i.
Arguments occ : simpl never.

Lemma occ_app i a b : occ i (a ++ b) = occ i a + occ i b.
Proof. apply count_occ_app. Qed.

Lemma occ_cons i x l : occ i (x :: l) = (if Nat.eq_dec x i then 1 else 0) + occ i l.
Proof. unfold occ. cbn [count_occ]. destruct (Nat.eq_dec x i); reflexivity. Qed.

Lemma occ_nil i : occ i [] = 0.
Proof. reflexivity. Qed.

Lemma occ_In i l : In i l <-> occ i l > 0.
Proof. apply count_occ_In. Qed.

Lemma occ_filter_split i (f : cmd -> bool) l :
  occ i (ids l) = occ i (ids (filter f l)) + occ i (ids (filter (fun c => negb (f c)) l)).
Proof.
  induction l as [|c r IH]; [reflexivity|]. cbn [filter map].
  destruct (f c); cbn [negb map]; rewrite !occ_cons; lia.
Qed.

(* A relation containing the launch loop ([launch_launches]), one rule per way an
   iteration ends or goes on; the rules carry only the premises the lemmas below
   need ([L_bad] has none), and every fact about the loop is an induction over it. *)
Inductive launches (fx stopping : bool) (size : nat) :
  list cmd -> list cmd -> list cmd -> list cmd -> list (nat * bool) -> list nat -> Prop :=
| L_stop queue running :
    queue = [] \/ size <= length running ->
    launches fx stopping size queue running queue running [] []
| L_refuse c q running q' r' cbs dr :
    stopping = true -> c_submit c = true ->
    launches fx stopping size q running q' r' cbs dr ->
    launches fx stopping size (c :: q) running q' r'
      (if fx then (c_id c, true) :: cbs else cbs) (if fx then dr else c_id c :: dr)
| L_bad c q running q' r' cbs dr :
    launches fx stopping size q running q' r' cbs dr ->
    launches fx stopping size (c :: q) running q' r' ((c_id c, false) :: cbs) dr
| L_start c q running q' r' cbs dr :
    length running < size -> c_bad c = false -> (stopping = true -> c_submit c = false) ->
    launches fx stopping size q (running ++ [c]) q' r' cbs dr ->
    launches fx stopping size (c :: q) running q' r' cbs dr.

Lemma launch_launches fx stopping size : forall queue running,
  let '(q', r', cbs, dr) := launch fx stopping size queue running in
  launches fx stopping size queue running q' r' cbs dr.
Proof.
  induction queue as [|c q IH]; intros running; cbn [launch].
  - apply L_stop. now left.
  - destruct (Nat.ltb_spec (length running) size) as [Hlt|Hge]; [|apply L_stop; now right].
    destruct (stopping && c_submit c) eqn:Es; [|destruct (c_bad c) eqn:Eb].
    + apply andb_true_iff in Es. destruct Es as [-> Es]. specialize (IH running).
      destruct (launch fx true size q running) as [[[q' r'] cbs] dr].
      destruct fx; [apply (L_refuse true)|apply (L_refuse false)]; auto.
    + specialize (IH running). destruct (launch fx stopping size q running) as [[[q' r'] cbs] dr].
      apply L_bad, IH.
    + specialize (IH (running ++ [c])).
      destruct (launch fx stopping size q (running ++ [c])) as [[[q' r'] cbs] dr].
      apply L_start; auto. intros ->. exact Es.
Qed.

Section Launches.
Context {fx stopping : bool} {size : nat}.

Lemma launches_bound queue running q' r' cbs dr :
  launches fx stopping size queue running q' r' cbs dr ->
  length running <= size -> length r' <= size.
Proof.
  induction 1 as [| | |c q running q' r' cbs dr Hlt _ _ _ IH]; auto.
  intros _. apply IH. rewrite app_length. cbn. lia.
Qed.

(* what is added to the running list *)
Lemma launches_new queue running q' r' cbs dr :
  launches fx stopping size queue running q' r' cbs dr ->
  forall x, In x r' -> In x running \/
    (In x queue /\ c_bad x = false /\ (stopping = true -> c_submit x = false)).
Proof.
  induction 1 as [|c q running q' r' cbs dr _ _ _ IH|c q running q' r' cbs dr _ IH
                  |c q running q' r' cbs dr _ Hb Hs _ IH];
    intros x Hx; [auto|destruct (IH x Hx) as [?|(? & ?)]; auto using in_cons..|].
  destruct (IH x Hx) as [Hr|(? & ?)]; [|auto using in_cons].
  apply in_app_iff in Hr. destruct Hr as [?|[<-|[]]]; auto using in_eq.
Qed.

(* nothing is lost, nothing is invented *)
Lemma launches_count i queue running q' r' cbs dr :
  launches fx stopping size queue running q' r' cbs dr ->
  occ i (ids queue) + occ i (ids running)
  = occ i (ids q') + occ i (ids r') + occ i (map fst cbs) + occ i dr.
Proof.
  induction 1 as [| | |c q running q' r' cbs dr _ _ _ _ IH]; cbn [map fst].
  - rewrite occ_nil. lia.
  - destruct fx; cbn [map fst]; rewrite !occ_cons; lia.
  - rewrite !occ_cons. lia.
  - rewrite map_app, occ_app in IH. cbn [map] in IH. rewrite occ_cons, occ_nil in IH.
    rewrite occ_cons. lia.
Qed.

Lemma launches_fixed_no_drop queue running q' r' cbs dr :
  launches fx stopping size queue running q' r' cbs dr -> fx = true -> dr = [].
Proof. induction 1; intros ->; auto. Qed.

(* the unfixed loop drops only queued jobs-submit commands, only while stopping *)
Lemma launches_drop_reason queue running q' r' cbs dr :
  launches fx stopping size queue running q' r' cbs dr ->
  forall i, In i dr ->
    stopping = true /\ Exists (fun c => c_id c = i /\ c_submit c = true) queue.
Proof.
  induction 1 as [|c q running q' r' cbs dr Hs Hc _ IH|c q running q' r' cbs dr _ IH
                  |c q running q' r' cbs dr _ _ _ _ IH];
    intros i Hi; [destruct Hi| |destruct (IH i Hi); auto..].
  destruct fx; [destruct (IH i Hi); auto|].
  destruct Hi as [<-|Hi]; [auto|destruct (IH i Hi); auto].
Qed.

End Launches.

Lemma process_spec fx done p p' o :
  process fx done p = (p', o) ->
  exists q' r' cbs dr,
    launches fx (p_stopping p) (p_size p) (p_queue p)
             (filter (fun c => negb (is_done done c)) (p_running p)) q' r' cbs dr
    /\ p' = {| p_size := p_size p; p_queue := q'; p_running := r';
               p_stopping := p_stopping p; p_closed := p_closed p |}
    /\ o = {| o_callbacks := map (fun c => (c_id c, false)) (filter (is_done done) (p_running p)) ++ cbs;
              o_dropped := dr |}.
Proof.
  unfold process.
  pose proof (launch_launches fx (p_stopping p) (p_size p) (p_queue p)
                (filter (fun c => negb (is_done done c)) (p_running p))) as L.
  destruct (launch _ _ _ _ _) as [[[q' r'] cbs] dr].
  intros [= <- <-]. exists q', r', cbs, dr. auto.
Qed.

Lemma process_bound fx done p p' o :
  process fx done p = (p', o) -> length (p_running p) <= p_size p ->
  length (p_running p') <= p_size p' /\ p_size p' = p_size p.
Proof.
  intros E H. destruct (process_spec _ _ _ _ _ E) as (q' & r' & cbs & dr & L & -> & _). cbn.
  split; [|reflexivity]. apply (launches_bound _ _ _ _ _ _ L).
  pose proof (filter_length_le (fun c => negb (is_done done c)) (p_running p)). lia.
Qed.

Definition cb_ids (o : outcome) : list nat := map fst (o_callbacks o).

Lemma process_count fx done p p' o i :
  process fx done p = (p', o) ->
  occ i (ids (p_queue p)) + occ i (ids (p_running p))
  = occ i (ids (p_queue p')) + occ i (ids (p_running p')) + occ i (cb_ids o) + occ i (o_dropped o).
Proof.
  intros E. destruct (process_spec _ _ _ _ _ E) as (q' & r' & cbs & dr & L & -> & ->).
  unfold cb_ids. cbn [p_queue p_running o_callbacks o_dropped].
  rewrite map_app, occ_app, map_map. change (fun c => fst (c_id c, false)) with c_id.
  pose proof (launches_count i _ _ _ _ _ _ L).
  pose proof (occ_filter_split i (is_done done) (p_running p)). lia.
Qed.

(* a command enters the running list only from the queue, never a jobs-submit
   once stopping *)
Lemma process_launched fx done p p' o :
  process fx done p = (p', o) ->
  forall c, In c (p_running p') -> In c (p_running p) \/
    (In c (p_queue p) /\ c_bad c = false /\ (p_stopping p = true -> c_submit c = false)).
Proof.
  intros E c Hc. destruct (process_spec _ _ _ _ _ E) as (q' & r' & cbs & dr & L & -> & _).
  destruct (launches_new _ _ _ _ _ _ L c Hc) as [H|H]; [|auto].
  left. apply filter_In in H. tauto.
Qed.

Lemma process_drop_reason fx done p p' o :
  process fx done p = (p', o) ->
  forall i, In i (o_dropped o) ->
    p_stopping p = true /\ exists c, In c (p_queue p) /\ c_id c = i /\ c_submit c = true.
Proof.
  intros E i Hi. destruct (process_spec _ _ _ _ _ E) as (q' & r' & cbs & dr & L & _ & ->).
  rewrite <- Exists_exists. exact (launches_drop_reason _ _ _ _ _ _ L i Hi).
Qed.

Lemma process_fixed_no_drop done p p' o : process true done p = (p', o) -> o_dropped o = [].
Proof.
  intros E. destruct (process_spec _ _ _ _ _ E) as (q' & r' & cbs & dr & L & _ & ->).
  exact (launches_fixed_no_drop _ _ _ _ _ _ L eq_refl).
Qed.

Definition put_ids (e : event) : list nat := match e with EPut c => [c_id c] | _ => [] end.

(* put, set_stopping and close only append to the queue and raise flags; the other two
   events are process(), for terminate() on the closed pool drained of its queue *)
Inductive step_is fx p : event -> pool -> outcome -> Prop :=
| S_quiet e q st cl cbs :
    (forall i, occ i (ids (p_queue p)) + occ i (put_ids e) = occ i (ids q) + occ i (map fst cbs)) ->
    (p_stopping p = true -> st = true) -> (p_closed p = true -> cl = true) ->
    step_is fx p e {| p_size := p_size p; p_queue := q; p_running := p_running p;
                      p_stopping := st; p_closed := cl |}
            {| o_callbacks := cbs; o_dropped := [] |}
| S_process done p' o : process fx done p = (p', o) -> step_is fx p (EProcess done) p' o
| S_terminate done p' o :
    process fx done {| p_size := p_size p; p_queue := []; p_running := p_running p;
                       p_stopping := true; p_closed := true |} = (p', o) ->
    step_is fx p (ETerminate done) p'
      (if fx then {| o_callbacks := map (fun i => (i, true)) (ids (p_queue p)) ++ o_callbacks o;
                     o_dropped := o_dropped o |}
       else {| o_callbacks := o_callbacks o; o_dropped := ids (p_queue p) ++ o_dropped o |}).

Lemma step_cases fx p e p' o : step fx p e = (p', o) -> step_is fx p e p' o.
Proof.
  destruct e as [c|done| | |done]; cbn [step].
  - destruct (p_closed p || (p_stopping p && c_submit c)); intros [= <- <-].
    + destruct p. apply S_quiet; cbn; auto.
    + apply S_quiet; auto. intros i. rewrite map_app, occ_app. symmetry. apply Nat.add_0_r.
  - apply S_process.
  - intros [= <- <-]. apply S_quiet; auto.
  - intros [= <- <-]. apply S_quiet; auto.
  - destruct (process fx done _) as [p2 o2] eqn:E. intros [= <- <-]. apply S_terminate, E.
Qed.

Lemma step_count fx p e p' o i :
  step fx p e = (p', o) ->
  occ i (ids (p_queue p)) + occ i (ids (p_running p)) + occ i (put_ids e)
  = occ i (ids (p_queue p')) + occ i (ids (p_running p')) + occ i (cb_ids o) + occ i (o_dropped o).
Proof.
  intros E. destruct (step_cases _ _ _ _ _ E) as [? ? ? ? ? Hq|done ? ? Ep|done ? ? Ep];
    cbn [put_ids].
  - unfold cb_ids. cbn. specialize (Hq i). rewrite occ_nil. lia.
  - rewrite occ_nil. pose proof (process_count _ _ _ _ _ i Ep). lia.
  - pose proof (process_count _ _ _ _ _ i Ep) as H. cbn [p_queue p_running map] in H.
    rewrite occ_nil in *. unfold cb_ids in *.
    destruct fx; cbn [o_callbacks o_dropped].
    + rewrite map_app, occ_app, map_map. cbn [fst]. rewrite map_id. lia.
    + rewrite occ_app. lia.
Qed.

Lemma step_bound fx p e p' o :
  step fx p e = (p', o) -> length (p_running p) <= p_size p ->
  length (p_running p') <= p_size p' /\ p_size p' = p_size p.
Proof.
  intros E. destruct (step_cases _ _ _ _ _ E) as [|done ? ? Ep|done ? ? Ep].
  - cbn. auto.
  - exact (process_bound _ _ _ _ _ Ep).
  - exact (process_bound _ _ _ _ _ Ep).
Qed.

Lemma step_fixed_no_drop p e p' o : step true p e = (p', o) -> o_dropped o = [].
Proof.
  intros E. destruct (step_cases _ _ _ _ _ E) as [|done ? ? Ep|done ? ? Ep].
  - reflexivity.
  - exact (process_fixed_no_drop _ _ _ _ Ep).
  - exact (process_fixed_no_drop _ _ _ _ Ep).
Qed.

Definition puts_of (es : list event) : list nat := flat_map put_ids es.
Definition callbacks_of (os : list outcome) : list nat := flat_map cb_ids os.
Definition dropped_of (os : list outcome) : list nat := flat_map o_dropped os.

(* a history, step by step *)
Lemma run_steps fx (P : pool -> list event -> pool -> list outcome -> Prop) :
  (forall p, P p [] p []) ->
  (forall p e p1 o es p2 os,
     step fx p e = (p1, o) -> P p1 es p2 os -> P p (e :: es) p2 (o :: os)) ->
  forall es p p' os, run fx p es = (p', os) -> P p es p' os.
Proof.
  intros Hnil Hcons. induction es as [|e r IH]; intros p p' os; cbn [run].
  - intros [= <- <-]. apply Hnil.
  - destruct (step fx p e) as [p1 o] eqn:Es. destruct (run fx p1 r) as [p2 os2] eqn:Er.
    intros [= <- <-]. exact (Hcons _ _ _ _ _ _ _ Es (IH _ _ _ Er)).
Qed.

Lemma run_count fx i : forall es p p' os,
  run fx p es = (p', os) ->
  occ i (ids (p_queue p)) + occ i (ids (p_running p)) + occ i (puts_of es)
  = occ i (ids (p_queue p')) + occ i (ids (p_running p')) + occ i (callbacks_of os) + occ i (dropped_of os).
Proof.
  apply run_steps.
  - intros p. cbn. rewrite ?occ_nil. lia.
  - intros p e p1 o es p2 os Es IH. pose proof (step_count _ _ _ _ _ i Es).
    unfold puts_of, callbacks_of, dropped_of in *. cbn [flat_map]. rewrite !occ_app. lia.
Qed.

Lemma run_bound fx : forall es p p' os,
  run fx p es = (p', os) -> length (p_running p) <= p_size p ->
  length (p_running p') <= p_size p' /\ p_size p' = p_size p.
Proof.
  refine (run_steps fx _ _ _).
  - auto.
  - intros p e p1 o es p2 os Es IH H. destruct (step_bound _ _ _ _ _ Es H) as [H1 H2].
    destruct (IH H1) as [H3 H4]. split; [exact H3|congruence].
Qed.

Lemma run_fixed_no_drop : forall es p p' os, run true p es = (p', os) -> dropped_of os = [].
Proof.
  refine (run_steps true _ _ _).
  - reflexivity.
  - intros p e p1 o es p2 os Es IH. unfold dropped_of in *. cbn [flat_map].
    rewrite (step_fixed_no_drop _ _ _ _ Es). exact IH.
Qed.

Lemma NoDup_occ l : NoDup l <-> forall i, occ i l <= 1.
Proof. apply NoDup_count_occ. Qed.
