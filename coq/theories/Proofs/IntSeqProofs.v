(* Proofs/IntSeqProofs.v — integer sequences (Model/IntSeq.v): the set a state
   stands for and the set a recurrence form denotes; the queries against the
   former, the constructor against the latter. *)
From Coq Require Import List ZArith Bool Lia.
From Cylc Require Import Base.Util Model.IntSeq.
Import ListNotations.
Local Open Scope Z_scope.

(* The grid a + i*k: g is on it iff (g - a) mod k = 0. *)
Lemma grid_iff a k g : k <> 0 -> ((g - a) mod k = 0 <-> exists i, g = a + i * k).
Proof.
  intros Hk. rewrite Z.mod_divide by exact Hk.
  split; intros [i Hi]; exists i; lia.
Qed.

Lemma grid_self a k : (a - a) mod k = 0.
Proof. rewrite Z.sub_diag. apply Zmod_0_l. Qed.

Lemma grid_add a k g j : k <> 0 -> (g - a) mod k = 0 -> (g + j * k - a) mod k = 0.
Proof.
  intros Hk Hg. replace (g + j * k - a) with (g - a + j * k) by lia.
  rewrite Z.mod_add by exact Hk. exact Hg.
Qed.

(* Distinct grid points are at least a step apart.  Every "nearest grid point"
   fact below is an instance: a grid point within less than a step of a bound
   is the nearest one. *)
Lemma grid_gap a k g h :
  0 < k -> (g - a) mod k = 0 -> (h - a) mod k = 0 -> g < h -> g + k <= h.
Proof.
  intros Hk Hg Hh Hlt.
  apply grid_iff in Hg; [|lia]. destruct Hg as [i ->].
  apply grid_iff in Hh; [|lia]. destruct Hh as [j ->].
  assert (i < j) by nia. nia.
Qed.

(* x - (x - a) mod k is the grid point in (x - k, x] *)
Lemma grid_floor a k x :
  0 < k -> (x - (x - a) mod k - a) mod k = 0 /\ x - k < x - (x - a) mod k <= x.
Proof.
  intros Hk. pose proof (Z.mod_pos_bound (x - a) k Hk). split; [|lia].
  apply grid_iff; [lia|]. exists ((x - a) / k).
  pose proof (Z.div_mod (x - a) k). lia.
Qed.

Lemma grid_next a k p : 0 < k ->
  let nxt := p + k - (p - a) mod k in
  (nxt - a) mod k = 0 /\ p < nxt /\
  forall g, (g - a) mod k = 0 -> p < g -> nxt <= g.
Proof.
  intros Hk nxt. destruct (grid_floor a k p Hk) as [Hf Hb].
  assert (Hn : (nxt - a) mod k = 0).
  { replace nxt with (p - (p - a) mod k + 1 * k) by (subst nxt; lia).
    apply grid_add; [lia|exact Hf]. }
  split; [exact Hn|]. split; [subst nxt; lia|].
  intros g Hg Hlt. destruct (Z.le_gt_cases nxt g) as [|Hgn]; [assumption|].
  pose proof (grid_gap a k g nxt Hk Hg Hn Hgn). subst nxt. lia.
Qed.

Lemma grid_prev a k p : 0 < k ->
  let i := (p - a) mod k in
  let prev := if i =? 0 then p - k else p - i in
  (prev - a) mod k = 0 /\ prev < p /\
  forall g, (g - a) mod k = 0 -> g < p -> g <= prev.
Proof.
  intros Hk i prev. destruct (grid_floor a k p Hk) as [Hf Hb]. fold i in Hf, Hb. subst prev.
  destruct (Z.eqb_spec i 0) as [Hp|Hne].
  - (* p itself is a grid point *)
    split; [|split; [lia|]].
    + replace (p - k) with (p + -1 * k) by lia. apply grid_add; [lia|exact Hp].
    + intros g Hg Hlt. pose proof (grid_gap a k g p Hk Hg Hp Hlt). lia.
  - split; [exact Hf|split; [lia|]].
    intros g Hg Hlt. destruct (Z.le_gt_cases g (p - i)) as [|Hgp]; [assumption|].
    pose proof (grid_gap a k (p - i) g Hk Hf Hg Hgp). lia.
Qed.

(* the set of points an exclusion-free state stands for: the progression
   from p_start with step i_step (a single point when the step is None/P0),
   within [p_start, p_stop] *)
Definition core_member (c : core) (p : Z) : Prop :=
  c_start c <= p /\ (forall e, c_stop c = Some e -> p <= e) /\
  match truthy_step (c_step c) with
  | Some k => exists i, p = c_start c + i * k
  | None => p = c_start c
  end.

Definition excl_member (x : list Z * list core) (p : Z) : Prop :=
  In p (fst x) \/ exists c, In c (snd x) /\ core_member c p.

(* ... minus the exclusion points and the points of the exclusion sequences *)
Definition seq_member (s : seq) (p : Z) : Prop :=
  core_member (s_core s) p /\ forall x, s_excl s = Some x -> ~ excl_member x p.

(* what each query must return with respect to a set M *)
Definition is_least_gt (M : Z -> Prop) (p : Z) (r : option Z) : Prop :=
  match r with
  | Some m => M m /\ p < m /\ forall m', M m' -> p < m' -> m <= m'
  | None => forall m', M m' -> m' <= p
  end.
Definition is_least_ge (M : Z -> Prop) (p : Z) (r : option Z) : Prop :=
  match r with
  | Some m => M m /\ p <= m /\ forall m', M m' -> p <= m' -> m <= m'
  | None => forall m', M m' -> m' < p
  end.
Definition is_greatest_lt (M : Z -> Prop) (p : Z) (r : option Z) : Prop :=
  match r with
  | Some m => M m /\ m < p /\ forall m', M m' -> m' < p -> m' <= m
  | None => forall m', M m' -> p <= m'
  end.
Definition is_min (M : Z -> Prop) (r : option Z) : Prop :=
  match r with
  | Some m => M m /\ forall m', M m' -> m <= m'
  | None => forall m', ~ M m'
  end.
Definition is_max (M : Z -> Prop) (r : option Z) : Prop :=
  match r with
  | Some m => M m /\ forall m', M m' -> m' <= m
  | None => forall m', ~ M m'
  end.

(* state shapes *)
Definition stepped (s : seq) (k : Z) : Prop :=
  truthy_step (c_step (s_core s)) = Some k /\ 0 < k.
Definition oneoff (s : seq) : Prop := truthy_step (c_step (s_core s)) = None.
Definition stop_on_grid (s : seq) (k : Z) : Prop :=
  forall e, c_stop (s_core s) = Some e -> (e - c_start (s_core s)) mod k = 0.

Definition regular (s : seq) : Prop := (exists k, stepped s k) \/ oneoff s.

Lemma truthy_step_some st k : truthy_step st = Some k -> st = Some k /\ k <> 0.
Proof.
  unfold truthy_step. destruct st as [k'|]; [|discriminate].
  destruct (k' =? 0) eqn:E; [discriminate|]. intros [= <-]. split; [reflexivity|lia].
Qed.

Lemma le_stop_iff (o : option Z) p :
  match o with None => true | Some e => p <=? e end = true <-> forall e, o = Some e -> p <= e.
Proof.
  destruct o as [e|]; split.
  - intros H e' [= <-]. lia.
  - intros H. specialize (H e eq_refl). lia.
  - intros _ e [=].
  - intros _. reflexivity.
Qed.

Lemma on_seq_core_iff c p :
  on_seq_core c p = true <->
  match truthy_step (c_step c) with
  | Some k => exists i, p = c_start c + i * k
  | None => p = c_start c
  end.
Proof.
  unfold on_seq_core. destruct (truthy_step (c_step c)) as [k|] eqn:Et; [|apply Z.eqb_eq].
  apply truthy_step_some in Et. destruct Et as [_ Hk].
  etransitivity; [apply Z.eqb_eq|apply grid_iff, Hk].
Qed.

Lemma valid_core_iff c p : valid_core c p = true <-> core_member c p.
Proof.
  unfold valid_core, core_member. split.
  - intros H. apply andb_prop in H. destruct H as [H Hhi].
    apply andb_prop in H. destruct H as [Hon Hlo].
    split; [apply Z.leb_le, Hlo|]. split; [apply le_stop_iff, Hhi|apply on_seq_core_iff, Hon].
  - intros (Hlo & Hhi & Hon). apply andb_true_intro. split; [apply andb_true_intro; split|].
    + apply on_seq_core_iff, Hon.
    + apply Z.leb_le, Hlo.
    + apply le_stop_iff, Hhi.
Qed.

Lemma core_member_grid c k p :
  truthy_step (c_step c) = Some k ->
  (core_member c p <->
   c_start c <= p /\ (forall e, c_stop c = Some e -> p <= e) /\ (p - c_start c) mod k = 0).
Proof.
  intros Hk. unfold core_member. rewrite Hk.
  apply truthy_step_some in Hk. destruct Hk as [_ Hk].
  rewrite (grid_iff _ k p Hk). reflexivity.
Qed.

Lemma excl_has_iff x p : excl_has x p = true <-> excl_member x p.
Proof.
  unfold excl_has, excl_member. rewrite orb_true_iff, (mem_In Z.eqb Z.eqb_eq), existsb_exists.
  split; (intros [H|[c [Hc Hv]]]; [left; exact H|right; exists c; split; [exact Hc|]]);
    apply valid_core_iff; exact Hv.
Qed.

Lemma excluded_false_iff s p :
  excluded s p = false <-> forall x, s_excl s = Some x -> ~ excl_member x p.
Proof.
  unfold excluded. destruct (s_excl s) as [x|].
  - rewrite <- not_true_iff_false, excl_has_iff. split.
    + intros H x' [= <-]. exact H.
    + intros H. exact (H x eq_refl).
  - split; [intros _ x [=]|reflexivity].
Qed.

Lemma seq_member_iff s p :
  seq_member s p <-> core_member (s_core s) p /\ excluded s p = false.
Proof. unfold seq_member. rewrite excluded_false_iff. reflexivity. Qed.

Lemma is_valid_unfold s p :
  is_valid s p = negb (excluded s p) && valid_core (s_core s) p.
Proof.
  unfold is_valid, is_on_sequence, valid_core.
  destruct (excluded s p); cbn; [reflexivity|].
  destruct (on_seq_core (s_core s) p); reflexivity.
Qed.

Lemma is_valid_iff s p : is_valid s p = true <-> seq_member s p.
Proof.
  rewrite is_valid_unfold, andb_true_iff, negb_true_iff, valid_core_iff, seq_member_iff.
  tauto.
Qed.

Lemma member_on_sequence s p : seq_member s p -> is_on_sequence s p = true.
Proof.
  intros H. apply is_valid_iff in H. unfold is_valid in H.
  destruct (is_on_sequence s p); [reflexivity|discriminate].
Qed.

Lemma on_sequence_member s p :
  is_on_sequence s p = true -> c_start (s_core s) <= p ->
  (forall e, c_stop (s_core s) = Some e -> p <= e) -> seq_member s p.
Proof.
  unfold is_on_sequence. destruct (excluded s p) eqn:Ex; [discriminate|].
  intros Hon Hlo Hhi. apply seq_member_iff. split; [|exact Ex].
  split; [exact Hlo|]. split; [exact Hhi|apply on_seq_core_iff, Hon].
Qed.

Lemma member_ge_start s p : seq_member s p -> c_start (s_core s) <= p.
Proof. intros [[H _] _]. exact H. Qed.

Lemma member_le_stop s p e : seq_member s p -> c_stop (s_core s) = Some e -> p <= e.
Proof. intros [(_ & H & _) _]. apply H. Qed.

Lemma member_not_excluded s p : seq_member s p -> excluded s p = false.
Proof. intros H. apply seq_member_iff in H. apply H. Qed.

Lemma oneoff_member s p : oneoff s -> seq_member s p -> p = c_start (s_core s).
Proof. unfold oneoff. intros Ho [(_ & _ & H) _]. rewrite Ho in H. exact H. Qed.

(* with start <= stop the start point is on the progression, whatever the step *)
Lemma core_member_start c :
  (forall e, c_stop c = Some e -> c_start c <= e) -> core_member c (c_start c).
Proof.
  intros Hne. split; [lia|]. split; [exact Hne|].
  destruct (truthy_step (c_step c)); [exists 0; lia|reflexivity].
Qed.

Lemma start_member s :
  (forall e, c_stop (s_core s) = Some e -> c_start (s_core s) <= e) ->
  excluded s (c_start (s_core s)) = false -> seq_member s (c_start (s_core s)).
Proof. intros Hne Hex. apply seq_member_iff. split; [apply core_member_start, Hne|exact Hex]. Qed.

Lemma in_bounds_cases s p :
  (in_bounds s p = Some p /\
   c_start (s_core s) <= p /\ forall e, c_stop (s_core s) = Some e -> p <= e) \/
  (in_bounds s p = None /\
   (p < c_start (s_core s) \/ exists e, c_stop (s_core s) = Some e /\ e < p)).
Proof.
  unfold in_bounds, in_bounds_core.
  destruct (Z.leb_spec (c_start (s_core s)) p) as [Hlo|Hlo]; cbn [andb]; [|right; auto].
  destruct (c_stop (s_core s)) as [e|].
  - destruct (Z.leb_spec p e) as [Hhi|Hhi].
    + left. split; [reflexivity|]. split; [exact Hlo|]. intros e' [= <-]. exact Hhi.
    + right. split; [reflexivity|]. right. exists e. auto.
  - left. split; [reflexivity|]. split; [exact Hlo|]. intros e [=].
Qed.

(* a point at or above the start point is out of bounds only by being above
   the stop point, and then above every member *)
Lemma members_below s p m :
  in_bounds s p = None -> c_start (s_core s) <= p -> seq_member s m -> m < p.
Proof.
  intros Hn Hp Hm.
  destruct (in_bounds_cases s p) as [(H & _)|(_ & [Hlt|(e & He & Hlt)])]; [congruence|lia|].
  pose proof (member_le_stop s m e Hm He). lia.
Qed.

Lemma excluded_opt_some s r : excluded_opt s (Some r) = excluded s r.
Proof. unfold excluded_opt, excluded. destruct (s_excl s); reflexivity. Qed.

(* `None in self.exclusions` is False *)
Lemma excluded_opt_none s : excluded_opt s None = false.
Proof. unfold excluded_opt. destruct (s_excl s); reflexivity. Qed.

(* get_next_point, get_next_point_on_sequence and get_prev_point each step to
   the neighbouring grid point, answer None when that is out of bounds, move on
   when it is excluded and answer it otherwise.  So the neighbour is the answer
   for the exclusion-free sequence ([core_next], [core_prev]), and exclusions
   only filter it ([nearest_keep], [nearest_skip]). *)
Lemma core_next s k p :
  stepped s k -> c_start (s_core s) - k <= p ->
  is_least_gt (core_member (s_core s)) p
              (in_bounds s (p + k - (p - c_start (s_core s)) mod k)).
Proof.
  intros [Hk Hpos] Hp.
  destruct (grid_next (c_start (s_core s)) k p Hpos) as (Hg & Hlt & Hleast).
  set (nxt := p + k - (p - c_start (s_core s)) mod k) in *.
  destruct (in_bounds_cases s nxt) as [(-> & Hlo & Hhi)|(-> & Hout)]; cbn.
  - split; [apply (core_member_grid _ k _ Hk); auto|]. split; [exact Hlt|].
    intros m Hm. apply (core_member_grid _ k _ Hk) in Hm. apply Hleast, Hm.
  - intros m Hm. apply (core_member_grid _ k _ Hk) in Hm. destruct Hm as (Hlo & Hhi & Hgm).
    destruct (Z.le_gt_cases m p) as [|Hgt]; [assumption|]. specialize (Hleast m Hgm Hgt).
    destruct Hout as [Hlt'|(e & He & Hlt')]; [|specialize (Hhi e He); lia].
    (* nxt lies above start - k, so it cannot be below the grid point start *)
    pose proof (grid_gap _ k nxt _ Hpos Hg (grid_self _ k) Hlt'). lia.
Qed.

Lemma core_prev s k p :
  stepped s k -> stop_on_grid s k ->
  (forall e, c_stop (s_core s) = Some e -> p <= e + k) ->
  is_greatest_lt (core_member (s_core s)) p
    (in_bounds s (if (p - c_start (s_core s)) mod k =? 0 then p - k
                  else p - (p - c_start (s_core s)) mod k)).
Proof.
  intros [Hk Hpos] Hsg Hp.
  destruct (grid_prev (c_start (s_core s)) k p Hpos) as (Hg & Hlt & Hgreat).
  set (prev := if (p - c_start (s_core s)) mod k =? 0 then p - k
               else p - (p - c_start (s_core s)) mod k) in *.
  destruct (in_bounds_cases s prev) as [(-> & Hlo & Hhi)|(-> & Hout)]; cbn.
  - split; [apply (core_member_grid _ k _ Hk); auto|]. split; [exact Hlt|].
    intros m Hm. apply (core_member_grid _ k _ Hk) in Hm. apply Hgreat, Hm.
  - intros m Hm. apply (core_member_grid _ k _ Hk) in Hm. destruct Hm as (Hlo & Hhi & Hgm).
    destruct (Z.le_gt_cases p m) as [|Hgt]; [assumption|]. specialize (Hgreat m Hgm Hgt).
    destruct Hout as [Hlt'|(e & He & Hlt')]; [lia|].
    (* prev lies below stop + k, so it cannot be above the grid point stop *)
    pose proof (grid_gap _ k e prev Hpos (Hsg e He) Hg Hlt'). specialize (Hp e He). lia.
Qed.

(* [is_least_gt] is [nearest Z.lt Z.le], [is_greatest_lt] the same read downwards *)
Definition nearest (lt le : Z -> Z -> Prop) (M : Z -> Prop) (p : Z) (r : option Z) : Prop :=
  match r with
  | Some m => M m /\ lt p m /\ forall m', M m' -> lt p m' -> le m m'
  | None => forall m', M m' -> le m' p
  end.

Section Nearest.
  Variables lt le : Z -> Z -> Prop.
  Hypothesis lt_trans : forall a b c, lt a b -> lt b c -> lt a c.
  Hypothesis le_lt_eq : forall a b, le a b -> a = b \/ lt a b.
  Hypothesis le_or_lt : forall a b, le a b \/ lt b a.
  Hypothesis le_not_lt : forall a b, le a b -> lt b a -> False.

  Lemma nearest_keep s p c :
    nearest lt le (core_member (s_core s)) p c ->
    (forall n, c = Some n -> excluded s n = false) ->
    nearest lt le (seq_member s) p c.
  Proof.
    destruct c as [n|]; cbn.
    - intros (Hn & Hlt & Hmin) Hex. split; [apply seq_member_iff; auto|]. split; [exact Hlt|].
      intros m [Hm _]. apply Hmin, Hm.
    - intros H _ m [Hm _]. apply H, Hm.
  Qed.

  Lemma nearest_skip s p n r :
    nearest lt le (core_member (s_core s)) p (Some n) -> excluded s n = true ->
    nearest lt le (seq_member s) n r -> nearest lt le (seq_member s) p r.
  Proof.
    intros (_ & Hpn & Hmin) Hex Hr.
    assert (Hbeyond : forall m, seq_member s m -> lt p m -> lt n m).
    { intros m Hm Hpm. apply seq_member_iff in Hm. destruct Hm as [Hm Hnx].
      destruct (le_lt_eq n m (Hmin m Hm Hpm)) as [<-|]; [congruence|assumption]. }
    destruct r as [m|]; cbn in *.
    - destruct Hr as (Hm & Hnm & Hleast). split; [exact Hm|]. split; [exact (lt_trans _ _ _ Hpn Hnm)|].
      intros m' Hm' Hpm'. apply Hleast; auto.
    - intros m Hm. destruct (le_or_lt m p) as [|Hpm]; [assumption|].
      destruct (le_not_lt m n (Hr m Hm) (Hbeyond m Hm Hpm)).
  Qed.
End Nearest.

Lemma least_gt_skip s p n r :
  is_least_gt (core_member (s_core s)) p (Some n) -> excluded s n = true ->
  is_least_gt (seq_member s) n r -> is_least_gt (seq_member s) p r.
Proof. apply (nearest_skip Z.lt Z.le); intros; lia. Qed.

Lemma greatest_lt_skip s p n r :
  is_greatest_lt (core_member (s_core s)) p (Some n) -> excluded s n = true ->
  is_greatest_lt (seq_member s) n r -> is_greatest_lt (seq_member s) p r.
Proof. apply (nearest_skip (fun a b => b < a) (fun a b => b <= a)); intros; lia. Qed.

Lemma next_stepped fuel s k p r :
  stepped s k -> c_start (s_core s) - k <= p ->
  get_next_point fuel s p = Ok r -> is_least_gt (seq_member s) p r.
Proof.
  intros Hs. revert p.
  induction fuel as [|fl IH]; intros p Hp; cbn [get_next_point]; [discriminate|].
  pose proof (core_next s k p Hs Hp) as Hc. destruct Hs as [Hk Hpos]. rewrite Hk.
  destruct (in_bounds s _) as [n|].
  - destruct (excluded s n) eqn:Ex.
    + intros H. apply (least_gt_skip s p n r Hc Ex). apply IH; [|exact H].
      destruct Hc as ((Hlo & _) & _). lia.
    + intros [= <-]. apply nearest_keep; [exact Hc|]. intros n' [= <-]. exact Ex.
  - intros [= <-]. apply nearest_keep; [exact Hc|discriminate].
Qed.

Lemma prev_stepped fuel s k p r :
  stepped s k -> stop_on_grid s k ->
  (forall e, c_stop (s_core s) = Some e -> p <= e + k) ->
  get_prev_point fuel s p = Ok r -> is_greatest_lt (seq_member s) p r.
Proof.
  intros Hs Hsg. revert p.
  induction fuel as [|fl IH]; intros p Hp; cbn [get_prev_point]; [discriminate|].
  pose proof (core_prev s k p Hs Hsg Hp) as Hc. destruct Hs as [Hk Hpos]. rewrite Hk.
  destruct (in_bounds s _) as [n|].
  - rewrite excluded_opt_some. destruct (excluded s n) eqn:Ex.
    + intros H. apply (greatest_lt_skip s p n r Hc Ex). apply IH; [|exact H].
      destruct Hc as ((_ & Hhi & _) & _). intros e He. specialize (Hhi e He). lia.
    + intros [= <-]. apply nearest_keep; [exact Hc|]. intros n' [= <-]. exact Ex.
  - rewrite excluded_opt_none. intros [= <-]. apply nearest_keep; [exact Hc|discriminate].
Qed.

(* from a grid point, get_next_point_on_sequence and get_next_point take the same steps *)
Lemma nos_eq_next fuel s k p :
  stepped s k -> (p - c_start (s_core s)) mod k = 0 ->
  get_next_point_on_sequence fuel s p = get_next_point fuel s p.
Proof.
  intros [Hk Hpos]. revert p.
  induction fuel as [|fl IH]; intros p Hg; cbn [get_next_point_on_sequence get_next_point];
    [reflexivity|].
  rewrite Hk, Hg, Z.sub_0_r.
  destruct (in_bounds_cases s (p + k)) as [(-> & _)|(-> & _)]; [|reflexivity].
  destruct (excluded s (p + k)); [|reflexivity].
  apply IH. replace (p + k) with (p + 1 * k) by lia. apply grid_add; [lia|exact Hg].
Qed.

Lemma next_oneoff fuel s p r :
  oneoff s -> (p < c_start (s_core s) -> seq_member s (c_start (s_core s))) ->
  get_next_point fuel s p = Ok r -> is_least_gt (seq_member s) p r.
Proof.
  intros Ho Hst. destruct fuel as [|fl]; cbn [get_next_point]; [discriminate|].
  rewrite Ho.
  destruct (Z.ltb_spec p (c_start (s_core s))) as [Hlt|Hge]; intros [= <-]; cbn.
  - split; [apply Hst, Hlt|split; [exact Hlt|]].
    intros m Hm _. apply (oneoff_member s m Ho) in Hm. lia.
  - intros m Hm. apply (oneoff_member s m Ho) in Hm. lia.
Qed.

Lemma nos_oneoff fuel s p r :
  oneoff s -> get_next_point_on_sequence fuel s p = Ok r -> r = None.
Proof.
  intros Ho. destruct fuel as [|fl]; cbn [get_next_point_on_sequence]; [discriminate|].
  rewrite Ho. intros [= <-]. reflexivity.
Qed.

Lemma prev_oneoff fuel s p r : oneoff s -> get_prev_point fuel s p = Ok r -> r = None.
Proof.
  intros Ho. destruct fuel as [|fl]; cbn [get_prev_point]; [discriminate|].
  rewrite Ho. intros [= <-]. reflexivity.
Qed.

Lemma next_no_error fuel s p e : get_next_point fuel s p = Err e -> e = EFuel.
Proof.
  revert p. induction fuel as [|fl IH]; intros p; cbn [get_next_point]; [intros [= <-]; reflexivity|].
  destruct (truthy_step (c_step (s_core s))) as [k|].
  - destruct (in_bounds s _) as [r0|]; [|discriminate].
    destruct (excluded s r0); [apply IH|discriminate].
  - destruct (p <? c_start (s_core s)); discriminate.
Qed.

Lemma prev_no_error fuel s p e : get_prev_point fuel s p = Err e -> e = EFuel.
Proof.
  revert p. induction fuel as [|fl IH]; intros p; cbn [get_prev_point]; [intros [= <-]; auto|].
  destruct (truthy_step (c_step (s_core s))) as [k|]; [|discriminate].
  destruct (excluded_opt s _); [|discriminate].
  destruct (in_bounds s _); [apply IH|discriminate].
Qed.

(* below the start point there is nothing *)
Lemma prev_at_start fuel s r :
  regular s -> get_prev_point fuel s (c_start (s_core s)) = Ok r -> r = None.
Proof.
  intros [[k [Hk Hpos]]|Ho]; [|apply prev_oneoff, Ho].
  destruct fuel as [|fl]; cbn [get_prev_point]; [discriminate|].
  rewrite Hk, grid_self. cbn [Z.eqb].
  destruct (in_bounds_cases s (c_start (s_core s) - k)) as [(_ & Hlo & _)|(-> & _)]; [lia|].
  rewrite excluded_opt_none. intros [= <-]. reflexivity.
Qed.

Lemma least_ge_of_gt (M : Z -> Prop) p r : ~ M p -> is_least_gt M p r -> is_least_ge M p r.
Proof.
  intros Hp. destruct r as [m|]; cbn.
  - intros (Hm & Hlt & Hmin). split; [exact Hm|]. split; [lia|].
    intros m' Hm' Hle. apply Hmin; [exact Hm'|].
    destruct (Z.eq_dec m' p) as [->|]; [contradiction|lia].
  - intros H m' Hm'. specialize (H m' Hm').
    destruct (Z.eq_dec m' p) as [->|]; [contradiction|lia].
Qed.

Lemma least_ge_below (M : Z -> Prop) a p r :
  (forall m, M m -> a <= m) -> p <= a -> is_least_ge M a r -> is_least_ge M p r.
Proof.
  intros Hlb Hp. destruct r as [m|]; cbn.
  - intros (Hm & Hle & Hmin). split; [exact Hm|]. split; [lia|].
    intros m' Hm' _. apply Hmin; auto.
  - intros H m' Hm'. specialize (H m' Hm'). specialize (Hlb m' Hm'). lia.
Qed.

Lemma min_of_least_ge (M : Z -> Prop) a r :
  (forall m, M m -> a <= m) -> is_least_ge M a r -> is_min M r.
Proof.
  intros Hlb. destruct r as [m|]; cbn.
  - intros (Hm & _ & Hmin). split; [exact Hm|]. intros m' Hm'. apply Hmin; auto.
  - intros H m' Hm'. specialize (H m' Hm'). specialize (Hlb m' Hm'). lia.
Qed.

Lemma max_of_greatest_lt (M : Z -> Prop) e r :
  (forall m, M m -> m < e) -> is_greatest_lt M e r -> is_max M r.
Proof.
  intros Hub. destruct r as [m|]; cbn.
  - intros (Hm & _ & Hmax). split; [exact Hm|]. intros m' Hm'. apply Hmax; auto.
  - intros H m' Hm'. specialize (H m' Hm'). specialize (Hub m' Hm'). lia.
Qed.

Lemma next_regular fuel s x r :
  regular s -> c_start (s_core s) <= x ->
  get_next_point fuel s x = Ok r -> is_least_gt (seq_member s) x r.
Proof.
  intros [[k Hs]|Ho] Hx H.
  - eapply next_stepped; eauto. destruct Hs. lia.
  - eapply next_oneoff; eauto. lia.
Qed.

Lemma nos_start fuel s :
  regular s ->
  get_next_point_on_sequence fuel s (c_start (s_core s)) = get_next_point fuel s (c_start (s_core s)).
Proof.
  intros [[k Hs]|Ho]; [apply (nos_eq_next fuel s k); [exact Hs|apply grid_self]|].
  destruct fuel as [|fl]; [reflexivity|]. cbn [get_next_point_on_sequence get_next_point].
  rewrite Ho, Z.ltb_irrefl. reflexivity.
Qed.

Lemma first_regular fuel s p r :
  regular s -> get_first_point fuel s p = Ok r -> is_least_ge (seq_member s) p r.
Proof.
  intros Hreg. unfold get_first_point.
  destruct (Z.leb_spec p (c_start (s_core s))) as [Hle|Hgt].
  - (* at or below the start point the answer is that for the start point *)
    cbn [bind]. intros H.
    apply (least_ge_below _ (c_start (s_core s))); [apply member_ge_start|lia|]. revert H.
    destruct (in_bounds_cases s (c_start (s_core s))) as [(-> & _ & Hhi)|(Hout & _)]; [|rewrite Hout].
    + destruct (excluded s (c_start (s_core s))) eqn:Ex.
      * rewrite nos_start by exact Hreg. intros H. apply least_ge_of_gt.
        -- intros Hm. apply member_not_excluded in Hm. congruence.
        -- apply (next_regular fuel); [exact Hreg|lia|exact H].
      * intros [= <-]. cbn. split; [apply start_member; auto|]. split; [lia|].
        intros m Hm _. apply member_ge_start, Hm.
    + intros [= <-]. cbn. intros m Hm.
      pose proof (member_ge_start s m Hm). pose proof (members_below s _ m Hout (Z.le_refl _) Hm). lia.
  - destruct (is_on_sequence s p) eqn:Eon.
    + cbn [bind]. destruct (in_bounds_cases s p) as [(-> & Hlo & Hhi)|(Hout & _)]; [|rewrite Hout].
      * pose proof (on_sequence_member s p Eon Hlo Hhi) as Hm.
        rewrite (member_not_excluded s p Hm). intros [= <-].
        split; [exact Hm|]. split; [lia|auto].
      * intros [= <-]. cbn. intros m. apply members_below; [exact Hout|lia].
    + destruct (get_next_point fuel s p) as [pt|er] eqn:En; cbn [bind]; [|discriminate].
      apply next_regular in En; [|exact Hreg|lia].
      apply least_ge_of_gt in En; [|intros Hm; apply member_on_sequence in Hm; congruence].
      destruct pt as [m|]; [|intros [= <-]; exact En].
      rewrite (member_not_excluded s m) by apply En. intros [= <-]. exact En.
Qed.

(* get_start_point is get_first_point at the start point *)
Lemma start_eq_first fuel s :
  (forall e, c_stop (s_core s) = Some e -> c_start (s_core s) <= e) ->
  get_start_point fuel s = get_first_point fuel s (c_start (s_core s)).
Proof.
  intros Hne. unfold get_start_point, get_first_point. rewrite Z.leb_refl.
  destruct (in_bounds_cases s (c_start (s_core s))) as [(-> & _)|(_ & [|(e & He & Hlt)])];
    [reflexivity|lia|specialize (Hne e He); lia].
Qed.

(* get_stop_point is right wherever get_prev_point is right at the stop point *)
Lemma stop_of_prev fuel s e r :
  c_stop (s_core s) = Some e -> core_member (s_core s) e ->
  (forall r', get_prev_point fuel s e = Ok r' -> is_greatest_lt (seq_member s) e r') ->
  get_stop_point fuel s = Ok r -> is_max (seq_member s) r.
Proof.
  intros He Hce Hprev. unfold get_stop_point. rewrite He, excluded_opt_some.
  destruct (excluded s e) eqn:Ex.
  - intros H. apply (max_of_greatest_lt _ e); [|apply Hprev, H].
    intros m Hm. pose proof (member_le_stop s m e Hm He).
    destruct (Z.eq_dec m e) as [->|]; [|lia]. apply member_not_excluded in Hm. congruence.
  - intros [= <-]. cbn. split; [apply seq_member_iff; auto|].
    intros m Hm. apply (member_le_stop s m e Hm He).
Qed.

(* the specification of a nearest point below, from "greatest member <= p" *)
Lemma greatest_lt_of_le (M : Z -> Prop) p y :
  ~ M p -> M y -> y <= p -> (forall m, M m -> m <= p -> m <= y) ->
  is_greatest_lt M p (Some y).
Proof.
  intros Hp Hy Hle Hall. split; [exact Hy|]. split.
  - destruct (Z.eq_dec y p) as [->|]; [contradiction|lia].
  - intros m Hm Hlt. apply Hall; [exact Hm|lia].
Qed.

(* the while loop of get_nearest_prev_point, once it holds a previous point y:
   it ends with the greatest element <= p among y and the members *)
Lemma nprev_loop_some fuel s p sp y r :
  regular s -> c_start (s_core s) <= y -> y <= p ->
  is_least_gt (seq_member s) y sp ->
  nprev_loop fuel s p sp (Some y) = Ok r ->
  exists y', r = Some y' /\ y' <= p /\ (y' = y \/ seq_member s y') /\
             forall m, seq_member s m -> m <= p -> m <= y'.
Proof.
  intros Hreg. revert sp y r.
  induction fuel as [|fl IH]; intros sp y r Hay Hyp Hsp; cbn [nprev_loop]; [discriminate|].
  destruct sp as [x|]; [|intros [= <-]; exists y; repeat split; auto].
  destruct Hsp as (Hx & Hyx & Hmin).
  destruct (Z.gtb_spec x p) as [Hpx|Hxp].
  - intros [= <-]. exists y. repeat split; auto.
    intros m Hm Hle. destruct (Z.le_gt_cases m y) as [|Hgt]; [assumption|].
    specialize (Hmin m Hm Hgt). lia.
  - destruct (get_next_point (S fl) s x) as [nx|er] eqn:En; cbn [bind]; [|discriminate].
    apply next_regular in En; [|exact Hreg|lia].
    intros H. apply IH in H; [|lia|exact Hxp|exact En].
    destruct H as (y' & -> & Hle & Hor & Hall). exists y'. repeat split; auto.
    right. destruct Hor as [->|]; assumption.
Qed.

(* the whole loop: nothing at or below p, or the greatest element <= p among
   the start point and the members *)
Lemma nprev_loop_start fuel s p r :
  regular s ->
  nprev_loop fuel s p (in_bounds s (c_start (s_core s))) None = Ok r ->
  (r = None /\ forall m, seq_member s m -> p < m) \/
  exists y, r = Some y /\ y <= p /\
            (y = c_start (s_core s) /\
             (forall e, c_stop (s_core s) = Some e -> c_start (s_core s) <= e) \/
             seq_member s y) /\
            forall m, seq_member s m -> m <= p -> m <= y.
Proof.
  intros Hreg. destruct fuel as [|fl]; [discriminate|]. cbn [nprev_loop].
  destruct (in_bounds_cases s (c_start (s_core s))) as [(-> & _ & Hhi)|(Hout & _)]; [|rewrite Hout].
  - destruct (Z.gtb_spec (c_start (s_core s)) p) as [Hlt|Hle].
    + intros [= <-]. left. split; [reflexivity|].
      intros m Hm. pose proof (member_ge_start s m Hm). lia.
    + destruct (get_next_point (S fl) s (c_start (s_core s))) as [nx|er] eqn:En;
        cbn [bind]; [|discriminate].
      apply next_regular in En; [|exact Hreg|lia].
      intros El. apply nprev_loop_some in El; [|exact Hreg|lia|exact Hle|exact En].
      destruct El as (y & -> & Hyp & Hor & Hall). right. exists y. repeat split; auto.
      destruct Hor as [->|]; [left|right]; auto.
  - intros [= <-]. left. split; [reflexivity|]. intros m Hm.
    pose proof (member_ge_start s m Hm). pose proof (members_below s _ m Hout (Z.le_refl _) Hm). lia.
Qed.

Lemma nprev_off fuel s p r :
  regular s -> is_on_sequence s p = false ->
  get_nearest_prev_point fuel s p = Ok r -> is_greatest_lt (seq_member s) p r.
Proof.
  intros Hreg Hoff. unfold get_nearest_prev_point. rewrite Hoff.
  assert (Hnp : ~ seq_member s p).
  { intros Hm. apply member_on_sequence in Hm. congruence. }
  clear Hoff.
  destruct (nprev_loop fuel s p _ None) as [r0|er] eqn:El; cbn [bind]; [|discriminate].
  apply nprev_loop_start in El; [|exact Hreg].
  destruct El as [(-> & Hnone)|(y & -> & Hyp & Hor & Hall)].
  - rewrite excluded_opt_none. intros [= <-] m Hm. specialize (Hnone m Hm). lia.
  - rewrite excluded_opt_some. destruct (excluded s y) eqn:Ex.
    + (* only the start point itself can be an excluded previous point: the answer
         is get_prev_point(start) = None, and indeed no member is left below p *)
      destruct Hor as [[-> _]|Hm]; [|apply member_not_excluded in Hm; congruence].
      intros H. apply prev_at_start in H; [|exact Hreg]. subst r.
      intros m Hm. destruct (Z.le_gt_cases p m) as [|Hgt]; [assumption|exfalso].
      assert (m = c_start (s_core s)).
      { apply Z.le_antisymm; [apply Hall; [exact Hm|lia]|apply member_ge_start, Hm]. }
      subst m. apply member_not_excluded in Hm. congruence.
    + intros [= <-]. apply greatest_lt_of_le; auto.
      destruct Hor as [[-> Hne]|]; [apply start_member|]; auto.
Qed.

Lemma nprev_loop_no_error fuel s p sp prev e : nprev_loop fuel s p sp prev = Err e -> e = EFuel.
Proof.
  revert sp prev. induction fuel as [|fl IH]; intros sp prev; cbn [nprev_loop]; [intros [= <-]; auto|].
  destruct sp as [x|]; [|discriminate]. destruct (x >? p); [discriminate|].
  destruct (get_next_point (S fl) s x) as [nx|er] eqn:En; cbn [bind].
  - apply IH.
  - intros [= <-]. eapply next_no_error; eauto.
Qed.

(* START defaults to / is relative to the initial point *)
Definition resolve (e : option pexpr) (ctx : Z) : Z :=
  match e with None => ctx | Some (Abs v) => v | Some (Rel j) => ctx + j end.

(* END defaults to / is relative to the final point, which may be missing *)
Definition end_point (e : option pexpr) (ce : option Z) : option Z :=
  match e, ce with
  | Some (Abs v), _ => Some v
  | Some (Rel j), Some F => Some (F + j)
  | None, Some F => Some F
  | _, None => None
  end.

Inductive shape :=
| OneOff (a : Z)                      (* a single point *)
| Up (a k : Z) (n : option Z)         (* a, a+k, a+2k, ... (n terms when given) *)
| Down (e k : Z) (n : option Z).      (* e, e-k, e-2k, ... (n terms when given) *)

Definition prog (sh : shape) (p : Z) : Prop :=
  match sh with
  | OneOff a => p = a
  | Up a k n => exists i, 0 <= i /\ p = a + i * k /\ forall m, n = Some m -> i < m
  | Down e k n => exists i, 0 <= i /\ p = e - i * k /\ forall m, n = Some m -> i < m
  end.

Definition in_ctx (cs : Z) (ce : option Z) (p : Z) : Prop :=
  cs <= p /\ forall F, ce = Some F -> p <= F.

(* the progression each recurrence form defines (format_num meanings of the
   source: 1 = run n times between START and END, 3 = start at START and keep
   adding INTV, 4 = start at END and keep subtracting INTV); None = the form
   has no meaning here (missing final point, R//END, uneven Rn/START/END) *)
Definition shape_of (f : form) (cs : Z) (ce : option Z) : option shape :=
  if f_fmt f =? 3 then
    let a := resolve (f_start f) cs in
    match f_intv f, f_reps f with
    | None, _ => Some (OneOff a)
    | Some k, Some n => if n =? 1 then Some (OneOff a) else Some (Up a k (Some n))
    | Some k, None => Some (Up a k None)
    end
  else if f_fmt f =? 4 then
    match end_point (f_end f) ce with
    | None => None
    | Some e =>
        match f_reps f, f_intv f with
        | Some n, Some k => if n =? 1 then Some (OneOff e) else Some (Down e k (Some n))
        | Some n, None => if n =? 1 then Some (OneOff e) else None
        | None, Some k => Some (Down e k None)
        | None, None => None
        end
    end
  else if f_fmt f =? 1 then
    match f_reps f, end_point (f_end f) ce with
    | Some n, Some e =>
        let a := resolve (f_start f) cs in
        if n =? 1 then Some (OneOff a)
        else if (1 <? n) && (a <? e) && ((e - a) mod (n - 1) =? 0)
             then Some (Up a ((e - a) / (n - 1)) (Some n))
             else None
    | _, _ => None
    end
  else None.

(* the points of the recurrence: its progression within [initial, final] *)
Definition denote0 (f : form) (cs : Z) (ce : option Z) (p : Z) : Prop :=
  exists sh, shape_of f cs ce = Some sh /\ prog sh p /\ in_ctx cs ce p.

(* the dispatch never fills START for format 4 nor END for format 3 *)
Definition wf_form (f : form) : Prop :=
  (f_fmt f = 3 -> f_end f = None) /\ (f_fmt f = 4 -> f_start f = None).

(* Inputs outside the defect classes of the constructor (side conditions
   k >= 1, n >= 2 for a repeated progression included):
   - a one-off point lies within the context (one-offs are not clipped);
   - an upward progression starts at or after the initial point (the start
     clipping arithmetic is wrong) and, when n is given, its last term is at
     or before the final point (the stop clipping arithmetic is wrong);
   - a downward progression with n terms: first term at or after the initial
     point, END at or before the final point;
   - a downward progression without n: END is the final point (the code takes
     the phase from the context, not from END). *)
Definition sane (sh : shape) (cs : Z) (ce : option Z) : Prop :=
  match sh with
  | OneOff a => in_ctx cs ce a
  | Up a k n =>
      0 < k /\ cs <= a /\
      forall m, n = Some m -> 2 <= m /\ forall F, ce = Some F -> a + (m - 1) * k <= F
  | Down e k (Some m) =>
      0 < k /\ 2 <= m /\ cs <= e - (m - 1) * k /\ forall F, ce = Some F -> e <= F
  | Down e k None => 0 < k /\ ce = Some e
  end.

(* first and last point of the clipped progression (last = None: unbounded);
   they are the context given to exclusion sequences *)
Definition bounds (sh : shape) (cs : Z) (ce : option Z) : Z * option Z :=
  match sh with
  | OneOff a => (a, Some a)
  | Up a k None => (a, match ce with Some F => Some (F - (F - a) mod k) | None => None end)
  | Up a k (Some m) => (a, Some (a + (m - 1) * k))
  | Down e k (Some m) => (e - (m - 1) * k, Some e)
  | Down e k None => (cs + (e - cs) mod k, Some e)
  end.

Definition step_of (sh : shape) : option Z :=
  match sh with OneOff _ => None | Up _ k _ | Down _ k _ => Some k end.

(* a state with step [st]: a positive step with the stop point on the grid, or
   a single point.  On [s_core s] the two cases read
   [stepped s k /\ stop_on_grid s k] and [oneoff s /\ stop = Some start]. *)
Definition core_shaped (c : core) (st : option Z) : Prop :=
  match st with
  | Some k => (truthy_step (c_step c) = Some k /\ 0 < k) /\
              forall e, c_stop c = Some e -> (e - c_start c) mod k = 0
  | None => truthy_step (c_step c) = None /\ c_stop c = Some (c_start c)
  end.

(* the state [c] stands for the shape [sh] clipped to the context *)
Definition core_ok (c : core) (sh : shape) (cs : Z) (ce : option Z) : Prop :=
  (forall p, core_member c p <-> prog sh p /\ in_ctx cs ce p) /\
  (c_start c, c_stop c) = bounds sh cs ce /\ core_shaped c (step_of sh).

Lemma pfe_start e cs b : point_from_expr e (Some cs) b = Ok (Some (resolve e cs)).
Proof. destruct e as [[v|j]|]; reflexivity. Qed.

Lemma pfe_end e ce v b : end_point e ce = Some v -> point_from_expr e ce b = Ok (Some v).
Proof.
  destruct e as [[v'|j]|], ce as [F|]; cbn; intros [= <-]; reflexivity || discriminate.
Qed.

Lemma pfe_none ce : point_from_expr None ce false = Ok ce.
Proof. destruct ce; reflexivity. Qed.

Lemma truthy_pos k : 0 < k -> truthy_step (Some k) = Some k.
Proof. intros H. unfold truthy_step. destruct (k =? 0) eqn:E; [lia|reflexivity]. Qed.

(* a state with a positive step stands for [sh] as soon as its bounds, its step
   and its points are those of [sh] *)
Lemma stepped_ok a sp k sh cs ce :
  0 < k -> step_of sh = Some k -> bounds sh cs ce = (a, sp) ->
  (forall e, sp = Some e -> exists q, e = a + q * k) ->
  (forall p, a <= p /\ (forall e, sp = Some e -> p <= e) /\ (exists i, p = a + i * k) <->
             prog sh p /\ in_ctx cs ce p) ->
  core_ok {| c_start := a; c_stop := sp; c_step := Some k |} sh cs ce.
Proof.
  intros Hk Hst Hb Hg Hm. split; [|split; [symmetry; exact Hb|]].
  - intros p. unfold core_member. cbn [c_start c_stop c_step]. rewrite truthy_pos by exact Hk.
    apply Hm.
  - rewrite Hst. cbn [core_shaped c_start c_stop c_step]. rewrite truthy_pos by exact Hk.
    split; [auto|].
    intros e He. apply grid_iff; [lia|]. apply Hg, He.
Qed.

Lemma up_inf_ok a k cs ce :
  0 < k -> cs <= a ->
  core_ok {| c_start := a;
             c_stop := match ce with Some F => Some (F - (F - a) mod k) | None => None end;
             c_step := Some k |} (Up a k None) cs ce.
Proof.
  intros Hk Ha. apply stepped_ok; [exact Hk|reflexivity|reflexivity| |].
  - intros e He. destruct ce as [F|]; [|discriminate]. injection He as <-.
    apply grid_iff; [lia|]. apply grid_floor, Hk.
  - intros p. cbn [prog]. unfold in_ctx.
    destruct ce as [F|].
    + pose proof (Z.mod_pos_bound (F - a) k Hk) as Hb.
      pose proof (Z.div_mod (F - a) k ltac:(lia)) as Hd.
      split.
      * intros (H1 & H2 & [i ->]). specialize (H2 _ eq_refl).
        split; [exists i; repeat split; [nia|discriminate]|].
        split; [lia|]. intros F' [= <-]. lia.
      * intros [[i (Hi & -> & _)] [H1 H2]]. specialize (H2 _ eq_refl).
        split; [nia|]. split; [|exists i; reflexivity].
        intros e [= <-]. assert (i <= (F - a) / k) by nia. nia.
    + split.
      * intros (H1 & _ & [i ->]). split; [exists i; repeat split; [nia|discriminate]|].
        split; [lia|discriminate].
      * intros [[i (Hi & -> & _)] [H1 _]]. split; [nia|]. split; [discriminate|exists i; reflexivity].
Qed.

Lemma up_n_ok a k m cs ce :
  0 < k -> cs <= a -> 2 <= m -> (forall F, ce = Some F -> a + (m - 1) * k <= F) ->
  core_ok {| c_start := a; c_stop := Some (a + k * (m - 1)); c_step := Some k |}
          (Up a k (Some m)) cs ce.
Proof.
  intros Hk Ha Hm HF. apply stepped_ok; [exact Hk|reflexivity| | |].
  - cbn [bounds]. f_equal. f_equal. lia.
  - intros e [= <-]. exists (m - 1). lia.
  - intros p. cbn [prog]. unfold in_ctx. split.
    + intros (H1 & H2 & [i ->]). specialize (H2 _ eq_refl).
      split; [exists i; repeat split; [nia|]|].
      * intros m' [= <-]. nia.
      * split; [lia|]. intros F HFe. specialize (HF F HFe). nia.
    + intros [[i (Hi & -> & Hlt)] [H1 H2]]. specialize (Hlt m eq_refl).
      split; [nia|]. split; [|exists i; reflexivity]. intros e [= <-]. nia.
Qed.

Lemma down_n_ok e k m cs ce :
  0 < k -> 2 <= m -> cs <= e - (m - 1) * k -> (forall F, ce = Some F -> e <= F) ->
  core_ok {| c_start := e - k * (m - 1); c_stop := Some e; c_step := Some k |}
          (Down e k (Some m)) cs ce.
Proof.
  intros Hk Hm Hs HF. apply stepped_ok; [exact Hk|reflexivity| | |].
  - cbn [bounds]. f_equal. lia.
  - intros e' [= <-]. exists (m - 1). lia.
  - intros p. cbn [prog]. unfold in_ctx. split.
    + intros (H1 & H2 & [i ->]). specialize (H2 _ eq_refl).
      split; [exists (m - 1 - i); repeat split; [nia|lia|]|].
      * intros m' [= <-]. nia.
      * split; [nia|]. intros F HFe. specialize (HF F HFe). lia.
    + intros [[i (Hi & -> & Hlt)] [H1 H2]]. specialize (Hlt m eq_refl).
      split; [nia|]. split; [|exists (m - 1 - i); lia]. intros e' [= <-]. nia.
Qed.

Lemma down_inf_ok e k cs :
  0 < k ->
  core_ok {| c_start := cs + (e - cs) mod k; c_stop := Some e; c_step := Some k |}
          (Down e k None) cs (Some e).
Proof.
  intros Hk.
  pose proof (Z.mod_pos_bound (e - cs) k Hk) as Hb.
  pose proof (Z.div_mod (e - cs) k ltac:(lia)) as Hd.
  apply stepped_ok; [exact Hk|reflexivity|reflexivity| |].
  - intros e' [= <-]. exists ((e - cs) / k). lia.
  - intros p. cbn [prog]. unfold in_ctx. split.
    + intros (H1 & H2 & [i ->]). specialize (H2 _ eq_refl).
      split; [exists ((e - cs) / k - i); repeat split; [nia|lia|discriminate]|].
      split; [lia|]. intros F [= <-]. lia.
    + intros [[i (Hi & -> & _)] [H1 H2]].
      assert (0 <= (e - cs) / k - i) by nia.
      split; [nia|]. split; [intros e' [= <-]; nia|].
      exists ((e - cs) / k - i). lia.
Qed.

(* init_core, read in stages ([init_core_stages]): the start point, stop point
   and step that each format computes from its fields (stage3: REPEAT/START/PERIOD,
   stage1: REPEAT/START/STOP, stage4: REPEAT/PERIOD/STOP) ... *)
Definition stage3 (f : form) (ce : option Z) (a : Z) (p_stop0 : option Z)
  : res (Z * option Z * option Z) :=
  match f_intv f, f_reps f with
  | None, _ => Ok (a, Some a, None)
  | Some k, Some n =>
      if n <=? 1 then Ok (a, Some a, None) else Ok (a, Some (a + k * (n - 1)), Some k)
  | Some k, None =>
      match ce with
      | Some F => if k =? 0 then Err EZeroDiv else Ok (a, Some (F - (F - a) mod k), Some k)
      | None => Ok (a, p_stop0, Some k)
      end
  end.

Definition stage1 (f : form) (a : Z) (p_stop0 : option Z) : res (Z * option Z * option Z) :=
  match f_reps f with
  | None => Err EType
  | Some n =>
      if n =? 1 then Ok (a, Some a, None)
      else match p_stop0 with None => Err EType | Some _ => Err EIntervalParse end
  end.

Definition stage4 (f : form) (cs : Z) (ce : option Z) (a : Z) (p_stop0 : option Z)
  : res (Z * option Z * option Z) :=
  match f_reps f with
  | Some n =>
      match p_stop0 with
      | None => Err EType
      | Some e =>
          if n <=? 1 then Ok (e, p_stop0, None)
          else match f_intv f with
               | None => Err EIntervalParse
               | Some k => Ok (e - k * (n - 1), p_stop0, Some k)
               end
      end
  | None =>
      match ce with
      | None => Err EType
      | Some F =>
          match f_intv f with
          | None => Err EType
          | Some k => if k =? 0 then Err EZeroDiv else Ok (cs - (F - a) mod k, p_stop0, Some k)
          end
      end
  end.

(* ... and the step shared by all formats: reject a negative step, clip start
   and stop to the context *)
Definition clip (cs : Z) (ce : option Z) (st : Z * option Z * option Z) : res core :=
  let '(p_start1, p_stop1, step1) := st in
  match truthy_step step1 with
  | None => Ok {| c_start := p_start1; c_stop := p_stop1; c_step := step1 |}
  | Some k =>
      if k <? 0 then Err ENegInterval
      else
        let p_start2 :=
          if p_start1 <? cs then cs + (cs - p_start1) mod k else p_start1 in
        let p_stop2 :=
          match p_stop1, ce with
          | Some e, Some F =>
              if e >? F then Some (F - k + (F - p_start2) mod k) else p_stop1
          | _, _ => p_stop1
          end in
        Ok {| c_start := p_start2; c_stop := p_stop2; c_step := step1 |}
  end.

Lemma init_core_stages f cs ce :
  init_core f cs ce =
  do ostart <- point_from_expr (f_start f) (Some cs) ((f_fmt f =? 1) || (f_fmt f =? 3));
  do p_stop0 <- point_from_expr (f_end f) ce ((f_fmt f =? 1) || (f_fmt f =? 4));
  match ostart with
  | None => Err EType
  | Some a =>
      do st <- (if f_fmt f =? 3 then stage3 f ce a p_stop0
                else if f_fmt f =? 1 then stage1 f a p_stop0
                else stage4 f cs ce a p_stop0);
      clip cs ce st
  end.
Proof. reflexivity. Qed.

(* a positive step, a start within the context and a stop within it: nothing to clip *)
Lemma clip_within cs ce a sp k :
  0 < k -> cs <= a -> (forall e F, sp = Some e -> ce = Some F -> e <= F) ->
  clip cs ce (a, sp, Some k) = Ok {| c_start := a; c_stop := sp; c_step := Some k |}.
Proof.
  intros Hk Ha Hs. unfold clip. rewrite truthy_pos by exact Hk.
  destruct (Z.ltb_spec k 0) as [Hk0|_]; [lia|].
  destruct (Z.ltb_spec a cs) as [Hlt|_]; [lia|].
  destruct sp as [e|], ce as [F|]; try reflexivity.
  specialize (Hs e F eq_refl eq_refl). destruct (Z.gtb_spec e F) as [Hgt|_]; [lia|reflexivity].
Qed.

(* a single point goes through [clip] as it is *)
Lemma oneoff_ok a cs ce :
  in_ctx cs ce a ->
  exists c, clip cs ce (a, Some a, None) = Ok c /\ core_ok c (OneOff a) cs ce.
Proof.
  intros Hc. eexists; split; [reflexivity|]. split; [|split; [reflexivity|split; reflexivity]].
  intros p. unfold core_member. cbn. split.
  - intros (_ & _ & ->). auto.
  - intros [-> _]. split; [lia|]. split; [|reflexivity]. intros e [= <-]. lia.
Qed.

Lemma bind_ok {A B} (r : res A) (g : A -> res B) b :
  bind r g = Ok b -> exists a, r = Ok a /\ g a = Ok b.
Proof. destruct r as [a|]; cbn; [eauto|discriminate]. Qed.

Lemma init_core_fmt3 f cs ce sh :
  f_fmt f = 3 -> f_end f = None ->
  shape_of f cs ce = Some sh -> sane sh cs ce ->
  exists c, init_core f cs ce = Ok c /\ core_ok c sh cs ce.
Proof.
  intros Hfmt Hend Hsh Hsane. unfold shape_of in Hsh. rewrite Hfmt in Hsh. cbn in Hsh.
  rewrite init_core_stages, Hfmt, Hend, pfe_start, pfe_none. cbn [bind Z.eqb Pos.eqb orb].
  unfold stage3.
  set (a := resolve (f_start f) cs) in *.
  destruct (f_intv f) as [k|].
  - destruct (f_reps f) as [n|].
    + destruct (n =? 1) eqn:En; injection Hsh as <-.
      * replace (n <=? 1) with true by lia.
        apply oneoff_ok, Hsane.
      * destruct Hsane as (Hk & Ha & Hn). destruct (Hn n eq_refl) as [Hn2 HF].
        replace (n <=? 1) with false by lia. cbn [bind]. rewrite clip_within; [|exact Hk|exact Ha|].
        -- eexists; split; [reflexivity|]. apply up_n_ok; auto.
        -- intros e F [= <-] HFe. specialize (HF F HFe). lia.
    + injection Hsh as <-. destruct Hsane as (Hk & Ha & _).
      destruct ce as [F|].
      * replace (k =? 0) with false by lia. cbn [bind]. rewrite clip_within; [|exact Hk|exact Ha|].
        -- eexists; split; [reflexivity|]. apply (up_inf_ok a k cs (Some F)); auto.
        -- intros e F' [= <-] [= <-]. pose proof (Z.mod_pos_bound (F - a) k Hk). lia.
      * cbn [bind]. rewrite clip_within; [|exact Hk|exact Ha|discriminate].
        eexists; split; [reflexivity|]. apply (up_inf_ok a k cs None); auto.
  - injection Hsh as <-.
    apply oneoff_ok, Hsane.
Qed.

Lemma init_core_fmt4 f cs ce sh :
  f_fmt f = 4 -> f_start f = None ->
  shape_of f cs ce = Some sh -> sane sh cs ce ->
  exists c, init_core f cs ce = Ok c /\ core_ok c sh cs ce.
Proof.
  intros Hfmt Hstart Hsh Hsane. unfold shape_of in Hsh. rewrite Hfmt in Hsh. cbn in Hsh.
  destruct (end_point (f_end f) ce) as [e|] eqn:Ee; [|discriminate].
  rewrite init_core_stages, Hfmt, Hstart, (pfe_end _ _ _ _ Ee).
  cbn [point_from_expr bind Z.eqb Pos.eqb orb]. unfold stage4.
  destruct (f_reps f) as [n|].
  - destruct (n =? 1) eqn:En.
    + assert (Hsh' : sh = OneOff e) by (destruct (f_intv f); congruence). subst sh.
      replace (n <=? 1) with true by lia.
      apply oneoff_ok, Hsane.
    + destruct (f_intv f) as [k|]; [|discriminate]. injection Hsh as <-.
      destruct Hsane as (Hk & Hn2 & Hs & HF).
      replace (n <=? 1) with false by lia. cbn [bind]. rewrite clip_within; [|exact Hk|lia|].
      * eexists; split; [reflexivity|]. apply down_n_ok; auto.
      * intros e' F [= <-] HFe. apply HF, HFe.
  - destruct (f_intv f) as [k|]; [|discriminate]. injection Hsh as <-.
    destruct Hsane as (Hk & ->).
    replace (k =? 0) with false by lia. cbn [bind].
    (* the start point, computed below the initial point, is clipped back onto
       the grid of END (the stop point is not: END is the final point) *)
    pose proof (Z.mod_pos_bound (e - cs) k Hk) as Hb.
    unfold clip. rewrite truthy_pos by exact Hk.
    replace (k <? 0) with false by lia. replace (e >? e) with false by lia.
    assert (Hst : (if cs - (e - cs) mod k <? cs then cs + (cs - (cs - (e - cs) mod k)) mod k
                   else cs - (e - cs) mod k) = cs + (e - cs) mod k).
    { destruct (cs - (e - cs) mod k <? cs) eqn:E; [|lia].
      replace (cs - (cs - (e - cs) mod k)) with ((e - cs) mod k) by lia.
      rewrite Z.mod_small by lia. reflexivity. }
    rewrite Hst. eexists; split; [reflexivity|]. apply down_inf_ok; auto.
Qed.

Lemma init_core_fmt1_once f cs ce sh :
  f_fmt f = 1 -> f_reps f = Some 1 ->
  shape_of f cs ce = Some sh -> sane sh cs ce ->
  exists c, init_core f cs ce = Ok c /\ core_ok c sh cs ce.
Proof.
  intros Hfmt Hreps Hsh Hsane. unfold shape_of in Hsh. rewrite Hfmt, Hreps in Hsh. cbn in Hsh.
  destruct (end_point (f_end f) ce) as [e|] eqn:Ee; [|discriminate]. injection Hsh as <-.
  rewrite init_core_stages, Hfmt, pfe_start, (pfe_end _ _ _ _ Ee).
  cbn [bind Z.eqb Pos.eqb orb]. unfold stage1. rewrite Hreps.
  apply oneoff_ok, Hsane.
Qed.

(* Rn/START/END with n <> 1 is rejected whatever the values: the step is a float *)
Lemma init_core_fmt1_rejected_kind f cs ce n e :
  f_fmt f = 1 -> f_reps f = Some n -> n <> 1 -> end_point (f_end f) ce = Some e ->
  init_core f cs ce = Err EIntervalParse.
Proof.
  intros Hfmt Hreps Hn He.
  rewrite init_core_stages, Hfmt, pfe_start, (pfe_end _ _ _ _ He).
  cbn [bind Z.eqb Pos.eqb orb]. unfold stage1. rewrite Hreps.
  destruct (Z.eqb_spec n 1) as [Hn1|_]; [contradiction|reflexivity].
Qed.

Definition sane_form (f : form) (cs : Z) (ce : option Z) : Prop :=
  wf_form f /\ (f_fmt f = 1 -> f_reps f = Some 1) /\
  exists sh, shape_of f cs ce = Some sh /\ sane sh cs ce.

Lemma init_core_sane f cs ce sh :
  wf_form f -> (f_fmt f = 1 -> f_reps f = Some 1) ->
  shape_of f cs ce = Some sh -> sane sh cs ce ->
  exists c, init_core f cs ce = Ok c /\ core_ok c sh cs ce.
Proof.
  intros [W3 W4] H1 Hsh Hsane.
  destruct (f_fmt f =? 3) eqn:E3; [assert (f_fmt f = 3) by lia; apply init_core_fmt3; auto|].
  destruct (f_fmt f =? 4) eqn:E4; [assert (f_fmt f = 4) by lia; apply init_core_fmt4; auto|].
  destruct (f_fmt f =? 1) eqn:E1; [assert (f_fmt f = 1) by lia; apply init_core_fmt1_once; auto|].
  unfold shape_of in Hsh. rewrite E3, E4, E1 in Hsh. discriminate.
Qed.

Lemma denote0_core f cs ce sh c p :
  shape_of f cs ce = Some sh -> core_ok c sh cs ce ->
  (core_member c p <-> denote0 f cs ce p).
Proof.
  intros Hsh (Hm & _). rewrite Hm. unfold denote0. split.
  - intros [H1 H2]. exists sh. auto.
  - intros (sh' & Hsh' & H1 & H2). rewrite Hsh in Hsh'. injection Hsh' as <-. auto.
Qed.

(* the stop point of a state of either shape is on its progression *)
Lemma core_member_stop c st e :
  core_shaped c st -> c_stop c = Some e -> c_start c <= e -> core_member c e.
Proof.
  intros Hsh He Hne. split; [exact Hne|]. split; [rewrite He; intros e' [= <-]; lia|].
  destruct st as [k|].
  - destruct Hsh as [[Hk Hpos] Hg]. rewrite Hk. apply grid_iff; [lia|]. apply Hg, He.
  - destruct Hsh as [-> Hst]. congruence.
Qed.

Definition item_excludes (lo : Z) (hi : option Z) (it : xitem) (p : Z) : Prop :=
  match it with XP q => p = q | XS g => denote0 g lo hi p end.

Definition sane_item (lo : Z) (hi : option Z) (it : xitem) : Prop :=
  match it with XP _ => True | XS g => sane_form g lo hi end.

Lemma ex_in_cons {A} (P : A -> Prop) a l :
  (exists x, In x (a :: l) /\ P x) <-> P a \/ exists x, In x l /\ P x.
Proof.
  split.
  - intros [x [[<-|Hin] Hx]]; [left|right; exists x]; auto.
  - intros [Ha|[x [Hin Hx]]]; [exists a|exists x]; cbn; auto.
Qed.

Lemma excl_member_point q x p : excl_member (q :: fst x, snd x) p <-> p = q \/ excl_member x p.
Proof.
  unfold excl_member. cbn [fst snd In]. rewrite or_assoc.
  apply or_iff_compat_r. split; intros H; symmetry; exact H.
Qed.

Lemma excl_member_core c x p :
  excl_member (fst x, c :: snd x) p <-> core_member c p \/ excl_member x p.
Proof.
  unfold excl_member. cbn [fst snd]. split.
  - intros [H|[c' [[<-|Hc] Hm]]]; [right; left; exact H|left; exact Hm|].
    right. right. exists c'. auto.
  - intros [H|[H|[c' [Hc Hm]]]]; [|left; exact H|].
    + right. exists c. split; [left; reflexivity|exact H].
    + right. exists c'. split; [right; exact Hc|exact Hm].
Qed.

Lemma build_excl_sane its lo hi :
  (forall it, In it its -> sane_item lo hi it) ->
  exists x, build_excl its lo hi = Ok x /\
            forall p, excl_member x p <-> exists it, In it its /\ item_excludes lo hi it p.
Proof.
  induction its as [|it r IH]; intros Hs.
  - exists ([], []). split; [reflexivity|]. intros p. unfold excl_member. cbn.
    split; [intros [[]|[c [[] _]]]|intros [it [[] _]]].
  - destruct IH as [x [Hx Hm]]; [intros it' Hin; apply Hs; now right|].
    destruct it as [q|g].
    + exists (q :: fst x, snd x). split; [cbn [build_excl]; rewrite Hx; reflexivity|].
      intros p. etransitivity; [apply excl_member_point|]. etransitivity; [|symmetry; apply ex_in_cons].
      apply or_iff_compat_l, Hm.
    + destruct (Hs (XS g) (or_introl eq_refl)) as (Wg & H1 & shg & Hshg & Hsg).
      destruct (init_core_sane g lo hi shg Wg H1 Hshg Hsg) as [c [Hc Hok]].
      exists (fst x, c :: snd x). split; [cbn [build_excl]; rewrite Hc, Hx; reflexivity|].
      intros p. etransitivity; [apply excl_member_core|]. etransitivity; [|symmetry; apply ex_in_cons].
      etransitivity; [apply or_iff_compat_l, Hm|].
      apply or_iff_compat_r, (denote0_core g lo hi shg c p Hshg Hok).
Qed.

(* the set a recurrence with exclusions denotes: the clipped progression minus
   the exclusion points and minus the points of every exclusion sequence, the
   latter read in the context [first point, last point] of the recurrence *)
Definition denote (f : form) (items : option (list xitem)) (cs : Z) (ce : option Z) (p : Z) : Prop :=
  denote0 f cs ce p /\
  forall sh its it, shape_of f cs ce = Some sh -> items = Some its -> In it its ->
    ~ item_excludes (fst (bounds sh cs ce)) (snd (bounds sh cs ce)) it p.

Definition sane_items (sh : shape) (items : option (list xitem)) (cs : Z) (ce : option Z) : Prop :=
  forall its it, items = Some its -> In it its ->
    sane_item (fst (bounds sh cs ce)) (snd (bounds sh cs ce)) it.

(* an input outside every defect class of the constructor *)
Definition sane_input (f : form) (items : option (list xitem)) (cs : Z) (ce : option Z)
  (sh : shape) : Prop :=
  wf_form f /\ (f_fmt f = 1 -> f_reps f = Some 1) /\
  shape_of f cs ce = Some sh /\ sane sh cs ce /\ sane_items sh items cs ce.

(* the items of the `!` part, none when it is absent *)
Definition items_list (items : option (list xitem)) : list xitem :=
  match items with Some its => its | None => [] end.

Lemma in_items_list items it :
  In it (items_list items) <-> exists its, items = Some its /\ In it its.
Proof.
  destruct items as [its|]; cbn; split.
  - intros H. exists its. auto.
  - intros (its' & [= <-] & H). exact H.
  - intros [].
  - intros (its' & [=] & _).
Qed.

(* the constructed state excludes what [build_excl] collects from the items,
   also when it keeps no exclusions object (no `!` part, or an empty one) *)
Lemma init_excluded f items cs ce c x :
  init_core f cs ce = Ok c ->
  build_excl (items_list items) (c_start c) (c_stop c) = Ok x ->
  exists s, init f items cs ce = Ok s /\ s_core s = c /\ forall p, excluded s p = excl_has x p.
Proof.
  intros Hc Hx. unfold init. rewrite Hc. cbn [bind].
  destruct items as [[|it its]|].
  - injection Hx as <-. eexists. repeat split.
  - cbn [items_list] in Hx. rewrite Hx. eexists. repeat split.
  - injection Hx as <-. eexists. repeat split.
Qed.

Lemma init_sane f items cs ce sh :
  sane_input f items cs ce sh ->
  exists s, init f items cs ce = Ok s /\
            (forall p, seq_member s p <-> denote f items cs ce p) /\
            (c_start (s_core s), c_stop (s_core s)) = bounds sh cs ce /\
            core_shaped (s_core s) (step_of sh).
Proof.
  intros (W & H1 & Hsh & Hsane & Hits).
  destruct (init_core_sane f cs ce sh W H1 Hsh Hsane) as [c [Hc Hok]].
  pose proof Hok as (_ & Hb & Hshape).
  destruct (build_excl_sane (items_list items) (c_start c) (c_stop c)) as [x [Hx Hxm]].
  { intros it Hin. apply in_items_list in Hin. destruct Hin as (its & Hits' & Hin).
    specialize (Hits its it Hits' Hin). rewrite <- Hb in Hits. exact Hits. }
  destruct (init_excluded f items cs ce c x Hc Hx) as (s & Hs & Hcore & Hex).
  exists s. rewrite Hcore. split; [exact Hs|]. split; [|split; [exact Hb|exact Hshape]].
  intros p. rewrite seq_member_iff, Hcore, Hex, (denote0_core f cs ce sh c p Hsh Hok).
  apply and_iff_compat_l. rewrite <- not_true_iff_false, excl_has_iff, Hxm. split.
  - intros Hno sh' its it Hsh' Hits' Hin Hie. rewrite Hsh in Hsh'. injection Hsh' as <-.
    rewrite <- Hb in Hie. apply Hno. exists it. split; [apply in_items_list; eauto|exact Hie].
  - intros Hall (it & Hin & Hie). apply in_items_list in Hin. destruct Hin as (its & Hits' & Hin).
    apply (Hall sh its it Hsh Hits' Hin). rewrite <- Hb. exact Hie.
Qed.

Lemma sane_state f items cs ce sh s :
  sane_input f items cs ce sh -> init f items cs ce = Ok s ->
  (forall p, seq_member s p <-> denote f items cs ce p) /\
  c_start (s_core s) = fst (bounds sh cs ce) /\ c_stop (s_core s) = snd (bounds sh cs ce) /\
  core_shaped (s_core s) (step_of sh).
Proof.
  intros Hin Hs. destruct (init_sane f items cs ce sh Hin) as (s' & Hs' & Hm & Hb & Hsh).
  rewrite Hs in Hs'. injection Hs' as <-. rewrite <- Hb. auto.
Qed.

(* the specifications only look at the set through membership *)
Lemma nearest_ext lt le (M M' : Z -> Prop) p r :
  (forall q, M q <-> M' q) -> nearest lt le M p r -> nearest lt le M' p r.
Proof. intros E. destruct r as [m|]; cbn; firstorder. Qed.
Lemma least_ge_ext (M M' : Z -> Prop) p r :
  (forall q, M q <-> M' q) -> is_least_ge M p r -> is_least_ge M' p r.
Proof. intros E. destruct r as [m|]; cbn; firstorder. Qed.
Lemma min_ext (M M' : Z -> Prop) r : (forall q, M q <-> M' q) -> is_min M r -> is_min M' r.
Proof. intros E. destruct r as [m|]; cbn; firstorder. Qed.
Lemma max_ext (M M' : Z -> Prop) r : (forall q, M q <-> M' q) -> is_max M r -> is_max M' r.
Proof. intros E. destruct r as [m|]; cbn; firstorder. Qed.

Lemma init_core_regular f cs ce c x :
  init_core f cs ce = Ok c -> regular {| s_core := c; s_excl := x |}.
Proof.
  (* whatever the format, the state comes out of [clip] *)
  rewrite init_core_stages. intros H.
  apply bind_ok in H. destruct H as (ostart & _ & H).
  apply bind_ok in H. destruct H as (p_stop0 & _ & H).
  destruct ostart as [p_start0|]; [|discriminate].
  apply bind_ok in H. destruct H as ([[a sp] st] & _ & H). unfold clip in H.
  destruct (truthy_step st) as [k|] eqn:Et.
  - destruct (k <? 0) eqn:Ek; [discriminate|]. injection H as <-.
    left. exists k. split; [exact Et|]. apply truthy_step_some in Et. lia.
  - injection H as <-. right. exact Et.
Qed.

(* the named recurrence forms, as dispatched by RECURRENCE_FORMAT_RECS *)
Definition mkform fmt reps st en intv : form :=
  {| f_fmt := fmt; f_reps := reps; f_start := st; f_end := en; f_intv := intv |}.
Definition F_Rn_S_E n S E := mkform 1 (Some n) (Some S) (Some E) None.      (* Rn/START/END *)
Definition F_S_Pk S k := mkform 3 None (Some S) None (Some k).              (* START/Pk *)
Definition F_Pk k := mkform 3 None None None (Some k).                      (* Pk *)
Definition F_Pk_E k E := mkform 4 None None (Some E) (Some k).              (* Pk/END *)
Definition F_R1_S n S := mkform 3 n (Some S) None None.                     (* R1/START, R/START *)
Definition F_Rn_S_Pk n S k := mkform 3 n (Some S) None (Some k).            (* Rn/START/Pk *)
Definition F_Rn__Pk n k := mkform 3 n None None (Some k).                   (* Rn//Pk *)
Definition F_Rn_Pk_E n k E := mkform 4 n None (Some E) (Some k).            (* Rn/Pk/END *)
Definition F_Rn_Pk n k := mkform 4 n None None (Some k).                    (* Rn/Pk *)
Definition F_R1 := mkform 3 (Some 1) None None None.                        (* R1 *)
Definition F_R1__E E := mkform 4 (Some 1) None (Some E) None.               (* R1//END *)

(* side conditions of the specification: interval >= 1, repetitions >= 2
   (n = 1 is the one-off shape) *)
Definition shape_wf (sh : shape) : Prop :=
  match sh with
  | OneOff _ => True
  | Up _ k n | Down _ k n => 1 <= k /\ forall m, n = Some m -> 2 <= m
  end.

Lemma denote_no_items f cs ce p : denote0 f cs ce p -> denote f None cs ce p.
Proof. intros H. split; [exact H|]. intros sh its it _ [=]. Qed.
