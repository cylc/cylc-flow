(* Proofs/C3Proofs.v — lemmas about Model/C3.v.  Every property of [merge] is
   proved through [merge_cases], the four ways one call can go. *)
From Coq Require Import List Bool Arith Lia.
From Cylc Require Import Base.Util Model.C3.
Import ListNotations.

Inductive subseq {A} : list A -> list A -> Prop :=
| sub_nil : forall l, subseq [] l
| sub_take : forall x s l, subseq s l -> subseq (x :: s) (x :: l)
| sub_skip : forall x s l, subseq s l -> subseq s (x :: l).

(* a linear order [l] is consistent with the sequences when it has no
   duplicates and contains each of them as a subsequence *)
Definition consistent (seqs : list (list name)) (l : list name) : Prop :=
  NoDup l /\ forall s, In s seqs -> subseq s l.

Lemma subseq_In {A} (s l : list A) x : subseq s l -> In x s -> In x l.
Proof. induction 1; cbn; intros Hx; [destruct Hx| |auto]. destruct Hx; auto. Qed.
Lemma subseq_cons_inv {A} (h : A) t x l :
  subseq (h :: t) (x :: l) -> (h = x /\ subseq t l) \/ subseq (h :: t) l.
Proof. intros H; inversion H; subst; auto. Qed.
Lemma subseq_tail {A} (h : A) t l : subseq (h :: t) l -> subseq t l.
Proof.
  induction l as [|x l IH]; intros H; inversion H; subst.
  - now apply sub_skip.
  - apply sub_skip. auto.
Qed.

Lemma In_nonempty seqs h t : In (h :: t) seqs <-> In (h :: t) (filter nonempty seqs).
Proof.
  split; intros H; [apply filter_In; split; [exact H|reflexivity]|].
  apply filter_In in H. exact (proj1 H).
Qed.

(* [P fuel seqs r] holds of the result [r] of [merge fuel label seqs] if it
   holds in each of the four ways merge can go *)
Section MergeInd.
  Variables (label : name) (P : nat -> list (list name) -> res (list name) -> Prop).
  Hypothesis Hfuel : forall seqs, P 0 seqs OutOfFuel.
  Hypothesis Hnil : forall f seqs, filter nonempty seqs = [] -> P (S f) seqs (Ok []).
  Hypothesis Hnone : forall f seqs, let ne := filter nonempty seqs in
    ne <> [] -> find_cand ne ne = None -> P (S f) seqs (Inconsistent label).
  Hypothesis Hsome : forall f seqs c, let ne := filter nonempty seqs in
    find_cand ne ne = Some c ->
    P f (map (drop_head c) ne) (merge f label (map (drop_head c) ne)) ->
    P (S f) seqs (match merge f label (map (drop_head c) ne) with Ok l => Ok (c :: l) | e => e end).

  Lemma merge_cases fuel : forall seqs, P fuel seqs (merge fuel label seqs).
  Proof.
    induction fuel as [|f IH]; intros seqs; cbn [merge]; [apply Hfuel|].
    (* the hypotheses are instantiated first so that the destruct rewrites them too *)
    generalize (Hnil f seqs) (Hnone f seqs) (fun c => Hsome f seqs c). cbv zeta.
    destruct (filter nonempty seqs) as [|s0 r0]; intros A B C; [now apply A|].
    destruct (find_cand (s0 :: r0) (s0 :: r0)) as [c|]; [|now apply B].
    apply C; [reflexivity|apply IH].
  Qed.
End MergeInd.

Lemma find_cand_some todo all c :
  find_cand todo all = Some c ->
  (exists t, In (c :: t) todo) /\ existsb (in_tail c) all = false.
Proof.
  induction todo as [|s r IH]; cbn; [discriminate|].
  destruct s as [|h t].
  - intros H. destruct (IH H) as [[t' Ht] E]. split; eauto.
  - destruct (existsb (in_tail h) all) eqn:E.
    + intros H. destruct (IH H) as [[t' Ht] E']. split; eauto.
    + intros [= <-]. split; eauto.
Qed.

Lemma find_cand_none todo all :
  find_cand todo all = None ->
  forall h t, In (h :: t) todo -> existsb (in_tail h) all = true.
Proof.
  induction todo as [|s r IH]; cbn; [intros _ h t []|].
  destruct s as [|h0 t0].
  - intros H h t [E|Hin]; [discriminate|eauto].
  - destruct (existsb (in_tail h0) all) eqn:E; [|discriminate].
    intros H h t [Eq|Hin]; [inversion Eq; subst; exact E|eauto].
Qed.

Lemma total_len_filter seqs : total_len (filter nonempty seqs) = total_len seqs.
Proof.
  unfold total_len, sum_nat. induction seqs as [|s r IH]; cbn; [reflexivity|].
  destruct s; cbn; auto.
Qed.

Lemma drop_head_len c s : length (drop_head c s) <= length s.
Proof. destruct s as [|h t]; cbn; [lia|]. destruct (Nat.eqb h c); cbn; lia. Qed.

Lemma total_len_drop c seqs :
  total_len (map (drop_head c) seqs) <= total_len seqs.
Proof.
  unfold total_len, sum_nat. induction seqs as [|s r IH]; cbn; [lia|].
  pose proof (drop_head_len c s). lia.
Qed.

Lemma total_len_drop_lt c t seqs :
  In (c :: t) seqs -> total_len (map (drop_head c) seqs) < total_len seqs.
Proof.
  unfold total_len, sum_nat. induction seqs as [|s r IH]; cbn; [intros []|].
  intros [->|Hin].
  - cbn. rewrite Nat.eqb_refl. pose proof (total_len_drop c r) as Hd. unfold total_len, sum_nat in Hd. lia.
  - pose proof (drop_head_len c s). specialize (IH Hin). lia.
Qed.

Lemma merge_not_keyerror fuel label seqs : merge fuel label seqs <> KeyError.
Proof.
  revert seqs. apply (merge_cases label (fun _ _ r => r <> KeyError)); try discriminate.
  intros f seqs c ne _ IH. destruct (merge f label _); try discriminate. exact IH.
Qed.

Lemma subseq_drop_head c s l :
  subseq (drop_head c s) l -> subseq s (c :: l).
Proof.
  destruct s as [|h t]; cbn; [intros _; constructor|].
  destruct (Nat.eqb_spec h c) as [->|Hne]; intros H.
  - now constructor.
  - now apply sub_skip.
Qed.

Lemma merge_sound fuel label seqs l :
  merge fuel label seqs = Ok l -> forall s, In s seqs -> subseq s l.
Proof.
  revert seqs l.
  apply (merge_cases label (fun _ seqs r => forall l, r = Ok l -> forall s, In s seqs -> subseq s l));
    try discriminate.
  - intros _ seqs E l [= <-] [|h t] Hs; [constructor|].
    apply In_nonempty in Hs. rewrite E in Hs. destruct Hs.
  - intros f seqs c ne _ IH l. destruct (merge f label _) as [l'| | |]; try discriminate.
    intros [= <-] [|h t] Hs; [constructor|]. apply In_nonempty in Hs.
    apply subseq_drop_head. apply (IH l' eq_refl). now apply in_map.
Qed.

(* every element of the result comes from some input sequence *)
Lemma merge_elems fuel label seqs l :
  merge fuel label seqs = Ok l -> forall x, In x l -> exists s, In s seqs /\ In x s.
Proof.
  revert seqs l.
  apply (merge_cases label (fun _ seqs r => forall l, r = Ok l ->
           forall x, In x l -> exists s, In s seqs /\ In x s)); try discriminate.
  - intros _ seqs _ l [= <-] x [].
  - intros f seqs c ne Ec IH l. destruct (merge f label _) as [l'| | |]; try discriminate.
    intros [= <-] x [<-|Hx].
    + apply find_cand_some in Ec. destruct Ec as [[t Ht] _]. apply In_nonempty in Ht.
      exists (c :: t). split; [exact Ht|now left].
    + destruct (IH l' eq_refl x Hx) as [s' [Hs' Hxs']].
      apply in_map_iff in Hs'. destruct Hs' as [s [<- Hs]]. apply filter_In in Hs.
      exists s. split; [exact (proj1 Hs)|].
      destruct s as [|h t]; cbn in Hxs'; [destruct Hxs'|].
      destruct (Nat.eqb h c); [now right|exact Hxs'].
Qed.

Lemma drop_head_NoDup c s : NoDup s -> NoDup (drop_head c s).
Proof.
  destruct s as [|h t]; cbn; [auto|]. intros H.
  destruct (Nat.eqb h c); [now inversion H|exact H].
Qed.
Lemma all_NoDup_filter seqs :
  (forall s, In s seqs -> NoDup s) -> forall s, In s (filter nonempty seqs) -> NoDup s.
Proof. intros H s Hs. apply filter_In in Hs. exact (H s (proj1 Hs)). Qed.
Lemma all_NoDup_drop c seqs :
  (forall s, In s seqs -> NoDup s) -> forall s, In s (map (drop_head c) seqs) -> NoDup s.
Proof. intros H s Hs. apply in_map_iff in Hs. destruct Hs as [s' [<- Hs']]. apply drop_head_NoDup. auto. Qed.

(* the candidate is the head of some sequences and in the tail of none, so
   once the heads are dropped it is gone *)
Lemma cand_not_in_dropped c seqs :
  existsb (in_tail c) seqs = false ->
  forall s, In s (map (drop_head c) seqs) -> ~ In c s.
Proof.
  intros Hex s Hs. apply in_map_iff in Hs. destruct Hs as [s' [<- Hs']].
  assert (Ht : ~ In c (tl s')) by (apply mem_nat_false; exact (proj1 (existsb_false _ _) Hex s' Hs')).
  destruct s' as [|h t]; cbn in *; [intros []|].
  destruct (Nat.eqb_spec h c) as [->|Hne]; [exact Ht|].
  intros [E|E]; [congruence|exact (Ht E)].
Qed.

Lemma merge_NoDup fuel label seqs l :
  (forall s, In s seqs -> NoDup s) ->
  merge fuel label seqs = Ok l -> NoDup l.
Proof.
  revert seqs l.
  apply (merge_cases label (fun _ seqs r => forall l, (forall s, In s seqs -> NoDup s) ->
           r = Ok l -> NoDup l)); try discriminate.
  - intros _ seqs _ l _ [= <-]. constructor.
  - intros f seqs c ne Ec IH l Hnd. pose proof (all_NoDup_filter _ Hnd) as Hne.
    destruct (merge f label _) as [l'| | |] eqn:Em; try discriminate.
    intros [= <-]. apply find_cand_some in Ec. destruct Ec as [_ Hex].
    constructor.
    + intros Hc. destruct (merge_elems _ _ _ _ Em c Hc) as [s [Hs Hcs]].
      exact (cand_not_in_dropped c _ Hex s Hs Hcs).
    + apply (IH l'); [now apply all_NoDup_drop|reflexivity].
Qed.

(* if every head is in some tail, whatever comes first in [l] is a head (it
   must precede the rest of its sequence) and again occurs later *)
Lemma no_head_no_order ne :
  ne <> [] -> (forall s, In s ne -> s <> []) ->
  (forall h t, In (h :: t) ne -> existsb (in_tail h) ne = true) ->
  forall l, ~ consistent ne l.
Proof.
  intros Hne Hall Hheads l. induction l as [|x l IH]; intros [Hnd Hsub].
  - destruct ne as [|s r]; [congruence|].
    specialize (Hsub s (or_introl eq_refl)). specialize (Hall s (or_introl eq_refl)).
    inversion Hsub; congruence.
  - destruct (existsb (fun s => match s with h :: _ => Nat.eqb h x | [] => false end) ne) eqn:Ehead.
    + apply existsb_exists in Ehead. destruct Ehead as [s0 [Hs0 E0]].
      destruct s0 as [|h0 t0]; [discriminate|]. apply Nat.eqb_eq in E0. subst h0.
      pose proof (Hheads _ _ Hs0) as Hex. apply existsb_exists in Hex.
      destruct Hex as [s1 [Hs1 E1]]. unfold in_tail in E1. apply mem_nat_In in E1.
      destruct s1 as [|h1 t1]; [destruct E1|]. cbn in E1.
      inversion Hnd as [|? ? Hx _]; subst.
      destruct (subseq_cons_inv _ _ _ _ (Hsub _ Hs1)) as [[_ Hs]|Hs].
      * apply Hx. eapply subseq_In; eauto.
      * apply Hx. eapply subseq_In; [exact Hs|now right].
    + apply IH. split; [now inversion Hnd|].
      intros s Hs. specialize (Hsub s Hs). destruct s as [|h t]; [constructor|].
      destruct (subseq_cons_inv _ _ _ _ Hsub) as [[-> _]|H']; [|exact H'].
      assert (existsb (fun s => match s with h :: _ => Nat.eqb h x | [] => false end) ne = true).
      { apply existsb_exists. exists (x :: t). split; [exact Hs|apply Nat.eqb_refl]. }
      congruence.
Qed.

Lemma subseq_remove s l c :
  subseq s l -> ~ In c s -> subseq s (remove Nat.eq_dec c l).
Proof.
  induction 1 as [l|x s l H IH|x s l H IH]; intros Hc; cbn.
  - constructor.
  - destruct (Nat.eq_dec c x) as [->|Hne]; [exfalso; apply Hc; now left|].
    constructor. apply IH. intros Hin; apply Hc; now right.
  - destruct (Nat.eq_dec c x); [auto|apply sub_skip; auto].
Qed.

Lemma NoDup_remove_nat c l : NoDup l -> NoDup (remove Nat.eq_dec c l).
Proof.
  induction 1 as [|x l Hx Hnd IH]; cbn; [constructor|].
  destruct (Nat.eq_dec c x); [exact IH|].
  constructor; [|exact IH]. intros Hin. apply in_remove in Hin. exact (Hx (proj1 Hin)).
Qed.

(* an order for the sequences gives one for what is left after choosing [c] *)
Lemma consistent_drop c ne l :
  existsb (in_tail c) ne = false ->
  consistent ne l -> consistent (map (drop_head c) ne) (remove Nat.eq_dec c l).
Proof.
  intros Hex [Hl Hsub]. split; [now apply NoDup_remove_nat|].
  intros s Hs. pose proof (cand_not_in_dropped c ne Hex s Hs) as Hc.
  apply in_map_iff in Hs. destruct Hs as [s' [<- Hs']].
  apply subseq_remove; [|exact Hc].
  specialize (Hsub _ Hs'). destruct s' as [|h t]; cbn; [constructor|].
  destruct (Nat.eqb h c); [eapply subseq_tail; eauto|exact Hsub].
Qed.

Lemma consistent_filter seqs l :
  consistent seqs l -> consistent (filter nonempty seqs) l.
Proof.
  intros [H1 H2]. split; [exact H1|]. intros s Hs. apply filter_In in Hs. exact (H2 s (proj1 Hs)).
Qed.

Lemma merge_reject_sound fuel label seqs lb :
  merge fuel label seqs = Inconsistent lb -> forall l, ~ consistent seqs l.
Proof.
  revert seqs.
  apply (merge_cases label (fun _ seqs r => r = Inconsistent lb -> forall l, ~ consistent seqs l));
    try discriminate.
  - intros _ seqs ne Hne Ec _ l Hcons. apply consistent_filter in Hcons.
    refine (no_head_no_order ne Hne _ _ l Hcons).
    + intros s Hs ->. apply filter_In in Hs. destruct Hs. discriminate.
    + intros h t Hin. eapply find_cand_none; eauto.
  - intros f seqs c ne Ec IH. apply find_cand_some in Ec. destruct Ec as [_ Hex].
    destruct (merge f label _) as [l'| | |]; try discriminate.
    intros E l Hcons. apply consistent_filter in Hcons.
    exact (IH E _ (consistent_drop c _ l Hex Hcons)).
Qed.

Lemma all_ok_In {A} (l : list (res A)) ls :
  all_ok l = Ok ls -> forall a, In a ls -> In (Ok a) l.
Proof.
  revert ls; induction l as [|r l IH]; cbn; intros ls.
  - intros [= <-] a [].
  - destruct r as [a0| | |]; try discriminate.
    destruct (all_ok l) as [l'| | |]; try discriminate.
    intros [= <-] a [<-|Ha]; [now left|right; eauto].
Qed.

Definition tree_NoDup (t : tree) : Prop :=
  forall c ps, assoc Nat.eqb c t = Some ps -> NoDup ps.
