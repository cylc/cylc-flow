(* Proofs/ReloadProofs.v — lemmas about Model/Reload.v: the reload of a pool is [map image]
   over [filter survives]; the new value of a prerequisite key; what check_task_output finds
   in the database ([recorded]). *)
From Coq Require Import List Bool NArith Lia.
From Cylc Require Import Base.Util Model.Reload.
Import ListNotations.

Lemma tid_eqb_spec a b : tid_eqb a b = true <-> a = b.
Proof.
  destruct a as [a1 a2], b as [b1 b2]; unfold tid_eqb; cbn.
  split; [intros [->%N.eqb_eq ->%N.eqb_eq]%andb_prop; reflexivity|intros [= -> ->]; now rewrite !N.eqb_refl].
Qed.

Lemma key_eqb_spec a b : key_eqb a b = true <-> a = b.
Proof.
  destruct a as [[a1 a2] a3], b as [[b1 b2] b3]; unfold key_eqb; cbn.
  split; [intros [[->%N.eqb_eq ->%N.eqb_eq]%andb_prop ->%N.eqb_eq]%andb_prop; reflexivity|intros [= -> -> ->]; now rewrite !N.eqb_refl].
Qed.

Lemma memN_In x l : mem N.eqb x l = true <-> In x l.
Proof. apply mem_In. intros; apply N.eqb_eq. Qed.

(* a flat list of (key, value) in which a key has one value only *)
Definition functional {B} (l : list (key * B)) : Prop :=
  forall k v v', In (k, v) l -> In (k, v') l -> v = v'.

Lemma NoDup_keys_functional {B} (l : list (key * B)) : NoDup (map fst l) -> functional l.
Proof. intros ND k v v' H H'. exact (f_equal snd (NoDup_map_inj fst l _ _ ND H H' eq_refl)). Qed.

(* the new value of a key is that of one of its old occurrences (the last one), or, for a key the task did not have, what
   check_task_output says *)
Lemma new_value_spec db p k :
  In (k, new_value db p k) (concat (p_prereqs p))
  \/ (~ In k (map fst (concat (p_prereqs p))) /\ new_value db p k = check_output db k (p_flows p)).
Proof.
  unfold new_value, pre_reload.
  destruct (assoc key_eqb k _) as [v|] eqn:E.
  - left. apply in_rev. exact (assoc_In key_eqb key_eqb_spec _ _ _ E).
  - right. apply (assoc_None key_eqb key_eqb_spec) in E. rewrite map_rev, <- in_rev in E. auto.
Qed.

Lemma new_value_old db p k v :
  In (k, v) (concat (p_prereqs p)) -> In (k, new_value db p k) (concat (p_prereqs p)).
Proof.
  intros H. destruct (new_value_spec db p k) as [H'|[N _]]; [exact H'|].
  destruct N. exact (in_map fst _ _ H).
Qed.

Lemma new_value_kept db p k v :
  functional (concat (p_prereqs p)) -> In (k, v) (concat (p_prereqs p)) -> new_value db p k = v.
Proof. intros F H. exact (F k _ _ (new_value_old db p k v H) H). Qed.

Lemma new_value_new db p k :
  ~ In k (map fst (concat (p_prereqs p))) -> new_value db p k = check_output db k (p_flows p).
Proof.
  intros N. destruct (new_value_spec db p k) as [H|[_ E]]; [|exact E].
  destruct N. exact (in_map fst _ _ H).
Qed.

Lemma intersects_spec a b : intersects a b = true <-> exists x, In x a /\ In x b.
Proof.
  unfold intersects. rewrite existsb_exists. split; intros [x [H1 H2]]; exists x; split; auto; apply memN_In; auto.
Qed.

(* "recorded": some task_outputs row of that task instance, for flow numbers overlapping the given ones, has the message *)
Definition recorded (db : dbrows) (k : key) (flows : list N) : Prop :=
  exists rows fl msgs, assoc tid_eqb (fst k) db = Some rows /\ In (fl, msgs) rows /\
                       (exists f, In f flows /\ In f fl) /\ In (snd k) msgs.

Lemma first_overlap_sound rows flows msg :
  first_overlap rows flows msg = true ->
  exists fl msgs, In (fl, msgs) rows /\ intersects flows fl = true /\ In msg msgs.
Proof.
  induction rows as [|[fl msgs] r IH]; cbn; [discriminate|].
  destruct (intersects flows fl) eqn:E.
  - intros H. apply memN_In in H. exists fl, msgs. auto.
  - intros H. destruct (IH H) as (fl' & msgs' & H1 & H2). exists fl', msgs'. auto.
Qed.

Lemma check_output_sound db k flows : check_output db k flows = true -> recorded db k flows.
Proof.
  unfold check_output, recorded. destruct flows as [|f0 fr]; [discriminate|].
  destruct (assoc tid_eqb (fst k) db) as [rows|]; [|discriminate].
  intros H. destruct (first_overlap_sound _ _ _ H) as (fl & msgs & H1 & H2 & H3).
  apply intersects_spec in H2. exists rows, fl, msgs. auto.
Qed.

(* at most one row of each task instance overlaps the given flow numbers *)
Definition one_overlap (db : dbrows) (flows : list N) : Prop :=
  forall i rows r1 r2, assoc tid_eqb i db = Some rows -> In r1 rows -> In r2 rows ->
    intersects flows (fst r1) = true -> intersects flows (fst r2) = true -> r1 = r2.

Lemma first_overlap_complete rows flows msg fl msgs :
  (forall r1 r2, In r1 rows -> In r2 rows -> intersects flows (fst r1) = true ->
                 intersects flows (fst r2) = true -> r1 = r2) ->
  In (fl, msgs) rows -> intersects flows fl = true -> In msg msgs ->
  first_overlap rows flows msg = true.
Proof.
  induction rows as [|[fl' msgs'] r IH]; cbn; [tauto|]. intros U H I M.
  destruct (intersects flows fl') eqn:E.
  - assert (Q : (fl', msgs') = (fl, msgs)) by (apply U; cbn; auto).
    injection Q as _ ->. apply memN_In, M.
  - destruct H as [[= -> _]|H]; [congruence|]. apply IH; auto.
Qed.

Lemma check_output_complete db k flows :
  one_overlap db flows -> recorded db k flows -> check_output db k flows = true.
Proof.
  intros U [rows [fl [msgs [H1 [H2 [[f [F1 F2]] H4]]]]]]. unfold check_output.
  destruct flows as [|f0 fr]; [destruct F1|]. rewrite H1.
  apply (first_overlap_complete rows (f0 :: fr) (snd k) fl msgs).
  - intros r1 r2; apply (U (fst k) rows); auto.
  - exact H2.
  - apply intersects_spec. exists f; auto.
  - exact H4.
Qed.

Lemma check_output_no_flows db k : check_output db k [] = false.
Proof. reflexivity. Qed.

Definition survives (d : newdef) (p : proxy) : bool := negb (orphan d p && removable p).

(* what a surviving task becomes *)
Definition image (d : newdef) (db : dbrows) (p : proxy) : proxy :=
  if orphan d p then
    {| p_id := p_id p; p_status := p_status p; p_flows := p_flows p; p_submit := p_submit p;
       p_held := p_held p; p_queued := p_queued p; p_runahead := p_runahead p;
       p_manual := p_manual p; p_outputs := p_outputs p; p_prereqs := p_prereqs p; p_cut := true |}
  else reload_proxy db (defined d p) (newpre_of d p) p.

Lemma reload_one_spec d db p : reload_one d db p = if survives d p then [image d db p] else [].
Proof.
  unfold reload_one, survives, image. destruct (orphan d p); cbn; [|reflexivity].
  destruct (removable p); reflexivity.
Qed.

(* everything except the queued flag, the prerequisites and the children is kept *)
Definition same_core (p q : proxy) : Prop :=
  p_id q = p_id p /\ p_status q = p_status p /\ p_flows q = p_flows p /\ p_submit q = p_submit p /\
  p_held q = p_held p /\ p_runahead q = p_runahead p /\ p_manual q = p_manual p /\ p_outputs q = p_outputs p.

Lemma image_core d db p : same_core p (image d db p).
Proof. unfold image, same_core. destruct (orphan d p); cbn; repeat split; reflexivity. Qed.

Lemma image_id d db p : p_id (image d db p) = p_id p.
Proof. apply image_core. Qed.

Lemma reload_pool_spec d db pool :
  reload_pool d db pool = map (image d db) (filter (survives d) pool).
Proof.
  unfold reload_pool. induction pool as [|p r IH]; cbn; [reflexivity|].
  rewrite IH, reload_one_spec. destruct (survives d p); reflexivity.
Qed.

Lemma reload_pool_In d db pool q :
  In q (reload_pool d db pool) <-> exists p, In p pool /\ survives d p = true /\ q = image d db p.
Proof.
  rewrite reload_pool_spec, in_map_iff. split.
  - intros (p & <- & H). apply filter_In in H. exists p. tauto.
  - intros (p & H1 & H2 & ->). exists p. rewrite filter_In. auto.
Qed.

(* the ids after the reload are a sub-sequence of the ids before, in the same order: filter *)
Lemma reload_pool_ids d db pool :
  map p_id (reload_pool d db pool) = map p_id (filter (survives d) pool).
Proof. rewrite reload_pool_spec, map_map. apply map_ext. intros p. apply image_id. Qed.

Lemma reload_pool_id_In d db pool i :
  In i (map p_id (reload_pool d db pool)) <-> exists p, In p pool /\ survives d p = true /\ p_id p = i.
Proof.
  rewrite reload_pool_ids, in_map_iff. split.
  - intros (p & E & H). apply filter_In in H. exists p. tauto.
  - intros (p & H1 & H2 & E). exists p. rewrite filter_In. auto.
Qed.

Lemma survives_spec d p : survives d p = false <-> orphan d p = true /\ removable p = true.
Proof. unfold survives. rewrite negb_false_iff, andb_true_iff. tauto. Qed.

Lemma dropped_spec d db pool p :
  NoDup (map p_id pool) -> In p pool ->
  (~ In (p_id p) (map p_id (reload_pool d db pool)) <-> orphan d p = true /\ removable p = true).
Proof.
  intros ND H. rewrite <- survives_spec, reload_pool_id_In. split.
  - intros C. destruct (survives d p) eqn:E; [|reflexivity]. destruct C. eauto.
  - intros S (p' & H1 & H2 & E). rewrite (NoDup_map_inj p_id pool p' p ND H1 H E) in H2. congruence.
Qed.

Lemma defined_not_orphan d p : defined d p = true -> orphan d p = false.
Proof. unfold defined, orphan. intros ->. apply andb_false_r. Qed.

Lemma orphan_not_defined d p : orphan d p = true -> defined d p = false.
Proof. unfold defined, orphan. intros H. apply andb_true_iff in H. now apply negb_true_iff. Qed.

Lemma defined_survives d p : defined d p = true -> survives d p = true.
Proof. intros H. unfold survives. rewrite (defined_not_orphan _ _ H). reflexivity. Qed.

Lemma image_defined d db p : orphan d p = false -> image d db p = reload_proxy db (defined d p) (newpre_of d p) p.
Proof. unfold image. intros ->. reflexivity. Qed.

Lemma reload_proxy_keys db df np p : map (map fst) (p_prereqs (reload_proxy db df np p)) = np.
Proof.
  cbn. rewrite map_map. rewrite <- (map_id np) at 2. apply map_ext. intros l.
  rewrite map_map. apply map_id.
Qed.

Lemma reload_proxy_prereqs db df np p k v :
  In (k, v) (concat (p_prereqs (reload_proxy db df np p))) <-> In k (concat np) /\ v = new_value db p k.
Proof.
  cbn. rewrite <- concat_map, in_map_iff. split.
  - intros (k' & [= <- <-] & H). auto.
  - intros [H ->]. eauto.
Qed.

Lemma image_prereqs d db p k v :
  orphan d p = false ->
  In (k, v) (concat (p_prereqs (image d db p))) <-> In k (concat (newpre_of d p)) /\ v = new_value db p k.
Proof. intros O. rewrite (image_defined _ _ _ O). apply reload_proxy_prereqs. Qed.

Lemma map_map_ext_in {A B} (f g : A -> B) (ll : list (list A)) :
  (forall x, In x (concat ll) -> f x = g x) -> map (map f) ll = map (map g) ll.
Proof.
  intros H. apply map_ext_in. intros l Hl. apply map_ext_in. intros x Hx.
  apply H, in_concat. eauto.
Qed.

Lemma map_pairs_id {A B} (f : A -> B) (pre : list (list (A * B))) :
  (forall k v, In (k, v) (concat pre) -> f k = v) ->
  map (map (fun k => (k, f k))) (map (map fst) pre) = pre.
Proof.
  intros H. rewrite map_map. rewrite <- (map_id pre) at 2. apply map_ext_in. intros l Hl.
  rewrite map_map. rewrite <- (map_id l) at 2. apply map_ext_in. intros [k v] Hkv. cbn.
  f_equal. apply H, in_concat. eauto.
Qed.

Lemma reload_same_one d db p :
  defined d p = true -> newpre_of d p = map (map fst) (p_prereqs p) ->
  functional (concat (p_prereqs p)) -> p_cut p = false ->
  reload_one d db p = [set_queued p false].
Proof.
  intros D NP F C. unfold reload_one. rewrite (defined_not_orphan _ _ D).
  unfold reload_proxy, set_queued. rewrite D, NP, C. cbn.
  rewrite (map_pairs_id (new_value db p)); [reflexivity|]. intros k v H. apply new_value_kept; auto.
Qed.

(* the new definition lists prerequisites only for instances of tasks it defines *)
Definition wf_def (d : newdef) : Prop :=
  forall i l, In (i, l) (d_pre d) -> mem N.eqb (snd i) (d_new d) = true.

(* what a second reload makes of an orphan the first one kept: it is rebuilt from an empty
   definition, losing its prerequisites and its queued flag *)
Definition forget_undefined (d : newdef) (q : proxy) : proxy :=
  if defined d q then q else
  {| p_id := p_id q; p_status := p_status q; p_flows := p_flows q; p_submit := p_submit q;
     p_held := p_held q; p_queued := false; p_runahead := p_runahead q; p_manual := p_manual q;
     p_outputs := p_outputs q; p_prereqs := []; p_cut := p_cut q |}.

Lemma newpre_undefined d p : wf_def d -> defined d p = false -> newpre_of d p = [].
Proof.
  intros W D. unfold newpre_of.
  destruct (assoc tid_eqb (p_id p) (d_pre d)) eqn:H; [|reflexivity].
  apply (assoc_In tid_eqb tid_eqb_spec), W in H. unfold defined, p_name in D. congruence.
Qed.

(* [defined] and [newpre_of] look at the id only, which a reload keeps *)
Lemma defined_image d d' db p : defined d (image d' db p) = defined d p.
Proof. unfold defined, p_name. rewrite image_id. reflexivity. Qed.

Lemma newpre_of_image d d' db p : newpre_of d (image d' db p) = newpre_of d p.
Proof. unfold newpre_of. rewrite image_id. reflexivity. Qed.

(* the second time nothing is an orphan *)
Lemma reload_one_settled d db q :
  reload_one (settled d) db q = [reload_proxy db (defined d q) (newpre_of d q) q].
Proof.
  unfold reload_one. replace (orphan (settled d) q) with false; [reflexivity|].
  symmetry. apply andb_negb_r.
Qed.

(* the value of a key of the new definition, looked up in the already reloaded proxy *)
Lemma new_value_again db db' df np p k :
  In k (concat np) -> new_value db' (reload_proxy db df np p) k = new_value db p k.
Proof.
  intros H. apply new_value_kept.
  - intros k0 v v' H1 H2. apply reload_proxy_prereqs in H1, H2. destruct H1 as [_ ->], H2 as [_ ->]. reflexivity.
  - apply reload_proxy_prereqs. auto.
Qed.

Lemma reload_proxy_again db db' df np p :
  reload_proxy db' df np (reload_proxy db df np p) = reload_proxy db df np p.
Proof.
  unfold reload_proxy at 1.
  rewrite (map_map_ext_in _ (fun k => (k, new_value db p k))); [reflexivity|].
  intros k H. f_equal. apply new_value_again; exact H.
Qed.

Lemma reload_twice_one d db db' p :
  wf_def d -> reload_one (settled d) db' (image d db p) = [forget_undefined d (image d db p)].
Proof.
  intros W. rewrite reload_one_settled, defined_image, newpre_of_image.
  unfold forget_undefined. rewrite defined_image. unfold image. destruct (orphan d p) eqn:O.
  - (* a kept orphan *)
    pose proof (orphan_not_defined _ _ O) as D. rewrite D, (newpre_undefined d p W D). reflexivity.
  - rewrite reload_proxy_again. destruct (defined d p) eqn:D; [reflexivity|].
    rewrite (newpre_undefined d p W D). reflexivity.
Qed.

Lemma forget_id_when d db p :
  wf_def d -> orphan d p = false -> forget_undefined d (image d db p) = image d db p.
Proof.
  intros W O. unfold forget_undefined. rewrite defined_image.
  destruct (defined d p) eqn:D; [reflexivity|].
  rewrite (image_defined _ _ _ O), D, (newpre_undefined d p W D). reflexivity.
Qed.
