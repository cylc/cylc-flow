(* Proofs/TaskMsgFinal.v - the final state matches the latest job's outcome (C10) *)
From Coq Require Import List Bool Arith ZArith Lia.
From Cylc Require Import Base.Util Gen.TaskMsgTables Model.TaskMsg Proofs.TaskMsgProofs Proofs.TaskMsgInv Proofs.TaskMsgEdges.
Import ListNotations.

Inductive outcome := OutSucc | OutFail.
Definition is_outcome (o : outcome) (m : msg) : bool :=
  match o, m with OutSucc, MSucceeded => true | OutFail, MFailed => true | _, _ => false end.
Definition op_stale (o : op) : bool :=
  match o with OpMsg _ f rel => flag_received f && negb (rel =? 0)%Z | _ => false end.
Definition delivers (oc : outcome) (o : op) : bool :=
  match o with OpMsg m _ _ => is_outcome oc m && negb (op_stale o) | _ => false end.
(* the messages the job (with outcome oc, emitting the custom outputs C) can cause *)
Definition emits (oc : outcome) (C : list nat) (m : msg) : bool :=
  match m with
  | MSubmitted | MStarted | MOther => true
  | MCustom j => mem Nat.eqb j C
  | MSucceeded | MFailed => is_outcome oc m
  | MSubFail | MExpired => false
  end.
Definition is_started (m : msg) : bool := match m with MStarted => true | _ => false end.
(* what may happen to the latest submission of such a job: stale messages of any content, submit
   successes, and the messages it can cause under any flag -- except, once the outcome has been
   [delivered], a polled/internal 'started' (TaskMsgEdges.late_poll_regresses) *)
Definition story_op (oc : outcome) (C : list nat) (delivered : bool) (o : op) : bool :=
  match o with
  | OpPrep => false
  | OpSubRes ok => ok
  | OpMsg m f rel =>
      op_stale o ||
      (emits oc C m && negb (delivered && negb (flag_received f) && is_started m))
  end.
Fixpoint story (oc : outcome) (C : list nat) (delivered : bool) (ops : list op) : bool :=
  match ops with
  | [] => true
  | o :: r => story_op oc C delivered o && story oc C (delivered || delivers oc o) r
  end.
Definition delivered_in (oc : outcome) (ops : list op) : bool := existsb (delivers oc) ops.

Lemma stale_rel t m f rel : stale t f (Z.of_nat (sn t) + rel) = op_stale (OpMsg m f rel).
Proof.
  unfold stale, op_stale. f_equal. f_equal.
  destruct (Z.eqb_spec rel 0) as [->|N]; [rewrite Z.add_0_r; apply Z.eqb_refl|apply Z.eqb_neq; lia].
Qed.
Lemma step_stale t m f rel : op_stale (OpMsg m f rel) = true -> step t (OpMsg m f rel) = (t, []).
Proof. intros H. apply pm_ignored. rewrite check_eq, (stale_rel t m), H. reflexivity. Qed.

Definition expected_st (t0 : task) (oc : outcome) : status :=
  match oc with
  | OutSucc => Succeeded
  | OutFail => if no_next (texec t0) then Failed else Waiting
  end.
Definition customs_ok (t0 : task) (C : list nat) (t : task) : Prop :=
  forall j, In (Custom j) (outs t) -> In (Custom j) (outs t0) \/ In j C.

(* phaseA: the outcome has not been delivered yet (the job is active, the execution timer untouched);
   phaseB: it has, and the task shows it.  t0 is the task right after job preparation. *)
Record phaseA (t0 : task) (C : list nat) (t : task) : Prop := {
  pa_wf : wf t;
  pa_st : st t = Preparing \/ st t = Submitted \/ st t = Running;
  pa_exec : texec t = texec t0;
  pa_nosucc : ~ In OSucceeded (outs t);
  pa_nofail : ~ In OFailed (outs t);
  pa_cust : customs_ok t0 C t
}.
Record phaseB (t0 : task) (oc : outcome) (C : list nat) (t : task) : Prop := {
  pb_wf : wf t;
  pb_st : st t = expected_st t0 oc;
  pb_sub : In OSubmitted (outs t);
  pb_start : In OStarted (outs t);
  pb_succ : In OSucceeded (outs t) <-> oc = OutSucc;
  pb_fail : In OFailed (outs t) <-> (oc = OutFail /\ no_next (texec t0) = true);
  pb_cust : customs_ok t0 C t;
  pb_wait : expected_st t0 oc = Waiting -> retry_lined_up t = true
}.

(* status and execution timer of phase A *)
Definition inA (t0 : task) (c : ctl) : Prop :=
  (c_st c = Preparing \/ c_st c = Submitted \/ c_st c = Running) /\ c_exec c = texec t0.
Lemma inA_submitted t0 c : inA t0 c -> inA t0 (act MSubmitted c).
Proof.
  intros [S E]. split; [|exact E]. cbn.
  destruct (psub_st_cases (c_st c)) as [[_ Q]|[_ Q]]; rewrite Q; auto.
Qed.
Lemma inA_started t0 c : inA t0 c -> inA t0 (act MStarted c).
Proof. intros [S E]. split; [cbn; auto|exact E]. Qed.
Lemma inA_passes t0 c m : inA t0 c -> m <> MSubmitted -> m <> MSubFail -> backward m (c_st c) = false.
Proof. intros [[S|[S|S]] _] N1 N2; rewrite S; destruct m; try reflexivity; congruence. Qed.

Lemma customs_ok_pm t0 oc C t m f n : customs_ok t0 C t -> emits oc C m = true ->
  customs_ok t0 C (fst (process_message t m f n)).
Proof.
  intros CU Em j H. destruct (pm_outs_inv _ _ _ _ _ H) as [H'|H']; [auto|].
  cbn in H'. subst m. right. apply mem_nat_In. exact Em.
Qed.

Lemma phaseA_unblocked t0 C t : phaseA t0 C t -> blocked t = false.
Proof. intros P. unfold blocked. destruct (pa_st _ _ _ P) as [S|[S|S]]; rewrite S; reflexivity. Qed.

(* a non-stale message that the job can emit, before the outcome was delivered *)
Lemma phaseA_msg t0 oc C t m f n :
  phaseA t0 C t -> check t m f n = true -> emits oc C m = true ->
  let t' := fst (process_message t m f n) in
  if is_outcome oc m then phaseB t0 oc C t' else phaseA t0 C t'.
Proof.
  intros [W S E NS NF CU] Ck Em. cbn zeta.
  pose proof (wf_pm t m f n W) as W'.
  destruct (pm_act t m f n Ck) as [Hc _]. cbn zeta in Hc.
  pose proof (fun x => pm_outs_In t m f n x Ck) as Ho.
  pose proof (pm_outs_inv t m f n) as Hn.
  pose proof (customs_ok_pm t0 oc C t m f n CU Em) as CU'.
  set (t' := fst (process_message t m f n)) in *.
  assert (A1 : inA t0 (implied_ctl m (hs t) (ht t) (ctl_of t)))
    by (apply implied_ind; [split; assumption|apply inA_submitted|apply inA_started]).
  destruct (is_outcome oc m) eqn:IO.
  - (* the outcome itself is not turned away *)
    rewrite (inA_passes _ _ m A1), andb_false_r in Hc by (destruct oc, m; discriminate).
    destruct A1 as [S1 E1].
    assert (I2 : In OSubmitted (outs t') /\ In OStarted (outs t'))
      by (split; apply Ho; right; destruct oc, m; try discriminate IO; cbn; auto).
    destruct I2 as [I2 I3].
    destruct oc, m; try discriminate IO; cbn [act] in Hc.
    + constructor; try assumption.
      * exact (f_equal c_st Hc).
      * split; [reflexivity|]. intros _. apply Ho. right. cbn. auto.
      * split; [|intros [H _]; discriminate H].
        intros H. destruct (Hn _ H) as [H'|[H' _]]; [contradiction|discriminate H'].
      * discriminate.
    + rewrite E1 in Hc.
      assert (FF : fail_final t (flag_received f) = no_next (texec t0)).
      { unfold fail_final.
        replace (mid_st (st t) (hs t) (ht t)) with (c_st (implied_ctl MFailed (hs t) (ht t) (ctl_of t)))
          by (destruct (hs t), (ht t); reflexivity).
        rewrite E. destruct S1 as [Q|[Q|Q]]; rewrite Q; cbn; rewrite andb_false_r, andb_true_r; reflexivity. }
      assert (Hst : st t' = expected_st t0 OutFail).
      { unfold expected_st, no_next. destruct (next_of (texec t0)); exact (f_equal c_st Hc). }
      constructor; try assumption.
      * split; [|discriminate]. intros H. destruct (Hn _ H) as [H'|H']; [contradiction|discriminate H'].
      * split.
        -- intros H. destruct (Hn _ H) as [H'|[_ H']]; [contradiction|]. rewrite <- FF. auto.
        -- intros [_ H]. apply Ho. right. cbn [adds]. rewrite FF, H. cbn. auto.
      * unfold expected_st, no_next, retry_lined_up. rewrite <- E.
        destruct (next_of (texec t)) as [x'|] eqn:NX; [intros _|discriminate]. rewrite <- E, NX in Hc.
        destruct (next_of_ok _ _ _ (wf_exec t W) NX) as (_ & P & _).
        change (texec t') with (c_exec (ctl_of t')). rewrite Hc. cbn [c_exec]. rewrite P. apply orb_true_r.
  - assert (A2 : inA t0 (ctl_of t')).
    { rewrite Hc. destruct (flag_received f && _); [exact A1|].
      destruct m; try discriminate Em; try exact A1;
        [apply inA_submitted; exact A1|apply inA_started; exact A1|cbn in Em; congruence..]. }
    destruct A2 as [S2 E2].
    constructor; try assumption.
    + intros H. destruct (Hn _ H) as [H'| ->]; [contradiction|]. cbn in Em. congruence.
    + intros H. destruct (Hn _ H) as [H'|[-> _]]; [contradiction|]. cbn in Em. congruence.
Qed.

Lemma final_status_stable t m f n :
  wf t -> check t m f n = true ->
  (st t = Succeeded /\ m <> MFailed) \/ (st t = Failed /\ m <> MSucceeded) ->
  m <> MSubFail -> m <> MExpired -> (m = MStarted -> flag_received f = true) ->
  st (fst (process_message t m f n)) = st t.
Proof.
  intros W Ck S N1 N2 N3. rewrite (pm_st t m f n Ck).
  assert (R : rk Running <= rk (st t)) by (destruct S as [[S _]|[S _]]; rewrite S; cbn; lia).
  assert (R' : rk Submitted <= rk (st t)) by (cbn in *; lia).
  pose proof (wf_hs t W R') as I1. pose proof (wf_ht t W R) as I2.
  apply hs_In in I1. apply ht_In in I2.
  unfold ctl_next, ctl_of, mid_st. cbn [c_st c_exec c_sub]. rewrite I1, I2.
  destruct m; try congruence; cbn [c_st]; try reflexivity.
  - destruct (flag_received f && (rk Submitted <=? rk (st t))); cbn [c_st]; [reflexivity|].
    destruct S as [[S _]|[S _]]; rewrite S; reflexivity.
  - rewrite (N3 eq_refl). destruct S as [[S _]|[S _]]; rewrite S; reflexivity.
  - destruct S as [[S _]|[S X]]; [symmetry; exact S|congruence].
  - destruct S as [[S X]|[S _]]; [congruence|]. rewrite S. cbn [andb Nat.ltb Nat.leb rk].
    rewrite andb_false_r. rewrite (no_next_None _ (wf_failed t W S)). reflexivity.
Qed.

(* once the outcome was delivered, later messages of the story change nothing
   but custom outputs *)
Lemma phaseB_msg t0 oc C t m f n :
  phaseB t0 oc C t -> emits oc C m = true -> (m = MStarted -> flag_received f = true) ->
  phaseB t0 oc C (fst (process_message t m f n)).
Proof.
  intros B Em St. destruct (check t m f n) eqn:Ck; [|rewrite pm_ignored by exact Ck; exact B].
  destruct B as [W S I1 I2 PS PF CU PW].
  assert (N1 : m <> MSubFail) by (intros ->; discriminate Em).
  assert (N2 : m <> MExpired) by (intros ->; discriminate Em).
  destruct (status_eqb (expected_st t0 oc) Waiting) eqn:EW.
  - (* waiting for the retry: everything is ignored *)
    apply status_eqb_eq in EW. rewrite pm_retry_window; auto; [|congruence].
    constructor; auto.
  - apply status_eqb_neq in EW.
    pose proof (wf_pm t m f n W) as W'.
    assert (Fin : (st t = Succeeded /\ m <> MFailed /\ oc = OutSucc) \/
                  (st t = Failed /\ m <> MSucceeded /\ oc = OutFail /\ no_next (texec t0) = true)).
    { rewrite S. unfold expected_st in *. destruct oc.
      - left. repeat split; auto. intros ->. discriminate Em.
      - destruct (no_next (texec t0)); [|congruence]. right. repeat split; auto. intros ->. discriminate Em. }
    assert (Hst : st (fst (process_message t m f n)) = st t).
    { apply final_status_stable; auto. destruct Fin as [(A & B & _)|(A & B & _)]; auto. }
    set (t' := fst (process_message t m f n)) in *.
    pose proof (pm_outs_mono t m f n) as Mono. fold t' in Mono.
    constructor; [exact W'| |apply Mono; exact I1|apply Mono; exact I2| | | |].
    + congruence.
    + split; [|intros H; apply Mono; apply PS; exact H].
      intros H. destruct (pm_outs_inv _ _ _ _ _ H) as [H'|H']; [apply PS; exact H'|].
      destruct Fin as [(_ & _ & OC)|(_ & M2 & _)]; [exact OC|contradiction].
    + split; [|intros H; apply Mono; apply PF; exact H].
      intros H. destruct (pm_outs_inv _ _ _ _ _ H) as [H'|[H' _]]; [apply PF; exact H'|].
      destruct Fin as [(_ & M1 & _)|(_ & _ & OC & NN)]; [contradiction|auto].
    + apply (customs_ok_pm t0 oc); assumption.
    + intros H. congruence.
Qed.

Lemma phase_step t0 oc C (d : bool) t o :
  (if d then phaseB t0 oc C t else phaseA t0 C t) ->
  story_op oc C d o = true ->
  if d || delivers oc o then phaseB t0 oc C (fst (step t o)) else phaseA t0 C (fst (step t o)).
Proof.
  intros P SO. destruct o as [|ok|m f rel]; cbn [story_op] in SO; [discriminate| |].
  - (* submit command result: internal 'submitted' *)
    subst ok. cbn [step delivers]. rewrite orb_false_r. destruct d.
    + apply phaseB_msg; auto. discriminate.
    + assert (Ck : check t MSubmitted Internal (Z.of_nat (sn t)) = true)
        by (rewrite check_eq, (phaseA_unblocked _ _ _ P); reflexivity).
      assert (Em : emits oc C MSubmitted = true) by reflexivity.
      pose proof (phaseA_msg t0 oc C t MSubmitted Internal _ P Ck Em) as H. cbn zeta in H.
      destruct oc; exact H.
  - destruct (op_stale (OpMsg m f rel)) eqn:ST.
    + (* stale: ignored *)
      rewrite step_stale by exact ST. cbn [fst delivers]. rewrite ST. cbn [negb]. rewrite andb_false_r, orb_false_r.
      exact P.
    + cbn [orb] in SO. apply andb_true_iff in SO. destruct SO as [Em NL].
      cbn [step delivers]. rewrite ST. cbn [negb]. rewrite andb_true_r.
      destruct d; cbn [orb].
      * apply phaseB_msg; auto. intros ->. cbn in NL. rewrite andb_true_r in NL.
        apply negb_true_iff in NL. apply negb_false_iff in NL. exact NL.
      * assert (Ck : check t m f (Z.of_nat (sn t) + rel) = true)
          by (rewrite check_eq, (stale_rel t m), ST, (phaseA_unblocked _ _ _ P); reflexivity).
        apply (phaseA_msg t0 oc C t m f _ P Ck Em).
Qed.

Lemma phase_run t0 oc C ops : forall (d : bool) t,
  (if d then phaseB t0 oc C t else phaseA t0 C t) ->
  story oc C d ops = true ->
  if d || delivered_in oc ops then phaseB t0 oc C (final t ops) else phaseA t0 C (final t ops).
Proof.
  induction ops as [|o r IH]; intros d t P S.
  - cbn. rewrite orb_false_r. exact P.
  - cbn [story] in S. apply andb_true_iff in S. destruct S as [S1 S2].
    rewrite final_cons. cbn [delivered_in existsb]. rewrite orb_assoc.
    apply IH; [|exact S2]. apply phase_step; assumption.
Qed.

Theorem final_matches_outcome t0 oc C ops :
  wf t0 -> st t0 = Preparing ->
  ~ In OSucceeded (outs t0) -> ~ In OFailed (outs t0) ->
  story oc C false ops = true -> delivered_in oc ops = true ->
  phaseB t0 oc C (final t0 ops).
Proof.
  intros W S N1 N2 St D.
  assert (P : phaseA t0 C t0) by (constructor; auto; intros j H; auto).
  pose proof (phase_run t0 oc C ops false t0 P St) as H. rewrite D in H. exact H.
Qed.
