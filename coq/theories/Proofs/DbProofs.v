(* Proofs/DbProofs.v — lemmas about Model/Db.v: the cases of one write ([exec_queued_cases]);
   histories of manager calls with the batches outstanding for the public DAO ([run_hist]) and
   their invariant [hinv] (public queue = outstanding batches merged); merged = sequential
   ([commutes]) decided per table ([proj], [order_preserved]). *)
From Coq Require Import List Bool Arith ZArith Lia.
From Cylc Require Import Base.Util Model.Db.
Import ListNotations.

Definition batch := list op.
Definition qempty (sch : schema) : queues := map (fun _ => tq_empty) sch.

(* the effect of one batch executed on its own (what the private DAO does) *)
Definition apply_batch (sch : schema) (d : db) (b : batch) : db :=
  run sch d (flat (stmts (enq_all sch (qempty sch) b))).
(* batches executed one after the other, each in its own transaction *)
Definition apply_seq (sch : schema) (d : db) (bs : list batch) : db :=
  fold_left (apply_batch sch) bs d.
(* "the merged batch has the same effect as the batches one after the other" *)
Definition commutes (sch : schema) (d : db) (bs : list batch) : Prop :=
  apply_batch sch d (concat bs) = apply_seq sch d bs.

Definition synced (sch : schema) (m : mgr) : Prop :=
  d_db (m_pri m) = d_db (m_pub m) /\ d_q (m_pri m) = qempty sch /\ d_q (m_pub m) = qempty sch /\
  d_tries (m_pub m) = 0.

(* a history of the scheduler's database calls in which the private write
   succeeds: process_queued_ops with a batch and a public fault, or the health
   check recover_pub_from_pri.  [run_hist] also tracks the batches whose public
   write is still outstanding. *)
Inductive hev := HProc (b : batch) (f : fault) | HHealth.
Definition hist := list hev.
Definition health_pend (max : nat) (m : mgr) (pend : list batch) : list batch :=
  if Nat.leb max (d_tries (m_pub m)) then [] else pend.
Fixpoint run_hist (sch : schema) (max : nat) (m : mgr) (pend : list batch) (h : hist)
  : mgr * list batch :=
  match h with
  | [] => (m, pend)
  | HProc b f :: r =>
      let '(m', o) := process sch b None f m in
      run_hist sch max m' (match o with ORetry => pend ++ [b] | _ => [] end) r
  | HHealth :: r => run_hist sch max (health max m) (health_pend max m pend) r
  end.

(* every public write of the history that went through had a commuting merged batch *)
Fixpoint commuting_hist (sch : schema) (max : nat) (m : mgr) (pend : list batch) (h : hist) : Prop :=
  match h with
  | [] => True
  | HProc b f :: r =>
      let '(m', o) := process sch b None f m in
      match o with
      | ORetry => commuting_hist sch max m' (pend ++ [b]) r
      | _ => commutes sch (d_db (m_pub m)) (pend ++ [b]) /\ commuting_hist sch max m' [] r
      end
  | HHealth :: r => commuting_hist sch max (health max m) (health_pend max m pend) r
  end.

Lemma run_app sch d p1 p2 : run sch (run sch d p1) p2 = run sch d (p1 ++ p2).
Proof. unfold run. now rewrite fold_left_app. Qed.

(* the fault fires iff its statement index is within the queue (the commit included) *)
Lemma exec_loop_fires sch ss : forall w k j,
  k <= length ss -> snd (exec_loop sch w ss k j) = true.
Proof.
  induction ss as [|s r IH]; intros w k j Hk; cbn [exec_loop].
  - cbn in Hk. assert (k = 0) by lia. subst. reflexivity.
  - destruct k as [|k']; [reflexivity|]. apply IH. cbn in Hk. lia.
Qed.

Lemma exec_loop_misses sch ss : forall w k j,
  length ss < k -> exec_loop sch w ss k j = (run sch w (flat ss), false).
Proof.
  induction ss as [|s r IH]; intros w k j Hk; cbn [exec_loop flat flat_map].
  - destruct k; [cbn in Hk; lia|reflexivity].
  - destruct k as [|k']; [lia|]. rewrite IH by (cbn in Hk; lia).
    fold (flat r). now rewrite run_app.
Qed.

Lemma exec_txn_ok sch d ss f w : exec_txn sch d ss f = (w, false) -> w = run sch d (flat ss).
Proof.
  destruct f as [[k j]|]; cbn; [|now intros [= <-]].
  intros H. destruct (le_lt_dec k (length ss)) as [Hk|Hk].
  - apply (exec_loop_fires sch ss d k j) in Hk. rewrite H in Hk. discriminate.
  - rewrite exec_loop_misses in H by exact Hk. now injection H.
Qed.

(* what a write can do: nothing to write; all queued statements executed and
   the queues cleared; or, after a fault, the working copy discarded, the queues
   kept, and the failure counted (public) or raised (private) *)
Lemma exec_queued_cases sch pub f d d' o :
  exec_queued sch pub f d = (d', o) ->
  match o with
  | ONoop => stmts (d_q d) = [] /\ d' = d
  | OOk => stmts (d_q d) <> [] /\
           d' = {| d_db := run sch (d_db d) (flat (stmts (d_q d))); d_q := clear_queues (d_q d); d_tries := 0 |}
  | ORetry => stmts (d_q d) <> [] /\ pub = true /\ f <> None /\
              d' = {| d_db := d_db d; d_q := d_q d; d_tries := S (d_tries d) |}
  | ORaised => pub = false /\ f <> None /\ d' = d
  end.
Proof.
  unfold exec_queued. destruct (stmts (d_q d)) as [|s ss] eqn:Es.
  - intros [= <- <-]. auto.
  - destruct (exec_txn sch (d_db d) (s :: ss) f) as [w failed] eqn:Et. destruct failed.
    + assert (f <> None) by (intros ->; discriminate Et).
      destruct pub; intros [= <- <-]; repeat split; auto; discriminate.
    + apply exec_txn_ok in Et. subst w. intros [= <- <-]. split; [discriminate|reflexivity].
Qed.

Lemma exec_private_outcomes sch f d d' o :
  exec_queued sch false f d = (d', o) -> o <> ORetry.
Proof. intros H ->. apply exec_queued_cases in H. now destruct H as (_ & H & _). Qed.

Lemma exec_nofault_outcome sch pub d d' o :
  exec_queued sch pub None d = (d', o) -> o = OOk \/ o = ONoop.
Proof.
  intros H. apply exec_queued_cases in H. destruct o; auto; now destruct H as (? & ? & ?).
Qed.

(* a fault at any statement index (or at the commit), after any number of rows *)
Lemma exec_fault_outcome sch pub k j d :
  stmts (d_q d) <> [] -> k <= length (stmts (d_q d)) ->
  exec_queued sch pub (Some (k, j)) d =
    if pub then ({| d_db := d_db d; d_q := d_q d; d_tries := S (d_tries d) |}, ORetry)
    else (d, ORaised).
Proof.
  intros Hne Hk. unfold exec_queued. destruct (stmts (d_q d)) as [|s ss] eqn:Es; [congruence|].
  cbn [exec_txn]. pose proof (exec_loop_fires sch (s :: ss) (d_db d) k j Hk) as Hf.
  destruct (exec_loop sch (d_db d) (s :: ss) k j) as [w failed]. cbn in Hf. subst failed.
  reflexivity.
Qed.

Lemma upd_nth_length {A} n (f : A -> A) l : length (upd_nth n f l) = length l.
Proof. revert n; induction l as [|x r IH]; intros [|n]; cbn; auto. Qed.

Lemma enq_all_length sch ops : forall qs, length (enq_all sch qs ops) = length qs.
Proof.
  induction ops as [|o r IH]; intros qs; cbn; [reflexivity|].
  unfold enq_all in IH. rewrite IH. apply upd_nth_length.
Qed.

Lemma enq_all_app sch qs a b : enq_all sch qs (a ++ b) = enq_all sch (enq_all sch qs a) b.
Proof. unfold enq_all. apply fold_left_app. Qed.

Lemma clear_is_qempty sch qs : length qs = length sch -> clear_queues qs = qempty sch.
Proof.
  unfold clear_queues, qempty. revert sch; induction qs as [|q r IH]; intros [|s sch]; cbn; try discriminate; auto.
  intros [= H]. f_equal. auto.
Qed.

Lemma tq_stmts_nil t q : tq_stmts t q = [] -> q = tq_empty.
Proof.
  destruct q as [d i u]. unfold tq_stmts; cbn.
  destruct d; [|discriminate]. destruct i; [|discriminate]. destruct u; [reflexivity|discriminate].
Qed.

Lemma stmts_from_nil qs : forall t, stmts_from t qs = [] -> qs = clear_queues qs.
Proof.
  induction qs as [|q r IH]; intros t; cbn; [reflexivity|].
  intros H. apply app_eq_nil in H. destruct H as [H1 H2].
  apply tq_stmts_nil in H1. subst q. f_equal. eauto.
Qed.

(* the queues after any batches, once cleared or found without statements, are the empty queues *)
Lemma enq_all_cleared sch b :
  clear_queues (enq_all sch (qempty sch) b) = qempty sch /\
  (stmts (enq_all sch (qempty sch) b) = [] -> enq_all sch (qempty sch) b = qempty sch).
Proof.
  assert (H : clear_queues (enq_all sch (qempty sch) b) = qempty sch).
  { apply clear_is_qempty. rewrite enq_all_length. apply map_length. }
  split; [exact H|]. intros Hs. apply stmts_from_nil in Hs. congruence.
Qed.

(* enqueueing an operation always leaves a statement to execute *)
Lemma aq_add_nonnil {K} (eqb : K -> K -> bool) k a q : aq_add eqb k a q <> [].
Proof. destruct q as [|[k' l] r]; cbn; [discriminate|]. destruct (eqb k k'); discriminate. Qed.

Lemma enq_tbl_stmts_nonnil i n o q : tq_stmts i (enq_tbl n o q) <> [].
Proof.
  unfold tq_stmts. intros H. apply app_eq_nil in H. destruct H as [H1 H2].
  apply app_eq_nil in H2. destruct H2 as [H2 H3].
  destruct o; cbn [enq_tbl q_del q_ins q_upd] in *.
  - apply map_eq_nil in H1. eapply aq_add_nonnil; eauto.
  - destruct (q_ins q); cbn in H2; discriminate.
  - destruct (q_ins q); cbn in H2; discriminate.
  - apply map_eq_nil in H3. eapply aq_add_nonnil; eauto.
Qed.

Lemma stmts_from_upd_nil (f : tqueue -> tqueue) :
  (forall i q, tq_stmts i (f q) <> []) ->
  forall qs t s, stmts_from s (upd_nth t f qs) = [] -> stmts_from s qs = [].
Proof.
  intros Hf. induction qs as [|q r IH]; intros [|t] s; cbn [upd_nth stmts_from]; auto.
  - intros H. apply app_eq_nil in H. destruct H as [H _]. exfalso. eapply Hf; eauto.
  - intros H. apply app_eq_nil in H. destruct H as [H1 H2]. rewrite H1. cbn. eauto.
Qed.

Lemma enq_all_stmts_nil sch ops : forall qs, stmts (enq_all sch qs ops) = [] -> stmts qs = [].
Proof.
  induction ops as [|o r IH]; intros qs; cbn; [auto|].
  intros H. apply IH in H. revert H. unfold stmts, enq. apply stmts_from_upd_nil.
  intros i q. apply enq_tbl_stmts_nonnil.
Qed.

(* a write that goes through, on a DAO whose queue holds exactly the merged
   batches [bs]: the batches are applied, the queue is empty again *)
Lemma exec_queued_batch sch pub f d bs d' o :
  exec_queued sch pub f (with_q d (enq_all sch (qempty sch) bs)) = (d', o) -> o = OOk \/ o = ONoop ->
  d_db d' = apply_batch sch (d_db d) bs /\ d_q d' = qempty sch.
Proof.
  intros H Ho. apply exec_queued_cases in H. cbn [with_q d_db d_q] in H. unfold apply_batch.
  destruct (enq_all_cleared sch bs) as [C1 C2].
  destruct Ho as [-> | ->]; destruct H as [H ->]; cbn; [auto|].
  rewrite H. auto.
Qed.

(* without a private fault both writes take place *)
Lemma process_eq sch ops fpub m :
  process sch ops None fpub m =
  let pub := exec_queued sch true fpub (with_q (m_pub m) (enq_all sch (d_q (m_pub m)) ops)) in
  ({| m_pri := fst (exec_queued sch false None (with_q (m_pri m) (enq_all sch (d_q (m_pri m)) ops)));
      m_pub := fst pub |}, snd pub).
Proof.
  unfold process. destruct (exec_queued sch false None _) as [pri2 o1] eqn:E1.
  destruct (exec_nofault_outcome _ _ _ _ _ E1) as [-> | ->]; destruct (exec_queued sch true fpub _); reflexivity.
Qed.

Lemma commutes_single sch d b : commutes sch d [b].
Proof. unfold commutes. cbn. now rewrite app_nil_r. Qed.

Lemma apply_seq_app sch d a b : apply_seq sch d (a ++ b) = apply_seq sch (apply_seq sch d a) b.
Proof. unfold apply_seq. apply fold_left_app. Qed.

(* the invariant of every history: the private queue is empty between calls,
   the public DAO's queue is exactly the outstanding batches merged, n_tries
   is their number, and while any is outstanding there is something to write *)
Definition hinv (sch : schema) (m : mgr) (pend : list batch) : Prop :=
  d_q (m_pri m) = qempty sch /\
  d_q (m_pub m) = enq_all sch (qempty sch) (concat pend) /\
  d_tries (m_pub m) = length pend /\
  (pend <> [] -> stmts (d_q (m_pub m)) <> []).

Lemma synced_hinv sch m : synced sch m -> hinv sch m [].
Proof. intros (H1 & H2 & H3 & H4). repeat split; auto. Qed.

Lemma process_step sch m pend b f m' o :
  hinv sch m pend -> process sch b None f m = (m', o) ->
  d_db (m_pri m') = apply_batch sch (d_db (m_pri m)) b /\
  match o with
  | ORaised => False
  | ORetry => f <> None /\ hinv sch m' (pend ++ [b]) /\ d_db (m_pub m') = d_db (m_pub m)
  | _ => hinv sch m' [] /\
         d_db (m_pub m') = apply_batch sch (d_db (m_pub m)) (concat (pend ++ [b]))
  end.
Proof.
  intros (I1 & I2 & I3 & I4). rewrite process_eq, I1, I2, <- enq_all_app.
  replace (concat pend ++ b) with (concat (pend ++ [b])) by (rewrite concat_app; cbn; now rewrite app_nil_r).
  destruct (exec_queued sch false None _) as [pri2 o1] eqn:E1.
  destruct (exec_queued sch true f _) as [pub2 o2] eqn:E2.
  intros [= <- <-]. cbn [m_pri m_pub].
  destruct (exec_queued_batch _ _ _ _ _ _ _ E1 (exec_nofault_outcome _ _ _ _ _ E1)) as [P1 P2].
  split; [exact P1|].
  pose proof (exec_queued_cases _ _ _ _ _ _ E2) as C. cbn [with_q d_db d_q d_tries] in C.
  destruct o2.
  - destruct (exec_queued_batch _ _ _ _ _ _ _ E2 (or_introl eq_refl)) as [Q1 Q2].
    destruct C as [_ ->]. repeat split; auto.
  - destruct (exec_queued_batch _ _ _ _ _ _ _ E2 (or_intror eq_refl)) as [Q1 Q2].
    (* nothing to write, so nothing was outstanding *)
    destruct C as [C ->]. rewrite concat_app, enq_all_app, <- I2 in C. apply enq_all_stmts_nil in C.
    repeat split; auto. cbn. destruct pend; [exact I3|]. destruct I4; [discriminate|exact C].
  - now destruct C.
  - destruct C as (C & _ & Hf & ->). repeat split; auto; cbn.
    rewrite I3, app_length, Nat.add_1_r. reflexivity.
Qed.

Lemma health_below max m : d_tries (m_pub m) < max -> health max m = m.
Proof. intros H. unfold health. destruct (Nat.leb_spec max (d_tries (m_pub m))); [lia|reflexivity]. Qed.

Lemma health_recovers max m : max <= d_tries (m_pub m) ->
  d_db (m_pub (health max m)) = d_db (m_pri m) /\
  m_pri (health max m) = m_pri m /\
  d_tries (m_pub (health max m)) = 0 /\
  d_q (m_pub (health max m)) = clear_queues (d_q (m_pub m)).
Proof. intros H. unfold health. destruct (Nat.leb_spec max (d_tries (m_pub m))); [cbn; auto|lia]. Qed.

(* a recovery re-establishes the synchronised state and leaves the private side alone *)
Lemma health_synced sch max m pend :
  hinv sch m pend -> max <= d_tries (m_pub m) ->
  synced sch (health max m) /\ m_pri (health max m) = m_pri m.
Proof.
  intros (I1 & I2 & _) H. destruct (health_recovers max m H) as (A & B & C & D).
  split; [|exact B]. unfold synced. rewrite A, B, C, D, I1, I2. repeat split. apply enq_all_cleared.
Qed.

Lemma health_hinv sch max m pend :
  hinv sch m pend -> hinv sch (health max m) (health_pend max m pend).
Proof.
  intros Hi. unfold health_pend. destruct (Nat.leb_spec max (d_tries (m_pub m))) as [H|H].
  - apply synced_hinv. eapply health_synced; eauto.
  - rewrite health_below by lia. exact Hi.
Qed.

Lemma hist_inv sch max : forall h m pend m1 pend1,
  hinv sch m pend -> run_hist sch max m pend h = (m1, pend1) -> hinv sch m1 pend1.
Proof.
  induction h as [|[b f|] r IH]; intros m pend m1 pend1 Hi; cbn [run_hist].
  - intros [= <- <-]. exact Hi.
  - destruct (process sch b None f m) as [m' o] eqn:Ep.
    destruct (process_step _ _ _ _ _ _ _ Hi Ep) as [_ Hs].
    apply IH. destruct o; tauto.
  - apply IH. now apply health_hinv.
Qed.

Lemma hist_converges sch max : forall h m pend m1 pend1,
  hinv sch m pend ->
  d_db (m_pri m) = apply_seq sch (d_db (m_pub m)) pend ->
  commuting_hist sch max m pend h ->
  run_hist sch max m pend h = (m1, pend1) ->
  d_db (m_pri m1) = apply_seq sch (d_db (m_pub m1)) pend1.
Proof.
  induction h as [|[b f|] r IH]; intros m pend m1 pend1 Hi Hdb; cbn [run_hist commuting_hist].
  - intros _ [= <- <-]. exact Hdb.
  - destruct (process sch b None f m) as [m' o] eqn:Ep.
    destruct (process_step _ _ _ _ _ _ _ Hi Ep) as [Hpri Hs].
    assert (Hseq : d_db (m_pri m') = apply_seq sch (d_db (m_pub m)) (pend ++ [b])).
    { rewrite Hpri, apply_seq_app, <- Hdb. reflexivity. }
    destruct o; [| |destruct Hs|].
    + destruct Hs as [Hi' Hpub]. intros [Hc Hrest]. apply (IH _ _ _ _ Hi'); [|exact Hrest].
      rewrite Hseq, Hpub. symmetry. exact Hc.
    + destruct Hs as [Hi' Hpub]. intros [Hc Hrest]. apply (IH _ _ _ _ Hi'); [|exact Hrest].
      rewrite Hseq, Hpub. symmetry. exact Hc.
    + destruct Hs as (_ & Hi' & Hpub). apply (IH _ _ _ _ Hi'). rewrite Hpub. exact Hseq.
  - apply IH; [now apply health_hinv|].
    unfold health_pend. destruct (Nat.leb_spec max (d_tries (m_pub m))) as [H|H].
    + destruct (health_synced sch max m pend Hi H) as [[E _] _]. exact E.
    + rewrite health_below by lia. exact Hdb.
Qed.

(* the first write after a recovery: public = private again *)
Lemma synced_write sch m b m' o :
  synced sch m -> process sch b None None m = (m', o) -> d_db (m_pub m') = d_db (m_pri m').
Proof.
  intros Hs Hp. destruct (process_step _ _ _ _ _ _ _ (synced_hinv _ _ Hs) Hp) as [Hpri H].
  destruct Hs as [E _]. rewrite Hpri, E.
  destruct o; try (destruct H as [_ ->]; cbn; now rewrite app_nil_r); [destruct H|now destruct H].
Qed.

(* the statements on table [t], in order; [run_tbl]: their effect on that table alone *)
Definition proj (t : nat) (ps : list prim) : list prim := filter (fun p => Nat.eqb (fst p) t) ps.
Definition run_tbl (ts : tschema) (tb : table) (ps : list prim) : table :=
  fold_left (fun tb p => apply_tbl ts tb (snd p)) ps tb.

Lemma nth_error_upd_nth {A} (f : A -> A) : forall l n t,
  nth_error (upd_nth n f l) t =
  if Nat.eqb n t then option_map f (nth_error l t) else nth_error l t.
Proof.
  induction l as [|x r IH]; intros [|n] [|t]; cbn; auto.
  - destruct (Nat.eqb n t); reflexivity.
Qed.

Lemma run_nth_error sch : forall ps d t,
  nth_error (run sch d ps) t =
  option_map (fun tb => run_tbl (tschema_of sch t) tb (proj t ps)) (nth_error d t).
Proof.
  induction ps as [|p r IH]; intros d t; cbn [run fold_left proj filter].
  - destruct (nth_error d t); reflexivity.
  - fold (run sch (apply_prim sch d p) r). rewrite IH. unfold apply_prim.
    rewrite nth_error_upd_nth. fold (proj t r).
    destruct (Nat.eqb_spec (fst p) t) as [->|Hne].
    + destruct (nth_error d t); reflexivity.
    + reflexivity.
Qed.

Lemma nth_error_ext' {A} : forall (l1 l2 : list A),
  (forall n, nth_error l1 n = nth_error l2 n) -> l1 = l2.
Proof.
  induction l1 as [|x r IH]; intros [|y r2] H.
  - reflexivity.
  - specialize (H 0). discriminate.
  - specialize (H 0). discriminate.
  - pose proof (H 0) as H0. cbn in H0. injection H0 as ->. f_equal.
    apply IH. intros n. exact (H (S n)).
Qed.

(* only the statements of each table, in their order, matter *)
Lemma run_ext sch d ps1 ps2 :
  (forall t, t < length d -> proj t ps1 = proj t ps2) -> run sch d ps1 = run sch d ps2.
Proof.
  intros H. apply nth_error_ext'. intros t. rewrite !run_nth_error.
  destruct (nth_error d t) eqn:E; [|reflexivity].
  rewrite H; [reflexivity|]. apply nth_error_Some. congruence.
Qed.

Lemma proj_app t a b : proj t (a ++ b) = proj t a ++ proj t b.
Proof. apply filter_app. Qed.

Lemma proj_concat t l : proj t (concat l) = concat (map (proj t) l).
Proof. induction l as [|x r IH]; cbn [concat map]; [reflexivity|]. now rewrite proj_app, IH. Qed.

Definition batch_prims (sch : schema) (b : batch) : list prim :=
  flat (stmts (enq_all sch (qempty sch) b)).

Lemma apply_seq_run sch : forall bs d,
  apply_seq sch d bs = run sch d (concat (map (batch_prims sch) bs)).
Proof.
  induction bs as [|b r IH]; intros d; cbn; [reflexivity|].
  unfold apply_seq in IH. rewrite IH. unfold apply_batch. rewrite run_app. reflexivity.
Qed.

(* the merged batch issues, for every table, the same single-row statements in
   the same order as the batches executed one after the other *)
Definition order_preserved (sch : schema) (n : nat) (bs : list batch) : Prop :=
  forall t, t < n ->
    proj t (batch_prims sch (concat bs)) = concat (map (fun b => proj t (batch_prims sch b)) bs).
