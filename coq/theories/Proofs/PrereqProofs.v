(* Proofs/PrereqProofs.v — from the substituted text to the truth value:
   lexer and parser of the Python fragment, trigger expression trees, the
   evaluation theorem, construction by get_prerequisite, cache transparency;
   then when the hypotheses hold: legal alphabets, integer points. *)
From Coq Require Import List ZArith Bool Lia.
From Cylc Require Import Base.Util Model.Prereq Proofs.PrereqSubst.
Import ListNotations.
Local Open Scope Z_scope.

(* trigger expressions, the parse trees of the graph syntax:
   or-expression := and-expression { | and-expression }
   and-expression := primary { & primary }
   primary := atom | ( or-expression )                                   *)
Inductive oexp := OA (a : aexp) | OOr (a : aexp) (o : oexp)
with aexp := AP (p : pexp) | AAnd (p : pexp) (a : aexp)
with pexp := PAtm (k : key) | PPar (o : oexp).

Scheme oexp_mut := Induction for oexp Sort Prop
with aexp_mut := Induction for aexp Sort Prop
with pexp_mut := Induction for pexp Sort Prop.
Combined Scheme exp_mutind from oexp_mut, aexp_mut, pexp_mut.

(* the truth of the expression over a satisfaction map *)
Fixpoint sem_o (sg : key -> bool) (o : oexp) : bool :=
  match o with OA a => sem_a sg a | OOr a o' => sem_a sg a || sem_o sg o' end
with sem_a (sg : key -> bool) (a : aexp) : bool :=
  match a with AP p => sem_p sg p | AAnd p a' => sem_p sg p && sem_a sg a' end
with sem_p (sg : key -> bool) (p : pexp) : bool :=
  match p with PAtm k => sg k | PPar o => sem_o sg o end.

(* the token sequence of the expression (what _stringify_list walks through) *)
Fixpoint flat_o (o : oexp) : list stok :=
  match o with OA a => flat_a a | OOr a o' => flat_a a ++ SOp 124 :: flat_o o' end
with flat_a (a : aexp) : list stok :=
  match a with AP p => flat_p p | AAnd p a' => flat_p p ++ SOp 38 :: flat_a a' end
with flat_p (p : pexp) : list stok :=
  match p with PAtm k => [SAtom k] | PPar o => SOp 40 :: flat_o o ++ [SOp 41] end.

Definition atoms_o (o : oexp) : list key := atoms (flat_o o).
(* the expression text handed to set_conditional_expr *)
Definition expr_text (o : oexp) : str := render_src (flat_o o).

(* what holds of single atoms and is kept by joining with an operator and by
   parenthesising holds of the token sequence of every expression *)
Lemma flat_ind (P : list stok -> Prop) :
  (forall k, P [SAtom k]) ->
  (forall a c b, is_delim c = true -> P a -> P b -> P (a ++ SOp c :: b)) ->
  (forall a, P a -> P (SOp 40 :: a ++ [SOp 41])) ->
  forall o, P (flat_o o).
Proof.
  intros Hk Hop Hpar.
  apply (oexp_mut (fun o => P (flat_o o)) (fun a => P (flat_a a)) (fun p => P (flat_p p)));
    cbn [flat_o flat_a flat_p]; auto.
Qed.

Lemma atoms_app a b : atoms (a ++ b) = atoms a ++ atoms b.
Proof. unfold atoms. apply flat_map_app. Qed.

Lemma atoms_paren a : atoms (SOp 40 :: a ++ [SOp 41]) = atoms a.
Proof. change (atoms (a ++ [SOp 41]) = atoms a). rewrite atoms_app. apply app_nil_r. Qed.

Lemma sep_ok_app_op a c b : sep_ok (a ++ SOp c :: b) = sep_ok a && sep_ok b.
Proof.
  induction a as [|t a IH]; [reflexivity|].
  cbn [app sep_ok]. rewrite IH. destruct a as [|t' a']; cbn [app].
  - destruct (is_atom t); cbn; rewrite ?andb_true_r; reflexivity.
  - rewrite andb_assoc. reflexivity.
Qed.

Lemma flat_sep_ok o : sep_ok (flat_o o) = true.
Proof.
  apply flat_ind.
  - reflexivity.
  - intros a c b _ Ha Hb. rewrite sep_ok_app_op, Ha, Hb. reflexivity.
  - intros a Ha. cbn [sep_ok is_atom andb negb]. rewrite sep_ok_app_op, Ha. reflexivity.
Qed.

Lemma flat_tok_ok o : forallb tok_ok (flat_o o) = forallb wf_key (atoms (flat_o o)).
Proof.
  apply flat_ind.
  - reflexivity.
  - intros a c b Hc Ha Hb. rewrite atoms_app, !forallb_app. cbn [forallb tok_ok]. rewrite Hc, Ha, Hb. reflexivity.
  - intros a Ha. rewrite atoms_paren. cbn [forallb tok_ok]. rewrite forallb_app, Ha. cbn. apply andb_true_r.
Qed.

Lemma atoms_nonempty o : atoms (flat_o o) <> [].
Proof.
  apply flat_ind.
  - discriminate.
  - intros a c b _ Ha _. rewrite atoms_app. destruct (atoms a); [congruence|discriminate].
  - intros a Ha. rewrite atoms_paren. exact Ha.
Qed.

Definition ptok_of (t : stok) : ptok :=
  match t with
  | SAtom k => PAt k
  | SOp c => if c =? 124 then POr else if c =? 38 then PAnd else if c =? 40 then PLp else PRp
  end.

Lemma strip_prefix_app p s : strip_prefix p (p ++ s) = Some s.
Proof. induction p as [|a p IH]; cbn; [reflexivity|]. rewrite Z.eqb_refl. exact IH. Qed.

(* a quote-free field is read up to the separator that follows it *)
Lemma span_nq_app a q r : ~ In 34 a -> hd_opt q = Some 34 -> span_nq (a ++ q ++ r) = (a, q ++ r).
Proof.
  intros Ha Hq. destruct q as [|c q]; [discriminate|]. injection Hq as ->.
  induction a as [|c a IH]; cbn.
  - reflexivity.
  - unfold c_quote. destruct (Z.eqb_spec c 34) as [->|_]; [destruct Ha; left; reflexivity|].
    cbn in IH. rewrite IH; [reflexivity|]. intros Hin. apply Ha. right. exact Hin.
Qed.

Lemma comp_ok_plain s : comp_ok s = true -> plain s = true.
Proof.
  unfold comp_ok, plain. rewrite !forallb_forall. intros H c Hc. specialize (H c Hc).
  unfold char_ok in H. apply negb_true_iff in H.
  apply orb_false_elim in H. destruct H as [H H13]. apply orb_false_elim in H. destruct H as [H H10].
  apply orb_false_elim in H. destruct H as [_ H92]. unfold c_bslash. rewrite H92, H10, H13. reflexivity.
Qed.

Lemma lex_atom_tmpl k R : wf k -> lex_atom (tmpl k ++ R) = Some (k, R).
Proof.
  intros W. assert (Hq : char_ok 34 = false) by reflexivity.
  unfold lex_atom, tmpl. rewrite <- !app_assoc.
  rewrite strip_prefix_app, span_nq_app by (exact (comp_ok_not _ _ (wf_P k W) Hq) || reflexivity).
  rewrite strip_prefix_app, span_nq_app by (exact (comp_ok_not _ _ (wf_N k W) Hq) || reflexivity).
  rewrite strip_prefix_app, span_nq_app by (exact (comp_ok_not _ _ (wf_O k W) Hq) || reflexivity).
  rewrite strip_prefix_app.
  rewrite !comp_ok_plain by (apply (wf_P k W) || apply (wf_N k W) || apply (wf_O k W)).
  destruct k as [[p n] o]. reflexivity.
Qed.

Lemma lex_render ts : forall f,
  forallb tok_ok ts = true -> (List.length ts < f)%nat ->
  lex f (render_py ts) = Some (map ptok_of ts).
Proof.
  induction ts as [|t r IH]; intros f Hok Hf.
  - destruct f; [lia|reflexivity].
  - destruct f as [|f]; [lia|]. cbn [forallb] in Hok. apply andb_true_iff in Hok.
    destruct Hok as [Ht Hr]. cbn [List.length] in Hf.
    assert (IH' := IH f Hr ltac:(lia)).
    unfold render_py in *. cbn [map List.concat].
    destruct t as [k|c].
    + cbn [tok_py tok_ok] in *. apply wf_key_wf in Ht.
      (* the template starts with the letter b, which is no operator *)
      assert (E : exists x, tmpl k ++ List.concat (map tok_py r) = 98 :: x) by (eexists; reflexivity).
      destruct E as [x E].
      cbn [lex]. rewrite E. change (op_tok 98) with (@None ptok). cbn iota. rewrite <- E.
      rewrite lex_atom_tmpl by exact Ht. rewrite IH'. reflexivity.
    + cbn [tok_py tok_ok app ptok_of] in *. cbn [lex].
      apply is_delim_cases in Ht. destruct Ht as [->|[->|[->| ->]]]; cbn; rewrite IH'; reflexivity.
Qed.

Lemma render_py_length ts : (List.length ts <= List.length (render_py ts))%nat.
Proof.
  unfold render_py. induction ts as [|t r IH]; cbn [map List.concat List.length]; [lia|].
  rewrite app_length. destruct t as [k|c]; cbn [tok_py].
  - unfold tmpl, t_pre. cbn [app List.length]. lia.
  - cbn. lia.
Qed.

Definition noand (r : list ptok) : Prop := match r with PAnd :: _ => False | _ => True end.
Definition noor (r : list ptok) : Prop := match r with POr :: _ => False | _ => True end.

Definition ptoks (ts : list stok) : list ptok := map ptok_of ts.

Lemma ptoks_app_op a c b rest :
  ptoks (a ++ SOp c :: b) ++ rest = ptoks a ++ ptok_of (SOp c) :: ptoks b ++ rest.
Proof. unfold ptoks. rewrite map_app, <- app_assoc. reflexivity. Qed.

(* each level of the grammar is parsed by its function and yields the truth of
   the tree; the fuel a level needs is bounded by the length of its text *)
Lemma parse_ok (sp : key -> option bool) (sg : key -> bool) :
  (forall o, Forall (fun k => sp k = Some (sg k)) (atoms (flat_o o)) ->
     forall f rest, (2 * List.length (flat_o o) + 2 <= f)%nat -> noand rest -> noor rest ->
     p_or f sp (ptoks (flat_o o) ++ rest) = Some (VBool (sem_o sg o), rest))
  /\ (forall a, Forall (fun k => sp k = Some (sg k)) (atoms (flat_a a)) ->
     forall f rest, (2 * List.length (flat_a a) + 1 <= f)%nat -> noand rest ->
     p_and f sp (ptoks (flat_a a) ++ rest) = Some (VBool (sem_a sg a), rest))
  /\ (forall p, Forall (fun k => sp k = Some (sg k)) (atoms (flat_p p)) ->
     forall f rest, (2 * List.length (flat_p p) <= f)%nat ->
     p_un f sp (ptoks (flat_p p) ++ rest) = Some (VBool (sem_p sg p), rest)).
Proof.
  apply exp_mutind.
  - intros a IHa Hs f rest Hf Hna Hno.
    destruct f as [|f]; [lia|]. cbn [flat_o sem_o p_or] in *.
    rewrite IHa; [|exact Hs|lia|exact Hna].
    destruct rest as [|[] rest]; cbn in Hno; try reflexivity. destruct Hno.
  - intros a IHa o IHo Hs f rest Hf Hna Hno. cbn [flat_o] in *.
    rewrite atoms_app in Hs. apply Forall_app in Hs. rewrite app_length in Hf. cbn [List.length] in Hf.
    destruct f as [|f]; [lia|]. cbn [sem_o p_or]. rewrite ptoks_app_op.
    rewrite IHa; [|apply Hs|lia|exact I].
    cbn. rewrite IHo; [reflexivity|apply Hs|lia|exact Hna|exact Hno].
  - intros p IHp Hs f rest Hf Hna.
    destruct f as [|f]; [lia|]. cbn [flat_a sem_a p_and] in *.
    rewrite IHp; [|exact Hs|lia].
    destruct rest as [|[] rest]; cbn in Hna; try reflexivity. destruct Hna.
  - intros p IHp a IHa Hs f rest Hf Hna. cbn [flat_a] in *.
    rewrite atoms_app in Hs. apply Forall_app in Hs. rewrite app_length in Hf. cbn [List.length] in Hf.
    destruct f as [|f]; [lia|]. cbn [sem_a p_and]. rewrite ptoks_app_op.
    rewrite IHp; [|apply Hs|lia].
    cbn. rewrite IHa; [reflexivity|apply Hs|lia|exact Hna].
  - intros k Hs f rest Hf. destruct f as [|f]; [cbn in Hf; lia|].
    cbn. rewrite (Forall_inv Hs). reflexivity.
  - intros o IHo Hs f rest Hf. cbn [flat_p] in *.
    rewrite atoms_paren in Hs. cbn [List.length] in Hf. rewrite app_length in Hf. cbn [List.length] in Hf.
    destruct f as [|f]; [lia|]. cbn [sem_p].
    change (SOp 40 :: flat_o o ++ [SOp 41]) with ([] ++ SOp 40 :: flat_o o ++ [SOp 41]).
    rewrite ptoks_app_op, ptoks_app_op.
    cbn. rewrite IHo; [reflexivity|exact Hs|lia|exact I|exact I].
Qed.

Lemma eval_py_render o sp sg :
  forallb tok_ok (flat_o o) = true ->
  (forall k, In k (atoms_o o) -> sp k = Some (sg k)) ->
  eval_py sp (render_py (flat_o o)) = RVal (VBool (sem_o sg o)).
Proof.
  intros Hok Hs. unfold eval_py.
  rewrite lex_render; [|exact Hok|pose proof (render_py_length (flat_o o)); lia].
  pose proof (proj1 (parse_ok sp sg) o) as H. rewrite Forall_forall in H.
  specialize (H Hs (2 * List.length (ptoks (flat_o o)) + 2)%nat []).
  rewrite app_nil_r in H. unfold ptoks in H. rewrite H; [reflexivity| |exact I|exact I].
  rewrite map_length. lia.
Qed.

(* the path without an OR: all(self._satisfied.values()) *)
Definition is_bar (t : stok) : bool := match t with SOp c => c =? 124 | SAtom _ => false end.

Lemma has_bar_app a b : has_bar (a ++ b) = has_bar a || has_bar b.
Proof. unfold has_bar. apply existsb_app. Qed.

Lemma has_bar_msg k : wf k -> has_bar (msg k) = false.
Proof.
  intros W. unfold has_bar. destruct (existsb (Z.eqb c_bar) (msg k)) eqn:E; [exfalso|reflexivity].
  apply existsb_exists in E. destruct E as [c [Hin Hc]]. unfold c_bar in Hc. apply Z.eqb_eq in Hc. subst c.
  exact (msg_no_delim k 124 W eq_refl Hin).
Qed.

Lemma has_bar_render ts :
  forallb tok_ok ts = true -> has_bar (render_src ts) = existsb is_bar ts.
Proof.
  unfold render_src. induction ts as [|t r IH]; intros Hok; [reflexivity|].
  cbn [forallb] in Hok. apply andb_true_iff in Hok. destruct Hok as [Ht Hr].
  cbn [map List.concat existsb]. rewrite has_bar_app, IH by exact Hr. f_equal.
  destruct t as [k|c]; cbn [tok_text is_bar].
  - apply has_bar_msg. apply wf_key_wf. exact Ht.
  - unfold has_bar. cbn [existsb]. unfold c_bar. rewrite orb_false_r. apply Z.eqb_sym.
Qed.

Lemma sem_no_bar sg :
  (forall o, existsb is_bar (flat_o o) = false -> sem_o sg o = forallb sg (atoms (flat_o o)))
  /\ (forall a, existsb is_bar (flat_a a) = false -> sem_a sg a = forallb sg (atoms (flat_a a)))
  /\ (forall p, existsb is_bar (flat_p p) = false -> sem_p sg p = forallb sg (atoms (flat_p p))).
Proof.
  apply exp_mutind; intros; cbn [flat_o flat_a flat_p sem_o sem_a sem_p] in *; auto.
  - rewrite existsb_app in H1. cbn in H1. rewrite orb_true_r in H1. discriminate.
  - rewrite existsb_app in H1. apply orb_false_iff in H1. destruct H1 as [H1 H2].
    rewrite atoms_app, forallb_app, H, H0; auto.
  - cbn. rewrite andb_true_r. reflexivity.
  - rewrite atoms_paren. apply H. change (existsb is_bar (flat_o o ++ [SOp 41]) = false) in H0.
    rewrite existsb_app in H0. apply orb_false_iff in H0. apply H0.
Qed.

Definition sigma (l : list (key * sstate)) (k : key) : bool :=
  match lookup l k with Some b => b | None => false end.

Lemma assoc_in (l : list (key * sstate)) k :
  In k (map fst l) <-> exists s, assoc key_eqb k l = Some s.
Proof.
  destruct (assoc key_eqb k l) as [s|] eqn:E.
  - split; [eauto|]. intros _. exact (in_map fst _ _ (assoc_In key_eqb key_eqb_eq _ _ _ E)).
  - apply (assoc_None key_eqb key_eqb_eq) in E. split; [contradiction|]. intros [s H]. discriminate.
Qed.

Lemma lookup_sigma l k : In k (map fst l) -> lookup l k = Some (sigma l k).
Proof.
  intros H. unfold sigma, lookup. apply assoc_in in H. destruct H as [s ->]. reflexivity.
Qed.

Lemma sigma_in l k s : NoDup (map fst l) -> In (k, s) l -> sigma l k = struthy s.
Proof.
  unfold sigma, lookup. induction l as [|[k0 s0] l IH]; intros Hnd Hin; [destruct Hin|].
  inversion Hnd as [|? ? Hk Hnd']; subst. cbn [assoc]. destruct Hin as [E|Hin].
  - injection E as -> ->. rewrite key_eqb_refl. reflexivity.
  - rewrite key_eqb_neq; [apply IH; assumption|].
    intros ->. apply Hk. exact (in_map fst _ _ Hin).
Qed.

(* all(values) is the conjunction of the map over any list of the same keys *)
Lemma forallb_values l ks :
  NoDup (map fst l) -> (forall k, In k ks <-> In k (map fst l)) ->
  forallb (fun kv => struthy (snd kv)) l = forallb (sigma l) ks.
Proof.
  intros Hnd Hks. apply eq_true_iff_eq. rewrite !forallb_forall. split.
  - intros H k Hk. apply Hks, in_map_iff in Hk. destruct Hk as [[k' s] [<- Hin]]. cbn [fst].
    rewrite (sigma_in _ _ _ Hnd Hin). exact (H _ Hin).
  - intros H [k s] Hin. cbn. rewrite <- (sigma_in l k s Hnd Hin).
    apply H, Hks. exact (in_map fst _ _ Hin).
Qed.

(* the conditional expression that set_conditional_expr stores for [o] when the
   prerequisite's keys are [ks] (in insertion order) *)
Definition cexpr_of (ks : list key) (o : oexp) : option str :=
  if has_bar (expr_text o) then Some (subst_all ks (expr_text o)) else None.

(* [ks] can be the prerequisite's keys, in insertion order, for the expression [o] *)
Record good (ks : list key) (o : oexp) : Prop := {
  g_wf : Forall wf ks;
  g_order : order_ok ks;
  g_nodup : NoDup ks;
  g_atoms : forall k, In k (atoms_o o) <-> In k ks }.

Lemma good_nonempty ks o : good ks o -> ks <> [].
Proof.
  intros G ->. destruct (atoms (flat_o o)) as [|k l] eqn:Ea; [exact (atoms_nonempty o Ea)|].
  apply (g_atoms [] o G k). unfold atoms_o. rewrite Ea. left. reflexivity.
Qed.

Lemma eval_clean ks o : good ks o ->
  forall st, map fst (sat st) = ks -> cexpr st = cexpr_of ks o ->
  eval_satisfied st = RVal (VBool (sem_o (sigma (sat st)) o)).
Proof.
  intros G st Hk Hc.
  assert (Htok : forallb tok_ok (flat_o o) = true).
  { rewrite flat_tok_ok. apply forallb_forall. intros k Hin. apply wf_key_wf.
    pose proof (g_wf _ _ G) as Hwf. rewrite Forall_forall in Hwf. apply Hwf, (g_atoms _ _ G), Hin. }
  unfold eval_satisfied. rewrite Hc. unfold cexpr_of, expr_text.
  destruct (has_bar (render_src (flat_o o))) eqn:Hb.
  - rewrite subst_all_exact;
      [|exact Htok|apply flat_sep_ok|exact (g_wf _ _ G)|exact (g_order _ _ G)|apply (g_atoms _ _ G)].
    pose proof (render_py_length (flat_o o)) as Hlen.
    destruct (render_py (flat_o o)) as [|c e] eqn:E.
    + destruct (flat_o o); [discriminate Hb|cbn in Hlen; lia].
    + rewrite <- E. apply eval_py_render; [exact Htok|].
      intros k Hin. apply lookup_sigma. rewrite Hk. apply (g_atoms _ _ G), Hin.
  - rewrite has_bar_render in Hb by exact Htok.
    rewrite (proj1 (sem_no_bar _) o Hb). f_equal. f_equal. apply forallb_values; rewrite Hk.
    + exact (g_nodup _ _ G).
    + apply (g_atoms _ _ G).
Qed.

Lemma upd_fresh k v l : ~ In k (map fst l) -> upd k v l = l ++ [(k, v)].
Proof.
  induction l as [|[k' v'] l IH]; intros H; [reflexivity|].
  cbn in *. rewrite key_eqb_neq by (intros ->; apply H; left; reflexivity).
  rewrite IH; [reflexivity|]. intros Hin. apply H. right. exact Hin.
Qed.

Lemma fold_setitem_fresh (f : trig -> sstate) trs : forall l,
  NoDup (map fst l ++ map t_key trs) ->
  fold_left (fun st t => setitem st (t_key t) (f t)) trs {| sat := l; cexpr := None; cached := None |}
  = {| sat := l ++ map (fun t => (t_key t, f t)) trs; cexpr := None; cached := None |}.
Proof.
  induction trs as [|t trs IH]; intros l Hnd; cbn [fold_left map].
  - rewrite app_nil_r. reflexivity.
  - unfold setitem at 2. cbn [sat cexpr cached otruthy andb].
    rewrite upd_fresh.
    + rewrite IH.
      * rewrite <- app_assoc. reflexivity.
      * rewrite map_app. cbn [map fst]. rewrite <- app_assoc. exact Hnd.
    + cbn [map] in Hnd. apply NoDup_remove_2 in Hnd. intros Hin. apply Hnd.
      apply in_or_app. left. exact Hin.
Qed.

Definition init_sat (point icp start : Z) (trs : list trig) : list (key * sstate) :=
  map (fun t => (t_key t, init_value point icp start t)) trs.

Lemma get_prerequisite_eq point icp start trs ts :
  NoDup (map t_key trs) ->
  get_prerequisite point icp start trs ts
  = set_conditional_expr {| sat := init_sat point icp start trs; cexpr := None; cached := None |}
                         (render_src ts).
Proof.
  intros Hnd. unfold get_prerequisite, empty_prereq.
  rewrite (fold_setitem_fresh (init_value point icp start) trs []); [reflexivity|exact Hnd].
Qed.

Lemma init_sat_keys point icp start trs : map fst (init_sat point icp start trs) = map t_key trs.
Proof. unfold init_sat. rewrite map_map. reflexivity. Qed.

(* the map of the constructed prerequisite at a trigger's key *)
Lemma sigma_init_sat point icp start trs t :
  NoDup (map t_key trs) -> In t trs ->
  sigma (init_sat point icp start trs) (t_key t) = struthy (init_value point icp start t).
Proof.
  intros Hnd Hin. apply sigma_in.
  - rewrite init_sat_keys. exact Hnd.
  - exact (in_map (fun t => (t_key t, init_value point icp start t)) _ _ Hin).
Qed.

Inductive mop :=
| MQuery
| MSet (k : key) (v : sstate)
| MSatisfy (ks : list key) (skip forced : bool)
| MSetSat
| MUnset (id : str).

Definition step (st : prereq) (o : mop) : prereq :=
  match o with
  | MQuery => snd (is_satisfied st)
  | MSet k v => setitem st k v
  | MSatisfy ks s f => satisfy_me st ks s f
  | MSetSat => snd (set_satisfied st)
  | MUnset id => snd (unset_nat st id)
  end.

(* after construction __setitem__ is only used on existing keys *)
Definition mop_ok (ks : list key) (o : mop) : Prop :=
  match o with MSet k _ => In k ks | _ => True end.

Lemma sem_mono (s1 s2 : key -> bool) (H : forall k, s1 k = true -> s2 k = true) :
  (forall o, sem_o s1 o = true -> sem_o s2 o = true)
  /\ (forall a, sem_a s1 a = true -> sem_a s2 a = true)
  /\ (forall p, sem_p s1 p = true -> sem_p s2 p = true).
Proof.
  apply exp_mutind; intros; cbn [sem_o sem_a sem_p] in *; auto.
  - apply orb_true_iff in H2. apply orb_true_iff. destruct H2; auto.
  - apply andb_true_iff in H2. apply andb_true_iff. destruct H2; auto.
Qed.

Lemma upd_keys k v l : In k (map fst l) -> map fst (upd k v l) = map fst l.
Proof.
  induction l as [|[k' v'] l IH]; cbn; [tauto|].
  intros H. destruct (key_eqb k k') eqn:E; cbn; [reflexivity|].
  f_equal. apply IH. destruct H as [H|H]; [|exact H].
  subst k'. rewrite key_eqb_refl in E. discriminate.
Qed.

Lemma lookup_upd k v l k' :
  lookup (upd k v l) k' = if key_eqb k' k then Some (struthy v) else lookup l k'.
Proof.
  unfold lookup. induction l as [|[k2 v2] l IH]; cbn.
  - destruct (key_eqb k' k); reflexivity.
  - destruct (key_eqb k k2) eqn:E; cbn.
    + apply key_eqb_eq in E. subst k2. destruct (key_eqb k' k); reflexivity.
    + destruct (key_eqb k' k2) eqn:E2.
      * apply key_eqb_eq in E2. subst k2.
        rewrite key_eqb_neq; [reflexivity|]. intros ->. rewrite key_eqb_refl in E. discriminate.
      * exact IH.
Qed.

Lemma force_all_keys l : map fst (force_all l) = map fst l.
Proof. unfold force_all. rewrite map_map. reflexivity. Qed.

Lemma force_all_true l : forallb (fun kv : key * sstate => struthy (snd kv)) (force_all l) = true.
Proof.
  unfold force_all. rewrite forallb_forall. intros [k s] Hin.
  apply in_map_iff in Hin. destruct Hin as [[k' s'] [E _]]. inversion E. subst.
  cbn. destruct s'; reflexivity.
Qed.

(* set_satisfied caches whatever the forced state evaluates to: without a
   conditional expression that is True, as all values are now truthy *)
Lemma set_satisfied_eval st v :
  eval_satisfied {| sat := force_all (sat st); cexpr := cexpr st; cached := cached st |} = RVal v ->
  snd (set_satisfied st) = {| sat := force_all (sat st); cexpr := cexpr st; cached := Some v |}.
Proof.
  unfold set_satisfied, eval_satisfied. cbn [sat cexpr].
  destruct (cexpr st) as [[|c e]|]; rewrite ?force_all_true; intros H.
  - injection H as <-. reflexivity.
  - rewrite H. reflexivity.
  - injection H as <-. reflexivity.
Qed.

Section CacheTransparency.
  Variable ks : list key.
  Variable o : oexp.
  Hypothesis G : good ks o.

  Definition inv (st : prereq) : Prop :=
    map fst (sat st) = ks /\ cexpr st = cexpr_of ks o /\
    forall v, cached st = Some v -> v = VBool (sem_o (sigma (sat st)) o).

  Lemma inv_eval st : inv st -> eval_satisfied st = RVal (VBool (sem_o (sigma (sat st)) o)).
  Proof. intros [H1 [H2 _]]. apply (eval_clean ks o G); assumption. Qed.

  (* a truthy cache survives __setitem__ of a truthy value: the expression is monotone *)
  Lemma setitem_inv st k v : inv st -> In k ks -> inv (setitem st k v).
  Proof.
    intros [H1 [H2 H3]] Hk. unfold inv, setitem. cbn [sat cexpr cached].
    split; [rewrite upd_keys; [exact H1|rewrite H1; exact Hk]|]. split; [exact H2|].
    intros w Hw. destruct (otruthy (cached st) && struthy v) eqn:E; [|discriminate].
    apply andb_true_iff in E. destruct E as [Ec Ev].
    rewrite Hw in Ec. cbn [otruthy] in Ec. pose proof (H3 w Hw) as Hv. subst w. cbn [truthy] in Ec.
    f_equal. rewrite Ec. symmetry.
    refine (proj1 (sem_mono (sigma (sat st)) _ _) o Ec).
    intros k' Hk'. unfold sigma. rewrite lookup_upd.
    destruct (key_eqb k' k); [exact Ev|exact Hk'].
  Qed.

  Lemma satisfy_me_inv st l s f : inv st -> inv (satisfy_me st l s f).
  Proof.
    unfold satisfy_me. apply fold_left_inv. intros st' k _ Hi. unfold satisfy_one.
    destruct (assoc key_eqb k (sat st')) as [x|] eqn:E; [|exact Hi].
    destruct (struthy x); [exact Hi|]. apply setitem_inv; [exact Hi|].
    destruct Hi as [<- _]. apply assoc_in. eauto.
  Qed.

  (* is_satisfied gives the truth of the expression, from the cache or by evaluation *)
  Lemma is_satisfied_inv st : inv st ->
    fst (is_satisfied st) = RVal (VBool (sem_o (sigma (sat st)) o)) /\ inv (snd (is_satisfied st)).
  Proof.
    intros Hi. unfold is_satisfied. destruct (cached st) eqn:Ec.
    - split; [cbn; f_equal; apply Hi, Ec|exact Hi].
    - destruct (sat st) eqn:Es.
      + exfalso. destruct Hi as [H1 _]. rewrite Es in H1. exact (good_nonempty ks o G (eq_sym H1)).
      + rewrite <- Es, (inv_eval st Hi). split; [reflexivity|].
        destruct Hi as [H1 [H2 _]]. split; [exact H1|]. split; [exact H2|].
        cbn [cached sat]. intros v [= <-]. reflexivity.
  Qed.

  Lemma set_satisfied_inv st : inv st -> inv (snd (set_satisfied st)).
  Proof.
    intros [H1 [H2 _]]. rewrite (set_satisfied_eval st (VBool (sem_o (sigma (force_all (sat st))) o))).
    - unfold inv. cbn [sat cexpr cached]. rewrite force_all_keys.
      split; [exact H1|]. split; [exact H2|]. intros v [= <-]. reflexivity.
    - apply (eval_clean ks o G); cbn [sat cexpr]; [rewrite force_all_keys; exact H1|exact H2].
  Qed.

  Lemma unset_nat_inv st id : inv st -> inv (snd (unset_nat st id)).
  Proof.
    intros Hi. unfold unset_nat. apply (fold_left_inv (fun acc => inv (snd acc))); [|exact Hi].
    intros acc [k s] Hin Hacc.
    destruct (str_eqb (rel_id k) id && struthy s && negb (sstate_eqb s SForced)); [|exact Hacc].
    cbn [snd]. apply setitem_inv; [exact Hacc|]. destruct Hi as [<- _]. exact (in_map fst _ _ Hin).
  Qed.

  Lemma step_inv st op : inv st -> mop_ok ks op -> inv (step st op).
  Proof.
    intros Hi Hok. destruct op; cbn [step].
    - apply is_satisfied_inv, Hi.
    - apply setitem_inv; assumption.
    - apply satisfy_me_inv, Hi.
    - apply set_satisfied_inv, Hi.
    - apply unset_nat_inv, Hi.
  Qed.

  Lemma steps_inv ops st : inv st -> Forall (mop_ok ks) ops -> inv (fold_left step ops st).
  Proof.
    intros Hi Hok. rewrite Forall_forall in Hok. apply fold_left_inv; [|exact Hi].
    intros st' op Hin Hi'. apply step_inv; [exact Hi'|apply Hok, Hin].
  Qed.
End CacheTransparency.

Lemma inv_initial ks o l :
  map fst l = ks ->
  inv ks o (set_conditional_expr {| sat := l; cexpr := None; cached := None |} (expr_text o)).
Proof.
  intros Hk. unfold inv, set_conditional_expr. cbn [sat cexpr cached].
  split; [exact Hk|]. split; [|discriminate].
  unfold cexpr_of. rewrite Hk. reflexivity.
Qed.

(* the hypotheses on a concrete key list, by evaluation *)
Lemma NoDup_cons_mem k ks : mem key_eqb k ks = false -> NoDup ks -> NoDup (k :: ks).
Proof.
  intros H Hnd. constructor; [|exact Hnd]. intros Hin. apply mem_key_In in Hin. congruence.
Qed.

Lemma same_keys l1 l2 :
  forallb (fun k => mem key_eqb k l2) l1 && forallb (fun k => mem key_eqb k l1) l2 = true ->
  forall k, In k l1 <-> In k l2.
Proof.
  intros H k. apply andb_prop in H. rewrite !forallb_forall in H.
  split; intros Hk; apply mem_key_In; apply H; exact Hk.
Qed.

Lemma collides_same_name k k' : collides k k' = true -> kN k = kN k'.
Proof.
  unfold collides. intros H. apply andb_prop in H. destruct H as [H _].
  apply andb_prop in H. apply list_eqb_Z_eq, H.
Qed.

(* legal alphabets (ASCII): task names \w - + % @ ; points digits T Z : + - *)
Definition name_char (c : Z) : bool :=
  is_word c || (c =? 45) || (c =? 43) || (c =? 37) || (c =? 64).
Definition point_char (c : Z) : bool :=
  is_digit c || (c =? 84) || (c =? 90) || (c =? 58) || (c =? 43) || (c =? 45).

(* none of the ten characters excluded from a point or a task name is legal there *)
Lemma excluded_chars c :
  char_ok c && negb (c =? 32) = false -> name_char c = false /\ point_char c = false.
Proof.
  unfold char_ok, is_delim. intros H. apply andb_false_iff in H.
  destruct H as [H|H]; apply negb_false_iff in H; repeat (apply orb_prop in H; destruct H as [H|H]);
    apply Z.eqb_eq in H; subst c; split; reflexivity.
Qed.

Lemma legal_chars (f : Z -> bool) s :
  (forall c, char_ok c && negb (c =? 32) = false -> f c = false) ->
  forallb f s = true -> comp_ok s = true /\ no_space s = true.
Proof.
  intros Hf H. unfold comp_ok, no_space. rewrite !forallb_forall in *.
  enough (forall c, In c s -> char_ok c && negb (c =? 32) = true) as E.
  { split; intros c Hc; specialize (E c Hc); apply andb_true_iff in E; apply E. }
  intros c Hc. destruct (char_ok c && negb (c =? 32)) eqn:E; [reflexivity|].
  specialize (H c Hc). rewrite (Hf c E) in H. discriminate.
Qed.

(* integer points: an optional minus sign followed by digits *)
Definition digits (s : str) : bool := forallb is_digit s.
Definition int_point (s : str) : bool :=
  match s with
  | c :: r => if c =? 45 then negb (match r with [] => true | _ => false end) && digits r
              else is_digit c && digits r
  | [] => false
  end.

Lemma digits_app a b : digits (a ++ b) = digits a && digits b.
Proof. apply forallb_app. Qed.

Lemma int_point_cons c r :
  int_point (c :: r) = true -> (c =? 45) || is_digit c = true /\ digits r = true.
Proof. cbn. destruct (c =? 45); intros H; apply andb_prop in H; tauto. Qed.

Lemma digit_word c : is_digit c = true -> is_word c = true.
Proof. unfold is_word. intros ->. reflexivity. Qed.

(* after digits there is no boundary at which a pattern could start *)
Lemma digits_last u : forall d, digits u = true -> prev_ok d = false -> prev_ok (last_opt d u) = false.
Proof.
  induction u as [|c u IH]; intros d H Hd; [exact Hd|].
  cbn in H. apply andb_true_iff in H. destruct H as [Hc Hu].
  apply IH; [exact Hu|]. unfold prev_ok. cbn. rewrite (digit_word c Hc). reflexivity.
Qed.

(* between integer points the point part of a collision is equality
   (since the look-behind of fix 0083ac1; before it the negation p' = -p was a second case) *)
Lemma int_point_bsuffix p p' :
  int_point p = true -> int_point p' = true -> bsuffix p p' = true -> p' = p.
Proof.
  intros Hp Hp' H. destruct (bsuffix_split p p' H) as [u ->]. rewrite bsuffix_app in H.
  destruct u as [|a u]; [reflexivity|exfalso].
  (* everything after the first character of p' is a digit, in particular the head of p *)
  apply (int_point_cons a (u ++ p)) in Hp'. destruct Hp' as [Ha Hd]. rewrite digits_app in Hd.
  apply andb_prop in Hd. destruct Hd as [Hu Hd].
  destruct p as [|c p]; [discriminate|]. cbn in Hd. apply andb_true_iff in Hd.
  cbn [is_neg] in H. rewrite (word_not_minus c) in H by (apply digit_word, Hd).
  cbn [orb last_opt] in H. rewrite digits_last in H; [discriminate|exact Hu|].
  unfold prev_ok. cbn. destruct (Z.eqb_spec a 45) as [->|_]; [reflexivity|].
  rewrite (digit_word a Ha). reflexivity.
Qed.
