(* Proofs/IsoSeqProofs.v — the caches of ISO8601Sequence (Model/IsoSeq.v) are
   transparent.  The enumeration-level answers [spec_*] are finds over [enum]
   minus the exclusions.  Every point the class steps from lies on the
   recurrence, so the proofs work with a decomposition enum = l1 ++ a :: l2:
   get_next_point_on_sequence from [a] gives the first non-excluded point of
   [l2] ([gnpos_spec]) and the while loops iterate it ([walk_spec]).  [Inv] says
   that every cache entry agrees with [spec_*]; each method preserves it and
   answers with the [spec_*] value, so the answer to a query is a function of
   the query alone ([pure_query], [run_query_pure]). *)
From Coq Require Import List ZArith Bool Lia Sorted.
From Cylc Require Import Base.Util Model.IsoSeq.
Import ListNotations.
Local Open Scope Z_scope.

Lemma bind_Ok {A B} (r : res A) (f : A -> res B) b :
  bind r f = Ok b -> exists a, r = Ok a /\ f a = Ok b.
Proof. destruct r as [a|e]; [eauto|discriminate]. Qed.

Lemma find_skip {A} (f : A -> bool) l1 l2 :
  (forall x, In x l1 -> f x = false) -> find f (l1 ++ l2) = find f l2.
Proof. intros H. now rewrite find_app, (proj2 (find_none_iff f l1) H). Qed.

Lemma find_ext_in {A} (f g : A -> bool) l :
  (forall x, In x l -> f x = g x) -> find f l = find g l.
Proof.
  induction l as [|a l IH]; cbn; intros H; [reflexivity|].
  rewrite (H a (or_introl eq_refl)). destruct (g a); [reflexivity|].
  apply IH. intros x Hx. apply H. now right.
Qed.

Lemma mem_Z_false p l : mem Z.eqb p l = false <-> ~ In p l.
Proof. exact (Util.mem_Z_false p l). Qed.

Lemma In_remove_key {V} k (l : list (Z * V)) x : In x (remove_key k l) -> In x l.
Proof.
  induction l as [|[k' v'] l IH]; cbn; [tauto|].
  destruct (k =? k'); [now right|]. intros [<-|H]; [now left|right; auto].
Qed.

Lemma In_firstn {A} n (l : list A) x : In x (firstn n l) -> In x l.
Proof. intros H. rewrite <- (firstn_skipn n l). apply in_or_app. now left. Qed.

Lemma In_tl {A} (l : list A) x : In x (tl l) -> In x l.
Proof. destruct l; cbn; auto. Qed.

Lemma sorted_split l1 (a : Z) l2 :
  StronglySorted Z.lt (l1 ++ a :: l2) ->
  (forall x, In x l1 -> x < a) /\ (forall y, In y l2 -> a < y).
Proof.
  induction l1 as [|b l1 IH]; cbn; intros H; inversion H as [|? ? Hs Hf]; subst;
    rewrite Forall_forall in Hf.
  - split; [intros x []|exact Hf].
  - destruct (IH Hs) as [H1 H2]. split; [|exact H2].
    intros x [<-|Hx]; [apply Hf, in_or_app; right; now left|auto].
Qed.

Lemma sorted_le_last l (d x : Z) : StronglySorted Z.lt l -> In x l -> x <= last l d.
Proof.
  intros Hs Hx. assert (Hl : l <> []) by (intros ->; destruct Hx).
  rewrite (app_removelast_last d Hl) in Hs, Hx. destruct (sorted_split _ _ _ Hs) as [H1 _].
  apply in_app_or in Hx as [Hx|[<-|[]]]; [apply H1 in Hx; lia|lia].
Qed.

Section SeqProofs.
  Variable enum : list Z.
  Variable complete : bool.
  Variable bounded : bool.
  Variables rnext rprev : Z -> option Z.
  Variable rvalid : Z -> bool.
  Variable excl : Z -> bool.
  Variable N : nat.
  Variable fuel0 : nat.

  Definition good (e : Z) : bool := negb (excl e).

  (* the cache-free, enumeration-level definitions *)
  Definition spec_on (p : Z) : bool := mem Z.eqb p enum && good p.
  Definition spec_next (p : Z) : option Z := find (fun e => (p <? e) && good e) enum.
  Definition spec_first (p : Z) : option Z := find (fun e => (p <=? e) && good e) enum.
  Definition spec_prev (p : Z) : option Z := find (fun e => (e <? p) && good e) (rev enum).
  Definition spec_start : option Z := find good enum.
  Definition spec_stop : option Z := if bounded then find good (rev enum) else None.

  (* the loops over the recurrence: nothing is assumed of it yet *)
  Lemma at_end_Ok {A} (d r : A) : at_end complete d = Ok r -> r = d.
  Proof. unfold at_end. destruct complete; [now intros [= <-]|discriminate]. Qed.

  Lemma scan_next_spec l p r :
    scan_next complete excl l p = Ok r -> r = find (fun e => (p <? e) && good e) l.
  Proof.
    induction l as [|e l IH]; cbn [scan_next find].
    - apply at_end_Ok.
    - unfold good at 1. destruct ((p <? e) && negb (excl e)); [now intros [= <-]|exact IH].
  Qed.

  Lemma scan_first_spec l p r :
    scan_first complete l p = Ok r -> r = find (fun e => p <=? e) l.
  Proof.
    induction l as [|e l IH]; cbn [scan_first find].
    - apply at_end_Ok.
    - destruct (p <=? e); [now intros [= <-]|exact IH].
  Qed.

  Lemma scan_start_spec l r : scan_start complete excl l = Ok r -> r = find good l.
  Proof.
    induction l as [|e l IH]; cbn [scan_start find].
    - apply at_end_Ok.
    - unfold good at 1. destruct (excl e); cbn [negb]; [exact IH|now intros [= <-]].
  Qed.

  (* get_stop_point: the last non-excluded point *)
  Lemma fold_last_good l acc :
    fold_left (fun acc e => if excl e then acc else Some e) l acc =
    match find good (rev l) with Some x => Some x | None => acc end.
  Proof.
    revert acc; induction l as [|e l IH]; intros acc; cbn [fold_left rev]; [reflexivity|].
    rewrite IH, find_app. destruct (find good (rev l)); [reflexivity|].
    cbn [find]. unfold good. now destruct (excl e).
  Qed.

  Lemma get_stop_spec o :
    get_stop enum complete bounded excl = Ok o -> o = spec_stop.
  Proof.
    unfold get_stop, spec_stop. destruct bounded; [|now intros [= <-]].
    intros H. apply bind_Ok in H as [_ [_ [= <-]]].
    rewrite fold_last_good. now destruct (find good (rev enum)).
  Qed.

  (* get_nearest_prev_point, off-sequence branch (no use of get_prev) *)
  Lemma scan_prev_spec l p acc o :
    StronglySorted Z.lt l ->
    scan_prev complete excl l p acc = Ok o ->
    o = match find (fun e => (e <=? p) && good e) (rev l) with Some x => Some x | None => acc end.
  Proof.
    revert acc; induction l as [|e l IH]; intros acc Hs; cbn [scan_prev].
    - apply at_end_Ok.
    - inversion Hs as [|? ? Hs' Hf]; subst. rewrite Forall_forall in Hf.
      cbn [rev]. rewrite find_app. cbn [find].
      destruct (Z.ltb_spec p e) as [Hpe|Hpe].
      + intros [= <-]. rewrite (proj2 (find_none_iff _ _)).
        * now rewrite (proj2 (Z.leb_gt e p) Hpe).
        * intros x Hx. apply in_rev in Hx.
          now rewrite (proj2 (Z.leb_gt x p) (Z.lt_trans _ _ _ Hpe (Hf x Hx))).
      + intros H'. rewrite (IH _ Hs' H').
        destruct (find _ (rev l)); [reflexivity|].
        rewrite (proj2 (Z.leb_le e p) Hpe). unfold good. cbn [andb]. now destruct (excl e).
  Qed.

  (* get_next_point_on_sequence and get_prev_point are one loop: step with
     [next], give up on a point that does not move, go on from an excluded
     point.  [follows p l]: [l] are the points of the recurrence that lie beyond
     [p] in the direction of travel, nearest first. *)
  Lemma skip_excluded_spec (next : Z -> res (option Z)) (skip : nat -> Z -> res (option Z))
      (follows : Z -> list Z -> Prop) :
    (forall p, skip O p = Err OutOfFuel) ->
    (forall f p, skip (S f) p =
       bind (next p) (fun o =>
         match o with
         | None => Ok None
         | Some r => if r =? p then Err Degenerate else if excl r then skip f r else Ok (Some r)
         end)) ->
    (forall p o, follows p [] -> next p = Ok o -> o = None) ->
    (forall p b l, follows p (b :: l) -> next p = Ok (Some b) /\ b <> p /\ follows b l) ->
    forall fuel p l r, follows p l -> skip fuel p = Ok r -> r = find good l.
  Proof.
    intros S0 SS Hnil Hcons. induction fuel as [|f IH]; intros p l r F; [rewrite S0; discriminate|].
    rewrite SS. destruct l as [|b l].
    - intros H. apply bind_Ok in H as [o [En H]]. rewrite (Hnil p o F En) in H. now injection H as <-.
    - destruct (Hcons p b l F) as [-> [Hne F']]. cbn [bind find].
      destruct (Z.eqb_spec b p); [contradiction|].
      unfold good at 1. destruct (excl b); cbn [negb]; [exact (IH b l r F')|now intros [= <-]].
  Qed.

  (* what is assumed of the TimeRecurrence object *)
  Hypothesis H_sorted : StronglySorted Z.lt enum.
  Hypothesis H_next : forall l1 a b l2, enum = l1 ++ a :: b :: l2 -> rnext a = Some b.
  Hypothesis H_last : forall l1 a, enum = l1 ++ [a] ->
    if complete then rnext a = None else exists x, rnext a = Some x /\ a < x.
  Hypothesis H_valid : forall p, in_window enum complete p = true -> rvalid p = mem Z.eqb p enum.

  Notation gnpos := (gnpos enum complete rnext excl).
  Notation walk_lt := (walk_lt enum complete rnext excl fuel0).
  Notation walk_le := (walk_le enum complete rnext excl fuel0).
  Notation in_window := (in_window enum complete).

  Lemma in_enum_window e : In e enum -> in_window e = true.
  Proof.
    intros H. unfold in_window, IsoSeq.in_window, horizon. apply orb_true_iff. right.
    apply Z.leb_le. now apply sorted_le_last.
  Qed.

  Lemma split_facts l1 a l2 :
    enum = l1 ++ a :: l2 ->
    (forall x, In x l1 -> x < a) /\ (forall y, In y l2 -> a < y).
  Proof. intros E. apply sorted_split. now rewrite <- E. Qed.

  Lemma in_after l1 a l2 e : enum = l1 ++ a :: l2 -> In e l2 -> In e enum.
  Proof. intros E H. rewrite E. apply in_or_app. right. now right. Qed.

  (* get_next_point_on_sequence from a point of the recurrence *)
  Lemma gnpos_spec fuel l1 a l2 r :
    enum = l1 ++ a :: l2 -> gnpos fuel a = Ok r -> r = find good l2.
  Proof.
    intros E.
    apply (skip_excluded_spec (rnext_g enum complete rnext) gnpos (fun p l => exists l0, enum = l0 ++ p :: l)
             (fun _ => eq_refl) (fun _ _ => eq_refl)).
    - intros p o [l0 E0]. unfold rnext_g, IsoSeq.in_window, horizon. rewrite E0, last_last.
      (* [case]: [destruct] would take the other hypotheses on [complete] along *)
      generalize (H_last l0 p E0). case complete.
      + intros ->. now intros [= <-].
      + intros [x [-> Hx]]. cbn [orb]. destruct (Z.leb_spec x p); [lia|discriminate].
    - intros p b l [l0 E0]. destruct (split_facts l0 p (b :: l) E0) as [_ H2]. unfold rnext_g.
      rewrite (H_next l0 p b l E0), (in_enum_window b) by (apply (in_after _ _ _ _ E0); now left).
      split; [reflexivity|]. split.
      + specialize (H2 b (or_introl eq_refl)). lia.
      + exists (l0 ++ [p]). rewrite E0, <- app_assoc. reflexivity.
    - exists l1. exact E.
  Qed.

  Lemma find_good_all l2 (f : Z -> bool) :
    (forall x, In x l2 -> f x = true) -> find (fun e => f e && good e) l2 = find good l2.
  Proof. intros H. apply find_ext_in. intros x Hx. now rewrite (H x Hx). Qed.

  (* Both while loops of the class step along the recurrence with
     get_next_point_on_sequence for as long as a condition [go] holds of the
     current point.  From a point of the recurrence they arrive at the first
     later non-excluded point at which [go] fails. *)
  Lemma walk_spec (go : Z -> bool) (walk : nat -> Z -> res (option Z)) :
    (forall cur, walk O cur = Err OutOfFuel) ->
    (forall f cur, walk (S f) cur =
       if go cur
       then bind (gnpos fuel0 cur) (fun o => match o with None => Ok None | Some n => walk f n end)
       else Ok (Some cur)) ->
    forall fuel l1 cur l2 r,
    enum = l1 ++ cur :: l2 -> walk fuel cur = Ok r ->
    r = if go cur then find (fun e => negb (go e) && good e) l2 else Some cur.
  Proof.
    intros W0 WS. induction fuel as [|f IH]; intros l1 cur l2 r E; [rewrite W0; discriminate|].
    rewrite WS. destruct (go cur); [|now intros [= <-]].
    intros H. apply bind_Ok in H as [o [Eg H]].
    apply (gnpos_spec _ _ _ _ _ E) in Eg. subst o.
    destruct (find good l2) as [n|] eqn:Ef.
    - destruct (find_first _ _ _ Ef) as [m [l2' [-> [Hn Hm]]]].
      apply (IH (l1 ++ cur :: m) n l2') in H; [subst r|rewrite E, <- app_assoc; reflexivity].
      rewrite (find_skip _ m) by (intros y Hy; rewrite (Hm y Hy); apply andb_false_r).
      cbn [find]. rewrite Hn, andb_true_r. now destruct (go n).
    - injection H as <-. symmetry. apply find_none_iff. intros x Hx.
      rewrite (find_none _ _ Ef x Hx). apply andb_false_r.
  Qed.

  (* the `while next_point <= point or excluded` loop of get_next_point *)
  Lemma walk_le_spec fuel l1 cur l2 p r :
    enum = l1 ++ cur :: l2 ->
    walk_le fuel cur (excl cur) p = Ok r ->
    r = if (cur <=? p) || excl cur then find (fun e => (p <? e) && good e) l2 else Some cur.
  Proof.
    intros E H.
    rewrite (walk_spec (fun c => (c <=? p) || excl c) (fun f c => walk_le f c (excl c) p)
               (fun _ => eq_refl) (fun _ _ => eq_refl) fuel l1 cur l2 r E H).
    destruct ((cur <=? p) || excl cur); [|reflexivity].
    apply find_ext_in. intros e _. rewrite Z.ltb_antisym. unfold good.
    now destruct (e <=? p), (excl e).
  Qed.

  (* the `while next_point < point` loop of _is_on_sequence *)
  Lemma walk_lt_spec fuel l1 cur l2 p r :
    enum = l1 ++ cur :: l2 ->
    walk_lt fuel cur p = Ok r ->
    r = if cur <? p then find (fun e => (p <=? e) && good e) l2 else Some cur.
  Proof.
    intros E H.
    rewrite (walk_spec (fun c => c <? p) (fun f c => walk_lt f c p)
               (fun _ => eq_refl) (fun _ _ => eq_refl) fuel l1 cur l2 r E H).
    destruct (cur <? p); [|reflexivity].
    apply find_ext_in. intros e _. now rewrite Z.leb_antisym.
  Qed.

  (* spec_next seen from a point of the recurrence that is <= p *)
  Lemma spec_next_from l1 a l2 p :
    enum = l1 ++ a :: l2 -> a <= p ->
    spec_next p = find (fun e => (p <? e) && good e) l2.
  Proof.
    intros E Hap. unfold spec_next. destruct (split_facts _ _ _ E) as [H1 _].
    rewrite E, find_skip by (intros x Hx; specialize (H1 x Hx); destruct (Z.ltb_spec p x); [lia|reflexivity]).
    cbn [find]. now rewrite (proj2 (Z.ltb_ge p a) Hap).
  Qed.

  Lemma spec_next_good p n : spec_next p = Some n -> In n enum /\ good n = true /\ p < n.
  Proof.
    intros H. apply find_some in H. destruct H as [H1 H2].
    apply andb_true_iff in H2. destruct H2 as [H2 H3]. apply Z.ltb_lt in H2. auto.
  Qed.

  (* the invariant of the cached state: every entry is the enumeration-level answer *)
  Definition recent_ok (vs : list Z) : Prop := forall v, In v vs -> In v enum /\ good v = true.

  Record Inv (s : st) : Prop := {
    inv_first : forall k v, In (k, v) (c_first s) -> spec_first k = Some v;
    inv_next : forall k v, In (k, v) (c_next s) -> spec_next k = Some v;
    inv_valid : forall k b, In (k, b) (c_valid s) -> b = spec_on k;
    inv_recent : recent_ok (c_recent s);
    inv_lru : forall k b, In (k, b) (c_lru s) -> b = spec_on k
  }.

  Lemma Inv_st0 : Inv st0.
  Proof. constructor; try (intros ? ? []). intros ? []. Qed.

  Lemma recent_ok_rev vs : recent_ok vs -> recent_ok (rev vs).
  Proof. intros H v Hv. apply H. now apply in_rev. Qed.

  Lemma on_recent_spec vs p b :
    recent_ok vs -> in_window p = true ->
    on_recent enum complete rnext rvalid excl fuel0 vs p = Ok b -> b = mem Z.eqb p enum.
  Proof.
    intros Hvs Hw. induction vs as [|v vs IH]; cbn [on_recent].
    - intros [= <-]. now apply H_valid.
    - specialize (IH (fun x Hx => Hvs x (or_intror Hx))).
      destruct (Hvs v (or_introl eq_refl)) as [Hv _].
      destruct (Z.eqb_spec v p) as [->|Hne].
      + intros [= <-]. symmetry. now apply mem_Z_In.
      + destruct (p <? v); [exact IH|].
        intros H. apply bind_Ok in H as [[n|] [Ew H]]; [|exact (IH H)].
        destruct (Z.eqb_spec n p) as [->|Hnp]; [|exact (IH H)].
        injection H as <-. symmetry. apply mem_Z_In.
        destruct (in_split _ _ Hv) as [l1 [l2 E]].
        apply (walk_lt_spec _ _ _ _ _ _ E) in Ew.
        destruct (v <? p); [|congruence].
        symmetry in Ew. apply find_some in Ew. exact (in_after _ _ _ _ E (proj1 Ew)).
  Qed.

  Lemma is_on_raw_spec s p b :
    Inv s -> in_window p = true ->
    is_on_raw enum complete rnext rvalid excl fuel0 s p = Ok b -> b = spec_on p.
  Proof.
    intros HI Hw. unfold is_on_raw, spec_on, good. destruct (excl p).
    - intros [= <-]. now rewrite andb_false_r.
    - intros H. rewrite andb_true_r. eapply on_recent_spec; eauto.
      apply recent_ok_rev. exact (inv_recent _ HI).
  Qed.

  Lemma is_on_spec s p b s' :
    Inv s -> in_window p = true ->
    is_on enum complete rnext rvalid excl N fuel0 s p = Ok (b, s') -> b = spec_on p /\ Inv s'.
  Proof.
    intros HI Hw. unfold is_on. destruct N as [|n].
    - intros H. apply bind_Ok in H as [b0 [Er [= <- <-]]].
      split; [eapply is_on_raw_spec; eauto|exact HI].
    - destruct (assoc Z.eqb p (c_lru s)) as [b0|] eqn:Ea.
      + intros [= <- <-]. pose proof (inv_lru _ HI _ _ (assoc_In Z.eqb Z.eqb_eq _ _ _ Ea)) as Hb.
        split; [exact Hb|]. destruct HI. constructor; auto.
        intros k b [[= <- <-]|Hin]; [exact Hb|]. apply In_remove_key in Hin. auto.
      + intros H. apply bind_Ok in H as [b0 [Er [= <- <-]]].
        pose proof (is_on_raw_spec _ _ _ HI Hw Er) as Hb.
        split; [exact Hb|]. destruct HI. constructor; auto.
        intros k b [[= <- <-]|Hin]; [exact Hb|]. apply In_firstn in Hin. auto.
  Qed.

  Lemma dict_put_In {V} (d : list (Z * V)) k v x :
    In x (dict_put N d k v) -> x = (k, v) \/ In x d.
  Proof.
    unfold dict_put. intros [<-|H]; [now left|right].
    destruct (N <? length d)%nat; [now apply In_tl|exact H].
  Qed.

  Lemma is_valid_spec s p b s' :
    Inv s -> in_window p = true ->
    is_valid enum complete rnext rvalid excl N fuel0 s p = Ok (b, s') -> b = spec_on p /\ Inv s'.
  Proof.
    intros HI Hw. unfold is_valid.
    destruct (assoc Z.eqb p (c_valid s)) as [b0|] eqn:Ea.
    - intros [= <- <-]. split; [|exact HI]. exact (inv_valid _ HI _ _ (assoc_In Z.eqb Z.eqb_eq _ _ _ Ea)).
    - intros H. apply bind_Ok in H as [[b0 s0] [Eo [= <- <-]]].
      destruct (is_on_spec _ _ _ _ HI Hw Eo) as [Hb HI0].
      split; [exact Hb|]. destruct HI0. constructor; auto.
      intros k b Hin. apply dict_put_In in Hin as [[= -> ->]|Hin]; auto.
  Qed.

  Lemma next_recent_spec vs p n :
    recent_ok vs ->
    next_recent enum complete rnext excl fuel0 vs p = Ok (Some n) -> spec_next p = Some n.
  Proof.
    intros Hvs. induction vs as [|v vs IH]; cbn [next_recent]; [discriminate|].
    specialize (IH (fun x Hx => Hvs x (or_intror Hx))).
    destruct (Hvs v (or_introl eq_refl)) as [Hv Hg].
    destruct (Z.leb_spec p v) as [|Hvp]; [exact IH|].
    intros H. apply bind_Ok in H as [[n'|] [Ew H]]; [|exact (IH H)].
    injection H as ->.
    destruct (in_split _ _ Hv) as [l1 [l2 E]].
    apply negb_true_iff in Hg. rewrite <- Hg in Ew. apply (walk_le_spec _ _ _ _ _ _ E) in Ew.
    rewrite (proj2 (Z.leb_le v p)) in Ew by lia.
    rewrite (spec_next_from _ _ _ p E) by lia. now symmetry.
  Qed.

  (* _check_and_cache_next_point, as both exits of get_next_point use it *)
  Lemma check_and_cache_spec s p n o s' :
    Inv s -> spec_next p = Some n ->
    bind (check_and_cache N s p n) (fun s1 => Ok (Some n, s1)) = Ok (o, s') ->
    o = spec_next p /\ Inv s'.
  Proof.
    intros [I1 I2 I3 I4 I5] Hn. unfold check_and_cache. destruct (n =? p); [discriminate|].
    destruct (spec_next_good _ _ Hn) as [Hin [Hg _]].
    assert (Hput : forall rc, recent_ok rc ->
      Some n = spec_next p /\
      Inv {| c_first := c_first s; c_next := dict_put N (c_next s) p n; c_valid := c_valid s;
             c_recent := rc ++ [n]; c_lru := c_lru s |}).
    { intros rc Hrc. split; [now symmetry|].
      constructor; auto.
      - intros k v H. apply dict_put_In in H as [[= -> ->]|H]; auto.
      - intros v H. apply in_app_or in H as [H|[<-|[]]]; auto. }
    destruct (negb _ && _).
    - revert I4. destruct (c_recent s) as [|r0 rc]; [discriminate|].
      intros I4 [= <- <-]. apply Hput. intros v Hv. apply I4. now right.
    - intros [= <- <-]. exact (Hput _ I4).
  Qed.

  Lemma get_next_spec s p o s' :
    Inv s ->
    get_next enum complete rnext excl N fuel0 s p = Ok (o, s') -> o = spec_next p /\ Inv s'.
  Proof.
    intros HI. unfold get_next.
    destruct (assoc Z.eqb p (c_next s)) as [n|] eqn:Ea.
    - intros [= <- <-]. split; [|exact HI]. symmetry. exact (inv_next _ HI _ _ (assoc_In Z.eqb Z.eqb_eq _ _ _ Ea)).
    - intros H. apply bind_Ok in H as [[n|] [E1 H]].
      + apply (check_and_cache_spec s p n); auto.
        eapply next_recent_spec; [|exact E1]. apply recent_ok_rev. exact (inv_recent _ HI).
      + apply bind_Ok in H as [o2 [E2 H]]. apply scan_next_spec in E2. fold (spec_next p) in E2.
        destruct o2 as [n|]; [exact (check_and_cache_spec s p n _ _ HI (eq_sym E2) H)|].
        injection H as <- <-. auto.
  Qed.

  (* spec_first seen from the first point e of the recurrence that is >= p *)
  Lemma spec_first_from l1 e l2 p :
    enum = l1 ++ e :: l2 -> (forall x, In x l1 -> (p <=? x) = false) -> (p <=? e) = true ->
    spec_first p = if excl e then find good l2 else Some e.
  Proof.
    intros E Hl1 Hpe. unfold spec_first. destruct (split_facts _ _ _ E) as [_ H2].
    rewrite E, find_skip by (intros x Hx; now rewrite (Hl1 x Hx)).
    cbn [find]. rewrite Hpe. unfold good at 1. destruct (excl e); [|reflexivity].
    apply find_good_all. intros x Hx. apply Z.leb_le in Hpe. apply Z.leb_le. specialize (H2 x Hx). lia.
  Qed.

  Lemma get_first_spec s p o s' :
    Inv s ->
    get_first enum complete rnext excl N fuel0 s p = Ok (o, s') -> o = spec_first p /\ Inv s'.
  Proof.
    intros HI. unfold get_first.
    destruct (assoc Z.eqb p (c_first s)) as [f|] eqn:Ea.
    - intros [= <- <-]. split; [|exact HI]. symmetry. exact (inv_first _ HI _ _ (assoc_In Z.eqb Z.eqb_eq _ _ _ Ea)).
    - intros H. apply bind_Ok in H as [o1 [E1 H]]. apply scan_first_spec in E1. symmetry in E1.
      destruct o1 as [e|].
      + destruct (find_first _ _ _ E1) as [l1 [l2 [E [Hpe Hl1]]]].
        pose proof (spec_first_from _ _ _ p E Hl1 Hpe) as Hspec.
        rewrite Hspec. destruct (excl e).
        * apply bind_Ok in H as [o2 [Eg [= <- <-]]]. split; [|exact HI]. exact (gnpos_spec _ _ _ _ _ E Eg).
        * injection H as <- <-. split; [reflexivity|].
          destruct HI. constructor; auto.
          intros k v H. apply dict_put_In in H as [[= -> ->]|H]; auto.
      + injection H as <- <-. split; [|exact HI]. unfold spec_first.
        symmetry. apply find_none_iff. intros x Hx. now rewrite (find_none _ _ E1 x Hx).
  Qed.

  Lemma spec_prev_off p :
    spec_on p = false ->
    find (fun e => (e <=? p) && good e) (rev enum) = spec_prev p.
  Proof.
    intros Hoff. unfold spec_prev. apply find_ext_in. intros x Hx. apply in_rev in Hx.
    destruct (Z.eq_dec x p) as [->|Hne].
    - unfold spec_on in Hoff. apply mem_Z_In in Hx. rewrite Hx in Hoff. cbn in Hoff. rewrite Hoff.
      now rewrite !andb_false_r.
    - destruct (Z.leb_spec x p); destruct (Z.ltb_spec x p); try lia; reflexivity.
  Qed.

  (* get_nearest_prev_point asks get_prev_point on a point of the sequence and
     scans the recurrence otherwise; the caches only serve to tell which *)
  Definition nearest_prev (p : Z) : res (option Z) :=
    if spec_on p then gpp rprev excl fuel0 p else scan_prev complete excl enum p None.

  Lemma get_nearest_prev_spec s p o s' :
    Inv s -> in_window p = true ->
    get_nearest_prev enum complete rnext rprev rvalid excl N fuel0 s p = Ok (o, s') ->
    nearest_prev p = Ok o /\ Inv s'.
  Proof.
    intros HI Hw H. unfold get_nearest_prev in H. apply bind_Ok in H as [[b s0] [Eo H]].
    destruct (is_on_spec _ _ _ _ HI Hw Eo) as [-> HI0]. unfold nearest_prev.
    destruct (spec_on p); apply bind_Ok in H as [o1 [-> H]].
    - injection H as <- <-. auto.
    - destruct o1 as [r|]; [destruct (r =? p); [discriminate|]|]; injection H as <- <-; auto.
  Qed.

  (* everything that needs get_prev to invert get_next *)
  Section Prev.
    Hypothesis H_prev : forall l1 a b l2, enum = l1 ++ a :: b :: l2 -> rprev b = Some a.
    Hypothesis H_first : forall a l2, enum = a :: l2 -> rprev a = None.

    Lemma gpp_spec fuel l1 p l2 r :
      enum = l1 ++ p :: l2 -> gpp rprev excl fuel p = Ok r -> r = find good (rev l1).
    Proof.
      intros E.
      apply (skip_excluded_spec (fun q => Ok (rprev q)) (gpp rprev excl) (fun q l => exists l0, enum = rev l ++ q :: l0)
               (fun _ => eq_refl) (fun _ _ => eq_refl)).
      - intros q o [l0 E0] [= <-]. exact (H_first q l0 E0).
      - intros q b l [l0 E0]. cbn [rev] in E0. rewrite <- app_assoc in E0. cbn [app] in E0.
        destruct (split_facts _ _ _ E0) as [_ H2]. rewrite (H_prev _ _ _ _ E0).
        split; [reflexivity|]. split; [|eauto].
        specialize (H2 q (or_introl eq_refl)). lia.
      - exists l2. now rewrite rev_involutive.
    Qed.

    Lemma spec_prev_from l1 p l2 :
      enum = l1 ++ p :: l2 -> spec_prev p = find good (rev l1).
    Proof.
      intros E. unfold spec_prev. destruct (split_facts _ _ _ E) as [H1 H2].
      rewrite E, rev_app_distr. cbn [rev]. rewrite <- app_assoc.
      rewrite find_skip
        by (intros x Hx; apply in_rev in Hx; specialize (H2 x Hx); destruct (Z.ltb_spec x p); [lia|reflexivity]).
      cbn [app find]. rewrite Z.ltb_irrefl. cbn [andb].
      apply find_good_all. intros x Hx. apply in_rev in Hx. apply Z.ltb_lt. auto.
    Qed.

    Lemma gpp_on_spec p r :
      In p enum -> gpp rprev excl fuel0 p = Ok r -> r = spec_prev p.
    Proof.
      intros Hin H. destruct (in_split _ _ Hin) as [l1 [l2 E]].
      rewrite (spec_prev_from _ _ _ E). eapply gpp_spec; eauto.
    Qed.

    Lemma nearest_prev_spec p o : nearest_prev p = Ok o -> o = spec_prev p.
    Proof.
      unfold nearest_prev. destruct (spec_on p) eqn:Hb.
      - apply gpp_on_spec, mem_Z_In, (proj1 (andb_prop _ _ Hb)).
      - intros H. apply (scan_prev_spec _ _ _ _ H_sorted) in H. rewrite (spec_prev_off p Hb) in H.
        now destruct (spec_prev p).
    Qed.
  End Prev.

  Definition spec_answer (q : query) : ans :=
    match q with
    | QOn p | QValid p => ABool (spec_on p)
    | QPrev p | QNPrev p => APt (spec_prev p)
    | QNext p | QNextOn p => APt (spec_next p)
    | QFirst p => APt (spec_first p)
    | QStart => APt spec_start
    | QStop => APt spec_stop
    end.

  (* queries whose answer does not involve recurrence.get_prev *)
  Definition fwd_domain (q : query) : Prop :=
    match q with
    | QPrev _ | QNPrev _ => False
    | QNextOn p => In p enum          (* "assuming that point is on-sequence" *)
    | _ => True
    end.
  Definition prev_domain (q : query) : Prop :=
    match q with
    | QPrev p => In p enum
    | QNPrev _ => True
    | _ => False
    end.

  Notation run_query := (run_query enum complete bounded rnext rprev rvalid excl N fuel0).
  Notation run_all := (run_all enum complete bounded rnext rprev rvalid excl N fuel0).

  (* What a query is answered with, as a function of the query alone: the
     enumeration-level answer, except where the class hands the point to
     get_next / get_prev of the recurrence without knowing that it is on it. *)
  Definition pure_query (q : query) : res ans :=
    match q with
    | QPrev p => bind (gpp rprev excl fuel0 p) (fun o => Ok (APt o))
    | QNPrev p => bind (nearest_prev p) (fun o => Ok (APt o))
    | QNextOn p => bind (gnpos fuel0 p) (fun o => Ok (APt o))
    | _ => Ok (spec_answer q)
    end.

  (* the caches are transparent: whatever state the earlier queries have left,
     the answer is [pure_query] *)
  Lemma run_query_pure s q a s' :
    Inv s -> run_query s q = Ok (a, s') -> pure_query q = Ok a /\ Inv s'.
  Proof.
    intros HI. unfold IsoSeq.run_query. destruct (window_ok enum complete q) eqn:Ew; [|discriminate].
    cbn [negb]. intros H.
    destruct q as [p|p|p|p|p|p|p| |]; cbn [window_ok query_point] in Ew; cbn [pure_query spec_answer];
      apply bind_Ok in H as [x [E H]].
    - destruct x as [b s0]. injection H as <- <-. destruct (is_on_spec _ _ _ _ HI Ew E) as [-> HI']. auto.
    - destruct x as [b s0]. injection H as <- <-. destruct (is_valid_spec _ _ _ _ HI Ew E) as [-> HI']. auto.
    - injection H as <- <-. rewrite E. auto.
    - destruct x as [o s0]. injection H as <- <-.
      destruct (get_nearest_prev_spec _ _ _ _ HI Ew E) as [-> HI']. auto.
    - destruct x as [o s0]. injection H as <- <-. destruct (get_next_spec _ _ _ _ HI E) as [-> HI']. auto.
    - injection H as <- <-. rewrite E. auto.
    - destruct x as [o s0]. injection H as <- <-. destruct (get_first_spec _ _ _ _ HI E) as [-> HI']. auto.
    - injection H as <- <-. rewrite (scan_start_spec _ _ E). auto.
    - injection H as <- <-. rewrite (get_stop_spec _ E). auto.
  Qed.

  Lemma gnpos_on_spec p r : In p enum -> gnpos fuel0 p = Ok r -> r = spec_next p.
  Proof.
    intros Hin H. destruct (in_split _ _ Hin) as [l1 [l2 E]].
    destruct (split_facts _ _ _ E) as [_ H2].
    rewrite (spec_next_from _ _ _ p E), find_good_all by (try lia; intros x Hx; apply Z.ltb_lt; auto).
    exact (gnpos_spec _ _ _ _ _ E H).
  Qed.

  Lemma pure_query_fwd q a : fwd_domain q -> pure_query q = Ok a -> a = spec_answer q.
  Proof.
    destruct q; cbn [fwd_domain pure_query]; intros Hd H; try contradiction; try congruence.
    apply bind_Ok in H as [o [E [= <-]]]. cbn [spec_answer]. f_equal. now apply gnpos_on_spec.
  Qed.

  Lemma pure_query_prev q a :
    (forall l1 a b l2, enum = l1 ++ a :: b :: l2 -> rprev b = Some a) ->
    (forall a l2, enum = a :: l2 -> rprev a = None) ->
    prev_domain q -> pure_query q = Ok a -> a = spec_answer q.
  Proof.
    intros Hp Hf. destruct q; cbn [prev_domain pure_query]; intros Hd H; try contradiction;
      apply bind_Ok in H as [o [E [= <-]]]; cbn [spec_answer]; f_equal.
    - now apply gpp_on_spec.
    - now apply nearest_prev_spec.
  Qed.

  Lemma run_all_pure qs : forall s i q a,
    Inv s -> nth_error qs i = Some q -> nth_error (run_all s qs) i = Some (Ok a) ->
    pure_query q = Ok a.
  Proof.
    induction qs as [|q0 qs IH]; intros s i q a HI Hq Ha; [destruct i; discriminate|].
    cbn [IsoSeq.run_all] in Ha.
    destruct (run_query s q0) as [[a0 s0]|e] eqn:E.
    - destruct (run_query_pure _ _ _ _ HI E) as [Hp HI0].
      destruct i as [|i]; cbn in Hq, Ha.
      + injection Hq as <-. now injection Ha as <-.
      + eauto.
    - destruct i as [|[|i]]; discriminate.
  Qed.

  Lemma session_pure qs i q a :
    nth_error qs i = Some q -> nth_error (run_all st0 qs) i = Some (Ok a) -> pure_query q = Ok a.
  Proof. apply run_all_pure, Inv_st0. Qed.

End SeqProofs.

(* what the enumeration-level definitions mean: least / greatest *)
Lemma find_sorted_least (f : Z -> bool) l :
  StronglySorted Z.lt l ->
  match find f l with
  | Some n => In n l /\ f n = true /\ forall e, In e l -> f e = true -> n <= e
  | None => forall e, In e l -> f e = false
  end.
Proof.
  induction 1 as [|a l Hs IH Hf]; cbn [find]; [intros e []|].
  rewrite Forall_forall in Hf. destruct (f a) eqn:Ea.
  - repeat split; [now left|exact Ea|]. intros e [<-|He] _; [lia|]. specialize (Hf e He). lia.
  - destruct (find f l) as [n|].
    + destruct IH as [H1 [H2 H3]]. repeat split; [now right|exact H2|].
      intros e [<-|He] Hfe; [congruence|auto].
    + intros e [<-|He]; auto.
Qed.

Lemma find_sorted_greatest (f : Z -> bool) l :
  StronglySorted Z.lt l ->
  match find f (rev l) with
  | Some n => In n l /\ f n = true /\ forall e, In e l -> f e = true -> e <= n
  | None => forall e, In e l -> f e = false
  end.
Proof.
  induction 1 as [|a l Hs IH Hf]; cbn [rev]; [intros e []|].
  rewrite Forall_forall in Hf. rewrite find_app. destruct (find f (rev l)) as [n|].
  - destruct IH as [H1 [H2 H3]]. repeat split; [now right|exact H2|].
    intros e [<-|He] Hfe; [specialize (Hf n H1); lia|auto].
  - cbn [find]. destruct (f a) eqn:Ea.
    + repeat split; [now left|exact Ea|]. intros e [<-|He] Hfe; [lia|]. rewrite (IH e He) in Hfe. discriminate.
    + intros e [<-|He]; auto.
Qed.

(* the same with the boolean conditions [good e], [c e && good e] read as
   propositions; [o] is the result of the find and [le'] the order in which it
   is extreme *)
Lemma good_extremum excl (le' : Z -> Z -> Prop) l o :
  match o with
  | Some n => In n l /\ good excl n = true /\ forall e, In e l -> good excl e = true -> le' n e
  | None => forall e, In e l -> good excl e = false
  end ->
  match o with
  | Some n => In n l /\ excl n = false /\ forall e, In e l -> excl e = false -> le' n e
  | None => forall e, In e l -> excl e = true
  end.
Proof.
  unfold good. destruct o as [n|].
  - intros [H1 [H2 H3]]. apply negb_true_iff in H2. repeat split; auto.
    intros e He Hx. apply H3; [exact He|]. now rewrite Hx.
  - intros H e He. now apply negb_false_iff, H.
Qed.

Lemma good_extremum_where excl (c : Z -> bool) (R R' : Z -> Prop) (le' : Z -> Z -> Prop) l o :
  (forall e, c e = true <-> R e) -> (forall e, c e = false <-> R' e) ->
  match o with
  | Some n => In n l /\ c n && good excl n = true /\
              forall e, In e l -> c e && good excl e = true -> le' n e
  | None => forall e, In e l -> c e && good excl e = false
  end ->
  match o with
  | Some n => In n l /\ excl n = false /\ R n /\
              forall e, In e l -> excl e = false -> R e -> le' n e
  | None => forall e, In e l -> excl e = false -> R' e
  end.
Proof.
  intros HR HR'. unfold good. destruct o as [n|].
  - intros [H1 [H2 H3]]. apply andb_true_iff in H2 as [H2 H2'].
    apply HR in H2. apply negb_true_iff in H2'. repeat split; auto.
    intros e He Hx HRe. apply H3; [exact He|]. apply HR in HRe. now rewrite HRe, Hx.
  - intros H e He Hx. specialize (H e He). apply HR'. now rewrite Hx, andb_true_r in H.
Qed.

Lemma strictly_increasing_sound l : strictly_increasing l = true -> StronglySorted Z.lt l.
Proof.
  intros H. apply Sorted_StronglySorted; [exact Z.lt_trans|].
  induction l as [|a l IH]; [constructor|].
  destruct l as [|b l]; [repeat constructor|].
  cbn [strictly_increasing] in H. apply andb_true_iff in H. destruct H as [H1 H2].
  constructor; [auto|]. constructor. now apply Z.ltb_lt.
Qed.

Lemma links_ok_cons2 rn rp a b r :
  links_ok rn rp (a :: b :: r) =
  (let '(n, p) := links_ok rn rp (b :: r) in
   (option_eqb Z.eqb (rn a) (Some b) && n, option_eqb Z.eqb (rp b) (Some a) && p)).
Proof. reflexivity. Qed.

Lemma links_ok_sound rn rp l : forall l1 a b l2, l = l1 ++ a :: b :: l2 ->
  (fst (links_ok rn rp l) = true -> rn a = Some b) /\
  (snd (links_ok rn rp l) = true -> rp b = Some a).
Proof.
  induction l as [|x [|y l] IH]; intros l1 a b l2 E;
    [destruct l1; discriminate|destruct l1 as [|? [|? ?]]; discriminate|].
  rewrite links_ok_cons2. destruct l1 as [|z l1].
  - injection E as -> -> _. destruct (links_ok rn rp (b :: l)) as [n p].
    split; intros H; apply andb_true_iff in H as [H _]; now apply (option_eqb_spec Z.eqb Z.eqb_eq).
  - injection E as _ E. specialize (IH _ _ _ _ E). destruct (links_ok rn rp (y :: l)) as [n p].
    split; intros H; apply andb_true_iff in H as [_ H]; now apply IH.
Qed.

Lemma last_ok_sound complete rn l :
  last_ok complete rn l = true ->
  forall l1 a, l = l1 ++ [a] ->
  if complete then rn a = None else exists x, rn a = Some x /\ a < x.
Proof.
  unfold last_ok. intros H l1 a E. rewrite E, rev_app_distr in H. cbn in H.
  destruct (rn a) as [x|].
  - apply andb_true_iff in H. destruct H as [H1 H2]. apply negb_true_iff in H1. rewrite H1.
    exists x. split; auto. now apply Z.ltb_lt.
  - now rewrite H.
Qed.

Lemma first_ok_sound rp l : first_ok rp l = true -> forall a l2, l = a :: l2 -> rp a = None.
Proof. unfold first_ok. intros H a l2 ->. destruct (rp a); [discriminate|reflexivity]. Qed.

Lemma hyps_check_sound enum complete rn rp rv pts :
  fst (hyps_check enum complete rn rp rv pts) = true ->
  StronglySorted Z.lt enum /\
  (forall l1 a b l2, enum = l1 ++ a :: b :: l2 -> rn a = Some b) /\
  (forall l1 a, enum = l1 ++ [a] -> if complete then rn a = None else exists x, rn a = Some x /\ a < x) /\
  (forall p, In p (pts ++ enum) -> in_window enum complete p = true -> rv p = mem Z.eqb p enum).
Proof.
  unfold hyps_check. destruct (links_ok rn rp enum) as [n p] eqn:El. cbn [fst].
  intros H. repeat (apply andb_true_iff in H; destruct H as [H ?]).
  repeat split.
  - now apply strictly_increasing_sound.
  - intros l1 a b l2 E. apply (links_ok_sound rn rp enum l1 a b l2 E). now rewrite El.
  - now apply last_ok_sound.
  - intros q Hq Hw. rewrite forallb_forall in H0. specialize (H0 q Hq).
    rewrite Hw in H0. cbn in H0. now apply eqb_prop.
Qed.

Lemma hyps_check_sound_prev enum complete rn rp rv pts :
  snd (hyps_check enum complete rn rp rv pts) = true ->
  (forall l1 a b l2, enum = l1 ++ a :: b :: l2 -> rp b = Some a) /\
  (forall a l2, enum = a :: l2 -> rp a = None).
Proof.
  unfold hyps_check. destruct (links_ok rn rp enum) as [n p] eqn:El. cbn [snd].
  intros H. apply andb_true_iff in H. destruct H as [H1 H2]. split.
  - intros l1 a b l2 E. apply (links_ok_sound rn rp enum l1 a b l2 E). now rewrite El.
  - now apply first_ok_sound.
Qed.
