(* Proofs/BExprProofs.v — Model/BExpr.v: [eval] of the n-ary joins, [evalo] against [eval]
   (no NameError when every name is bound), monotonicity in the environment ([le_env]),
   membership in [canon_set]. *)
From Coq Require Import List Bool Arith.
From Cylc Require Import Base.Util Model.BExpr.
Import ListNotations.

Lemma mem_nat_ext x l1 l2 :
  (In x l1 <-> In x l2) -> mem Nat.eqb x l1 = mem Nat.eqb x l2.
Proof. intros H. apply eq_true_iff_eq. now rewrite !mem_nat_In. Qed.

Lemma uses_In e a : uses e a = true <-> In a (vars e).
Proof. apply mem_nat_In. Qed.

Lemma eval_fold_and s r e :
  eval s (fold_left BAnd r e) = eval s e && forallb (eval s) r.
Proof.
  revert e; induction r as [|x r IH]; intros e; cbn; [now rewrite andb_true_r|].
  rewrite IH. cbn. now rewrite andb_assoc.
Qed.

Lemma eval_fold_or s r e :
  eval s (fold_left BOr r e) = eval s e || existsb (eval s) r.
Proof.
  revert e; induction r as [|x r IH]; intros e; cbn; [now rewrite orb_false_r|].
  rewrite IH. cbn. now rewrite orb_assoc.
Qed.

Lemma eval_conj_list s es c :
  conj_list es = Some c -> eval s c = forallb (eval s) es.
Proof. destruct es as [|e r]; cbn; [discriminate|]. intros [= <-]. apply eval_fold_and. Qed.

Lemma eval_disj_list s es d :
  disj_list es = Some d -> eval s d = existsb (eval s) es.
Proof. destruct es as [|e r]; cbn; [discriminate|]. intros [= <-]. apply eval_fold_or. Qed.

Lemma vars_fold (op : bexpr -> bexpr -> bexpr) r e :
  (forall a b, vars (op a b) = vars a ++ vars b) ->
  vars (fold_left op r e) = flat_map vars (e :: r).
Proof.
  intros Hop. revert e; induction r as [|y r IH]; intros e; cbn.
  - now rewrite app_nil_r.
  - rewrite IH. cbn. now rewrite Hop, app_assoc.
Qed.

Lemma vars_conj_list es c : conj_list es = Some c -> vars c = flat_map vars es.
Proof. destruct es as [|e r]; cbn; [discriminate|]. intros [= <-]. now apply vars_fold. Qed.

Lemma vars_disj_list es d : disj_list es = Some d -> vars d = flat_map vars es.
Proof. destruct es as [|e r]; cbn; [discriminate|]. intros [= <-]. now apply vars_fold. Qed.

Lemma forallb_eval_vars s l : forallb (eval s) (map BVar l) = forallb s l.
Proof. induction l as [|x l IH]; cbn; [reflexivity|]. now rewrite IH. Qed.

Lemma flat_map_vars_atoms l : flat_map vars (map BVar l) = l.
Proof. induction l as [|x l IH]; cbn; [reflexivity|]. now rewrite IH. Qed.

Lemma evalo_ext r1 r2 e :
  (forall a, In a (vars e) -> r1 a = r2 a) -> evalo r1 e = evalo r2 e.
Proof.
  induction e as [a|l IHl r IHr|l IHl r IHr]; cbn; intros H.
  - apply H. now left.
  - rewrite IHl, IHr; auto; intros a Ha; apply H, in_or_app; auto.
  - rewrite IHl, IHr; auto; intros a Ha; apply H, in_or_app; auto.
Qed.

Lemma evalo_Some s e : evalo (fun a => Some (s a)) e = Some (eval s e).
Proof.
  induction e as [a|l IHl r IHr|l IHl r IHr]; cbn; [reflexivity| |];
    rewrite IHl; destruct (eval s l); auto.
Qed.

(* when every name the expression mentions is bound, Python's short-circuit
   evaluation never raises and computes the ordinary truth value *)
Lemma evalo_total rho s e :
  (forall a, In a (vars e) -> rho a = Some (s a)) ->
  evalo rho e = Some (eval s e).
Proof. intros H. rewrite <- evalo_Some. now apply evalo_ext. Qed.

Lemma eval_ext s1 s2 e :
  (forall a, In a (vars e) -> s1 a = s2 a) -> eval s1 e = eval s2 e.
Proof.
  intros H. enough (Some (eval s1 e) = Some (eval s2 e)) by congruence.
  rewrite <- evalo_Some. apply evalo_total. intros a Ha. now rewrite (H a Ha).
Qed.

Lemma evalo_sound rho s e b :
  (forall a v, rho a = Some v -> s a = v) ->
  evalo rho e = Some b -> eval s e = b.
Proof.
  intros Hs. revert b; induction e as [a|l IHl r IHr|l IHl r IHr]; cbn; intros b.
  - apply Hs.
  - destruct (evalo rho l) as [[|]|]; [| |discriminate]; rewrite (IHl _ eq_refl); cbn;
      [apply IHr|congruence].
  - destruct (evalo rho l) as [[|]|]; [| |discriminate]; rewrite (IHl _ eq_refl); cbn;
      [congruence|apply IHr].
Qed.

(* and/or expressions have no negation, so they are monotone *)
Definition le_env (s1 s2 : nat -> bool) : Prop := forall a, s1 a = true -> s2 a = true.

Lemma eval_mono s1 s2 e : le_env s1 s2 -> eval s1 e = true -> eval s2 e = true.
Proof.
  intros Hle. induction e as [a|l IHl r IHr|l IHl r IHr]; cbn.
  - apply Hle.
  - intros [H1 H2]%andb_prop. now rewrite (IHl H1), (IHr H2).
  - intros [H|H]%orb_prop; [rewrite (IHl H)|rewrite (IHr H)]; auto using orb_true_r.
Qed.

Lemma eval_mono_false s1 s2 e : le_env s1 s2 -> eval s2 e = false -> eval s1 e = false.
Proof.
  intros Hle H. destruct (eval s1 e) eqn:E; [|reflexivity].
  rewrite (eval_mono _ _ _ Hle E) in H. discriminate.
Qed.

Lemma dedup_sorted_cons2 a b l :
  dedup_sorted (a :: b :: l) = if Nat.eqb a b then dedup_sorted (b :: l) else a :: dedup_sorted (b :: l).
Proof. reflexivity. Qed.

Lemma dedup_sorted_In x l : In x (dedup_sorted l) <-> In x l.
Proof.
  induction l as [|a l IH]; [tauto|].
  destruct l as [|b l']; [tauto|]. rewrite dedup_sorted_cons2.
  destruct (Nat.eqb_spec a b) as [->|Hne].
  - rewrite IH. cbn. tauto.
  - cbn [In]. now rewrite IH.
Qed.

Lemma canon_set_In x l : In x (canon_set l) <-> In x l.
Proof. unfold canon_set, sort_nat. now rewrite dedup_sorted_In, In_sort_by. Qed.
