(* Proofs/GraphParseProofs.v — C14: assembling the layers.  The printed line of a well-formed
   chain passes stage 3 and the layout conditions (a small automaton, [scan]); with
   Proofs/GraphSemProofs.v, parse_lines on any presentation of a well-formed, eoc-safe graph gives
   a state that means exactly the graph ([state_means_intro]); with Proofs/GraphPhysProofs.v the
   same for [parse] on any layout; the executable renderers [cut_graph] / [arrange] produce
   presentations. *)
From Coq Require Import List Bool Arith String Lia.
From Cylc Require Import Base.Util Gen.FamTables Model.GraphBase Model.GraphExpr Model.FamTrig
  Model.GraphParse Model.GraphAst Proofs.FamTrigProofs Proofs.GraphStoreProofs
  Proofs.GraphPairProofs Proofs.GraphSemProofs Proofs.GraphPhysProofs.
Import ListNotations.

(* A small automaton reads operand / operator alternation: an operand is
   expected, has just been read, or must be a node (after "!"). *)
Inductive sst := SExp | SAft | SNode.

Definition step (s : sst) (t : tok) : option sst :=
  match s, t with
  | SExp, TN _ => Some SAft
  | SExp, TLp => Some SExp
  | SExp, TBang => Some SNode
  | SAft, TAnd | SAft, TOr | SAft, TArrow => Some SExp
  | SAft, TRp => Some SAft
  | SNode, TN _ => Some SAft
  | _, _ => None
  end.

Fixpoint scan (s : sst) (l : list tok) : option sst :=
  match l with
  | [] => Some s
  | t :: r => match step s t with Some s' => scan s' r | None => None end
  end.

Lemma scan_app s a b : scan s (a ++ b) = match scan s a with Some s' => scan s' b | None => None end.
Proof. revert s. induction a as [|t r IH]; intros s; cbn; [reflexivity|]. destruct (step s t); auto. Qed.

Lemma scan_print_e e : scan SExp (print_e e) = Some SAft.
Proof.
  induction e; cbn [print_e].
  - reflexivity.
  - change (TLp :: print_e e ++ [TRp]) with ([TLp] ++ print_e e ++ [TRp]).
    rewrite scan_app. cbn [scan step]. rewrite scan_app, IHe. reflexivity.
  - rewrite scan_app, IHe1. cbn. exact IHe2.
  - rewrite scan_app, IHe1. cbn. exact IHe2.
Qed.

Lemma scan_print_r r : scan SExp (print_r r) = Some SAft.
Proof. unfold print_r. destruct (r_s r); reflexivity. Qed.

Lemma scan_print_g (g : group) : g <> [] -> scan SExp (print_g g) = Some SAft.
Proof.
  unfold print_g. induction g as [|r rest IH]; [congruence|]. intros _. destruct rest as [|r2 rest'].
  - cbn. apply scan_print_r.
  - cbn [map] in *. rewrite join_toks_cons2, scan_app, scan_print_r. cbn. apply IH. discriminate.
Qed.

Lemma scan_print_chain c : (forall g, In g (ch_groups c) -> g <> []) ->
  scan SExp (print_chain c) = Some SAft.
Proof.
  unfold print_chain. rewrite scan_app, scan_print_e. induction (ch_groups c) as [|g r IH]; intros H; [reflexivity|].
  cbn [flat_map]. change ((TArrow :: print_g g) ++ ?x) with ([TArrow] ++ print_g g ++ x).
  rewrite scan_app. cbn [scan step]. rewrite scan_app, scan_print_g by (apply H; now left). apply IH. intros g' Hg'. apply H. now right.
Qed.

(* the state after a token does not depend on the state before it *)
Definition after (t : tok) : sst :=
  match t with TN _ | TRp => SAft | TBang => SNode | _ => SExp end.

Lemma step_after s t s1 : step s t = Some s1 -> s1 = after t /\ clean_tok t = true.
Proof. destruct s, t; cbn; intros [= <-]; auto. Qed.

Lemma step_pair t t2 s2 : step (after t) t2 = Some s2 ->
  is_and t && is_and t2 = false /\ is_or t && is_or t2 = false
  /\ match t, t2 with TN _, TN _ => False | _, _ => True end.
Proof.
  destruct t; cbn [after is_and is_or andb]; try (intros _; now auto);
    destruct t2; try discriminate; intros _; repeat split.
Qed.

Lemma scan_facts : forall l s s', scan s l = Some s' ->
  has_double is_and l = false /\ has_double is_or l = false /\ adj_nodes l = false
  /\ forallb clean_tok l = true.
Proof.
  induction l as [|t r IH]; intros s s' H; [cbn; auto|].
  cbn [scan] in H. destruct (step s t) as [s1|] eqn:Es; [|discriminate].
  destruct (IH s1 s' H) as [H1 [H2 [H3 H4]]]. destruct (step_after s t s1 Es) as [-> Hc].
  cbn [forallb]. rewrite Hc, H4.
  destruct r as [|t2 r2]; [repeat split; try reflexivity; destruct t; reflexivity|].
  cbn [scan] in H. destruct (step (after t) t2) as [s2|] eqn:Es2; [|discriminate].
  destruct (step_pair t t2 s2 Es2) as [Ha [Ho Hn]].
  cbn [has_double]. rewrite Ha, Ho. repeat split; try assumption.
  destruct t; try exact H3. destruct t2; try exact H3. destruct Hn.
Qed.

Lemma scan_starts l s' : scan SExp l = Some s' -> starts_cont l = false.
Proof. destruct l as [|t r]; [reflexivity|]. cbn. destruct t; cbn; try discriminate; reflexivity. Qed.

Lemma scan_ends : forall l s, scan s l = Some SAft -> l <> [] -> ends_cont l = false.
Proof.
  intros l. induction l as [|t r IH] using rev_ind; [congruence|]. intros s H _.
  rewrite scan_app in H. destruct (scan s r) as [s1|]; [|discriminate]. cbn in H.
  destruct (step s1 t) as [s2|] eqn:Es; [|discriminate]. inversion H; subst s2.
  unfold ends_cont. rewrite rev_app_distr. cbn.
  destruct s1, t; cbn in Es; try discriminate; reflexivity.
Qed.

Lemma print_chain_nonempty c : print_chain c <> [].
Proof. unfold print_chain. pose proof (print_e_nonempty (ch_head c)). destruct (print_e (ch_head c)); [congruence|discriminate]. Qed.

Lemma print_chain_line_ok c : chain_ok c = true ->
  line_ok (print_chain c) = true
  /\ has_double is_and (print_chain c) = false /\ has_double is_or (print_chain c) = false.
Proof.
  intros Hok. destruct (chain_ok_parts c Hok) as [_ Hg]. apply groups_ok_spec in Hg.
  pose proof (scan_print_chain c (fun g Hin => proj1 (proj1 Hg g Hin))) as Hs.
  destruct (scan_facts _ _ _ Hs) as [H1 [H2 [H3 H4]]].
  split; [|auto]. unfold line_ok. rewrite H3, H4, (scan_starts _ _ Hs).
  rewrite (scan_ends _ _ Hs (print_chain_nonempty c)).
  pose proof (print_chain_nonempty c). destruct (print_chain c); [congruence|reflexivity].
Qed.

Lemma check_lines_ok (ls : list (list tok)) :
  (forall l, In l ls -> has_double is_and l = false /\ has_double is_or l = false /\ adj_nodes l = false) ->
  check_lines ls = Ok tt.
Proof.
  intros H. unfold check_lines.
  assert (H1 : existsb (fun l => has_double is_and l || has_double is_or l) ls = false).
  { apply existsb_false. intros l Hl. destruct (H l Hl) as [Ha [Ho _]]. now rewrite Ha, Ho. }
  rewrite H1. destruct (rev ls) as [|lst others] eqn:Er; [reflexivity|].
  assert (Hin : forall x, In x (lst :: others) -> In x ls) by (intros x Hx; apply in_rev; now rewrite Er).
  destruct (H lst (Hin lst (or_introl eq_refl))) as [_ [_ Ha]]. rewrite Ha.
  assert (H2 : existsb adj_nodes others = false).
  { apply existsb_false. intros l Hl. apply (H l (Hin l (or_intror Hl))). }
  now rewrite H2.
Qed.

Lemma oassert_eqb_true (a b : oassert) : oassert_eqb a b = true <-> a = b.
Proof.
  destruct a as [[n o] x], b as [[n' o'] x']. unfold oassert_eqb. split.
  - intros H. apply andb_prop in H. destruct H as [H Hx]. apply andb_prop in H. destruct H as [Hn Ho].
    apply Nat.eqb_eq in Hn. apply String.eqb_eq in Ho. apply Bool.eqb_prop in Hx. now subst.
  - intros [= -> -> ->]. now rewrite Nat.eqb_refl, String.eqb_refl, Bool.eqb_reflx.
Qed.

Lemma tassert_eqb_true (a b : tassert) : tassert_eqb a b = true <-> a = b.
Proof.
  destruct a as [[n e] s], b as [[n' e'] s']. unfold tassert_eqb. split.
  - intros H. apply andb_prop in H. destruct H as [H Hs]. apply andb_prop in H. destruct H as [Hn He].
    apply Nat.eqb_eq in Hn. apply toks_eqb_true in He. apply Bool.eqb_prop in Hs. now subst.
  - intros [= -> -> ->]. now rewrite Nat.eqb_refl, toks_eqb_refl, Bool.eqb_reflx.
Qed.

Lemma state_means_intro st g :
  core_inv (core_of st) -> (forall x, core_has (core_of st) x <-> In x (graph_facts g)) ->
  state_means st g = true.
Proof.
  (* one bullet for each conjunct of [state_means]: a stored entry is found by its key (the keys
     are NoDup), and H turns having it into a fact of g, and back *)
  intros [[Hk Hl] [Hom Hnd]] H. cbn [core_of fst snd] in *. unfold state_means.
  repeat (apply andb_true_iff; split).
  - apply forallb_forall. intros oa Hoa. unfold state_asserts in Hoa. apply in_map_iff in Hoa.
    destruct Hoa as [[[n o] [[b d] f]] [<- Hin]].
    pose proof (assoc_NoDup optkey_eqb optkey_eqb_true _ _ _ Hnd Hin) as Ha. destruct (Hom _ _ Ha) as [b0 [= -> -> ->]].
    rewrite Bool.eqb_reflx. cbn. apply (mem_In oassert_eqb oassert_eqb_true).
    apply (in_graph_facts g (FOpt (n, o, b0))), H. exact Ha.
  - apply forallb_forall. intros [[n o] b] Ha. apply (mem_In _ (option_eqb_spec _ oassert_eqb_true)).
    apply (in_graph_facts g (FOpt (n, o, b))), H, (assoc_In optkey_eqb optkey_eqb_true) in Ha. unfold state_asserts.
    apply in_map_iff. exists ((n, o), (b, b, true)). split; [|exact Ha]. now rewrite Bool.eqb_reflx.
  - apply forallb_forall. intros [[n e] s] Ha. apply (mem_In tassert_eqb tassert_eqb_true).
    unfold state_trigs in Ha. apply in_flat_map in Ha. destruct Ha as [[n' l] [Hin Ha]].
    apply in_map_iff in Ha. destruct Ha as [t [[= <- <- <-] Ht']]. cbn [fst snd] in *.
    unfold nonempty_trigs in Ht'. apply filter_In in Ht'. destruct Ht' as [Htl Hnn].
    apply (in_graph_facts g (FTrig (n', tg_expr t, tg_suicide t))), H. split.
    + destruct (tg_expr t); [discriminate|discriminate].
    + exists t. split; [|reflexivity]. unfold trigs_of. cbn [core_of fst]. rewrite (assoc_NoDup Nat.eqb Nat.eqb_eq _ _ _ Hk Hin).
      apply find_trig_in_nodup; [eapply Hl; eauto|exact Htl].
  - apply forallb_forall. intros [[n e] s] Ha. apply (mem_In tassert_eqb tassert_eqb_true).
    apply (in_graph_facts g (FTrig (n, e, s))), H in Ha. destruct Ha as [He [t [Hf Hs]]].
    unfold trigs_of in Hf. cbn [core_of fst] in Hf. destruct (assoc Nat.eqb n (ps_trig st)) as [l|] eqn:Ha; [|discriminate].
    apply find_trig_some in Hf. destruct Hf as [Htl He']. unfold state_trigs. apply in_flat_map.
    exists (n, l). split; [now apply (assoc_In Nat.eqb Nat.eqb_eq)|]. cbn [fst snd]. apply in_map_iff. exists t.
    split; [now rewrite He', Hs|]. unfold nonempty_trigs. apply filter_In. split; [exact Htl|].
    rewrite He'. destruct e; [congruence|reflexivity].
  - apply forallb_forall. intros n Hn. apply mem_nat_In.
    apply (in_graph_facts g (FTask n)), H. cbn [core_has core_of fst].
    unfold tm_task. apply in_map_iff in Hn. destruct Hn as [[n' l] [<- Hin]]. cbn.
    rewrite (assoc_NoDup Nat.eqb Nat.eqb_eq _ _ _ Hk Hin). discriminate.
  - apply forallb_forall. intros n Hn. apply mem_nat_In.
    apply (in_graph_facts g (FTask n)), H in Hn. cbn [core_has core_of fst] in Hn.
    unfold tm_task in Hn. destruct (assoc Nat.eqb n (ps_trig st)) as [l|] eqn:E; [|congruence].
    apply (assoc_In Nat.eqb Nat.eqb_eq) in E. apply in_map_iff. exists (n, l). auto.
Qed.

Lemma wf_graph_consistent g : wf_graph g = true ->
  (forall c, In c g -> chain_ok c = true) /\ consistent (fun x => In x (graph_facts g)).
Proof.
  unfold wf_graph. intros H. apply andb_prop in H. destruct H as [H H4]. apply andb_prop in H. destruct H as [H H3].
  apply andb_prop in H. destruct H as [H1 H2]. rewrite forallb_forall in H1, H2, H3, H4.
  split; [exact H1|]. split.
  - intros [n|t|a] Hx; cbn; auto. apply H2. now apply (in_graph_facts g (FOpt a)).
  - intros [n|t|a] [n'|t'|a'] Hx Hy; cbn; auto; apply in_graph_facts in Hx, Hy.
    + specialize (H4 t Hx). rewrite forallb_forall in H4. auto.
    + specialize (H3 a Hx). rewrite forallb_forall in H3. auto.
Qed.

Theorem parse_lines_presents g ls :
  wf_graph g = true -> eoc_safe g = true -> presents g ls ->
  exists st, parse_lines [] (map print_chain ls) = Ok st /\ state_means st g = true.
Proof.
  intros Hwf Hsafe Hpres. destruct (wf_graph_consistent g Hwf) as [Hok Hcons].
  pose proof (presents_lines_ok g ls Hok Hpres) as Hlok.
  assert (HF := presents_facts g ls (lines_eoc (dd_lines ls)) Hok Hsafe Hpres
                  (fun x => iff_trans (mem_In toks_eqb toks_eqb_true x _) (eoc_in ls Hlok x))).
  destruct (parse_lines_ok ls Hlok) as [st [Ep [Hinv Hhas]]].
  - apply (consistent_sub _ _) with (2 := Hcons). intros x. apply HF.
  - exists st. split; [exact Ep|]. apply state_means_intro; [exact Hinv|].
    intros x. rewrite Hhas. apply HF.
Qed.

Definition lays_chain (c : chain) (lay : layout) : Prop :=
  layout_ok (print_chain c) lay = true /\ lay <> [].

Theorem parse_render g ls pre lys :
  wf_graph g = true -> eoc_safe g = true -> presents g ls ->
  Forall2 lays_chain ls lys ->
  exists st, parse [] (render_text pre lys) = Ok st /\ state_means st g = true.
Proof.
  intros Hwf Hsafe Hpres HF.
  destruct (wf_graph_consistent g Hwf) as [Hok _].
  pose proof (presents_lines_ok g ls Hok Hpres) as Hlok.
  assert (HF2 : Forall2 lays (map print_chain ls) lys).
  { clear - HF Hlok. induction HF as [|c lay ls' lys' [H1 H2] _ IH]; constructor.
    - split; [|split; assumption]. apply (print_chain_line_ok c), Hlok. now left.
    - apply IH. intros c' Hc'. apply Hlok. now right. }
  pose proof (phys_layer pre lys _ HF2) as Hphys.
  unfold parse. destruct (phys_lines (render_text pre lys)) as [nb| |]; cbn [bind] in *; try discriminate.
  rewrite Hphys. cbn [bind].
  rewrite check_lines_ok.
  - cbn [bind]. now apply parse_lines_presents.
  - intros l Hl. apply in_map_iff in Hl. destruct Hl as [c [<- Hc]].
    destruct (print_chain_line_ok c (Hlok c Hc)) as [Hlo [Ha Ho]]. split; [exact Ha|]. split; [exact Ho|].
    apply (line_ok_inv _ Hlo).
Qed.

Lemma cut_groups_cut_of : forall gs h acc flags,
  cut_of h (rev acc ++ gs) (cut_groups h acc gs flags).
Proof.
  induction gs as [|g r IH]; intros h acc flags; cbn [cut_groups].
  - rewrite app_nil_r. constructor.
  - destruct ((match flags with f :: _ => f | [] => false end) && negb (is_nil r)) eqn:Ec.
    + apply andb_true_iff in Ec. destruct Ec as [_ Hr]. apply negb_true_iff in Hr.
      cbn [rev]. apply cut_at; [destruct r; [discriminate|discriminate]|]. apply (IH (group_expr g) []).
    + specialize (IH h (g :: acc) (match flags with _ :: t => t | [] => [] end)).
      cbn [rev] in IH. rewrite <- app_assoc in IH. exact IH.
Qed.

Lemma cut_graph_parts : forall g cuts,
  exists parts, Forall2 (fun c p => cut_of (ch_head c) (ch_groups c) p) g parts
                /\ List.concat parts = cut_graph g cuts.
Proof.
  induction g as [|c r IH]; intros cuts; [exists []; split; [constructor|reflexivity]|].
  destruct (IH (match cuts with _ :: t => t | [] => [] end)) as [parts [HF E]].
  exists (cut_chain c (match cuts with f :: _ => f | [] => [] end) :: parts). split.
  - constructor; [|exact HF]. unfold cut_chain. apply (cut_groups_cut_of (ch_groups c) (ch_head c) []).
  - cbn [List.concat cut_graph]. now rewrite E.
Qed.

Lemma arrange_in sel (ls : graph) : covers sel (List.length ls) = true ->
  forall c, In c (arrange sel ls) <-> In c ls.
Proof.
  intros Hcov c. unfold arrange. rewrite in_flat_map. split.
  - intros [i [_ H]]. destruct (nth_error ls i) eqn:E; [|destruct H]. destruct H as [<-|[]].
    eapply nth_error_In; eauto.
  - intros H. apply In_nth_error in H. destruct H as [i Hi]. exists i. split; [|rewrite Hi; now left].
    unfold covers in Hcov. rewrite forallb_forall in Hcov.
    apply mem_nat_In. apply Hcov. apply in_seq. split; [lia|].
    cbn. apply nth_error_Some. congruence.
Qed.
