(* Proofs/TaskMsgEdges.v - when a message acts and when it is answered with a poll (pm_act);
   from that the invariant wf is kept, and the status edges, retries, lifecycle,
   stale/backward/retry-window lemmas (C09, C10) *)
From Coq Require Import List Bool Arith ZArith Lia.
From Cylc Require Import Base.Util Gen.TaskMsgTables Model.TaskMsg Proofs.TaskMsgProofs Proofs.TaskMsgInv.
Import ListNotations.

(* the edges a message with flag class r (true = received) can take *)
Definition edge_ok (m : msg) (r : bool) (a b : status) : bool :=
  match m with
  | MOther | MCustom _ => false
  | MExpired => status_eqb b Expired
  | MSubmitted => status_eqb a Preparing && status_eqb b Submitted
  | MStarted => status_eqb b Running && (negb r || (rk a <=? rk Running))
  | MSucceeded => status_eqb b Succeeded
  | MFailed =>
      (status_eqb b Failed || (status_eqb b Waiting && negb (status_eqb a Failed)))
      && (negb r || (rk a <=? rk Failed))
  | MSubFail =>
      (status_eqb b SubmitFailed || (status_eqb b Waiting && negb (status_eqb a SubmitFailed)))
      && (negb r || (rk a <=? rk SubmitFailed))
  end.
Definition op_edge (o : op) (a b : status) : bool :=
  match o with
  | OpPrep => status_eqb a Waiting && status_eqb b Preparing
  | OpSubRes ok => edge_ok (if ok then MSubmitted else MSubFail) false a b
  | OpMsg m f _ => edge_ok m (flag_received f) a b
  end.

Lemma no_next_None x : no_next x = true -> next_of x = None.
Proof. unfold no_next. destruct (next_of x); [discriminate|reflexivity]. Qed.

(* a received message that would move the status backwards *)
Definition backward (m : msg) (s : status) : bool :=
  match m with
  | MStarted => rk Running <? rk s
  | MFailed => rk Failed <? rk s
  | MSubFail => rk SubmitFailed <? rk s
  | MSubmitted => rk Submitted <=? rk s
  | _ => false
  end.

(* after the implied outputs, a received message that would move the status
   backwards is answered with a poll request; any other message acts *)
Lemma ctl_next_act c hs ht m r :
  ctl_next c hs ht m r =
  let c1 := implied_ctl m hs ht c in
  if r && backward m (c_st c1) then c1 else act m c1.
Proof. destruct c, m, hs, ht; try reflexivity; destruct r; reflexivity. Qed.
Lemma eff_next_act t m r :
  eff_next t m r =
  implied_eff m (hs t) (ht t) ++
  (if r && backward m (c_st (implied_ctl m (hs t) (ht t) (ctl_of t))) then [EPoll] else act_eff t m).
Proof. unfold eff_next, mid_st. destruct m, (hs t), (ht t); try reflexivity; destruct r; reflexivity. Qed.

Lemma pm_act t m f n : check t m f n = true ->
  let c1 := implied_ctl m (hs t) (ht t) (ctl_of t) in
  let g := flag_received f && backward m (c_st c1) in
  ctl_of (fst (process_message t m f n)) = (if g then c1 else act m c1) /\
  snd (process_message t m f n) = implied_eff m (hs t) (ht t) ++ (if g then [EPoll] else act_eff t m).
Proof.
  intros C. rewrite (pm_ctl t m f n C), (pm_eff t m f n C). split; [apply ctl_next_act|apply eff_next_act].
Qed.

Lemma wf_pm t m f n : wf t -> wf (fst (process_message t m f n)).
Proof.
  (* status and timers: each single action keeps ctl_wf (K); outputs: old ones plus [adds] (Ho, pm_outs_inv) *)
  intros W. destruct (check t m f n) eqn:C; [|rewrite pm_ignored by exact C; exact W].
  set (t' := fst (process_message t m f n)). set (r := flag_received f).
  assert (K : ctl_wf (sn t') (cf_n t') (cf_m t') (ctl_of t')).
  { unfold t'. destruct (pm_frame t m f n) as (-> & -> & -> & _). rewrite pm_ctl by exact C.
    rewrite ctl_next_act. cbn zeta.
    assert (K0 : ctl_wf (sn t) (cf_n t) (cf_m t) (implied_ctl m (hs t) (ht t) (ctl_of t)))
      by (apply implied_ind; [apply wf_ctl_wf; exact W|apply act_wf..]).
    destruct (_ && _); [exact K0|apply act_wf; exact K0]. }
  pose proof (fun x => pm_outs_In t m f n x C) as Ho. fold t' r in Ho.
  pose proof (pm_st t m f n C) as Hs. fold t' r in Hs.
  pose proof (wf_hs t W) as W1. pose proof (wf_ht t W) as W2.
  constructor; try apply K.
  - rewrite Hs, Ho. destruct m; cbn [adds]; try solve [intros _; right; cbn; auto];
      cbn [ctl_next ctl_of c_st c_exec c_sub]; try (intros H; left; exact (W1 H)).
    + destruct (r && _); [intros H; left; exact (W1 H)|]. destruct (next_of _); cbn; lia.
    + cbn. lia.
  - rewrite Hs, Ho. destruct m; cbn [adds]; try solve [intros _; right; cbn; auto];
      cbn [ctl_next ctl_of c_st c_exec c_sub]; try (intros H; left; exact (W2 H)).
    + destruct (r && _); cbn [c_st]; [intros H; left; exact (W2 H)|].
      destruct (psub_st_cases (st t)) as [[_ Q]|[_ Q]]; rewrite Q; [cbn; lia|intros H; left; exact (W2 H)].
    + destruct (r && _); [intros H; left; exact (W2 H)|]. destruct (next_of _); cbn; lia.
    + cbn. lia.
  - intros H.
    assert (A : (In OSucceeded (outs t) \/ In OFailed (outs t)) \/ m = MSucceeded \/ m = MFailed).
    { destruct H as [H|H]; destruct (pm_outs_inv _ _ _ _ _ H) as [H'|H']; [auto..|destruct H'; auto]. }
    destruct A as [A|[-> | ->]].
    + destruct (wf_closed t W A). split; apply pm_outs_mono; assumption.
    + split; apply Ho; right; cbn; auto.
    + split; apply Ho; right; cbn; auto.
Qed.

Lemma wf_step t o : wf t -> wf (fst (step t o)).
Proof.
  intros W. destruct o as [|ok|m f rel]; cbn [step].
  - destruct (preppable t) eqn:P; cbn [fst]; [apply wf_prep; assumption|exact W].
  - apply wf_pm. exact W.
  - apply wf_pm. exact W.
Qed.

Lemma wf_final t ops : wf t -> wf (final t ops).
Proof. intros W. apply (run_invariant wf wf_step). exact W. Qed.
Lemma wf_run n m k ops : wf (final (fresh n m k) ops).
Proof. apply wf_final, wf_fresh. Qed.

(* which effect comes from which action *)
Lemma act_eff_inv t m e : In e (act_eff t m) ->
  match e with
  | EPoll => False
  | ERetry b => m = (if b then MSubFail else MFailed) /\ next_of (if b then tsub t else texec t) <> None
  | ESpawn OFailed => m = MFailed /\ next_of (texec t) = None
  | ESpawn OSubmitFailed => m = MSubFail /\ next_of (tsub t) = None
  | _ => True
  end.
Proof.
  revert e. apply Forall_forall. destruct m; cbn [act_eff]; repeat constructor.
  - destruct (next_of (texec t)) eqn:N; repeat constructor; cbn; congruence.
  - destruct (next_of (tsub t)) eqn:N; repeat constructor; cbn; congruence.
  - destruct (_ && _); repeat constructor.
Qed.
Lemma In_acts e m hs ht (g : bool) l :
  In e (implied_eff m hs ht ++ (if g then [EPoll] else l)) ->
  e = ESpawn OSubmitted \/ e = ESpawn OStarted \/ if g then e = EPoll else In e l.
Proof.
  intros H. apply in_app_or in H. destruct H as [H|H].
  - assert (I : In e [ESpawn OSubmitted; ESpawn OStarted])
      by (destruct m, hs, ht; cbn in H |- *; tauto).
    destruct I as [<-|[<-|[]]]; auto.
  - right. right. destruct g; [destruct H as [<-|[]]; reflexivity|exact H].
Qed.

Lemma implied_exec m hs ht c : c_exec (implied_ctl m hs ht c) = c_exec c.
Proof. destruct m, hs, ht; reflexivity. Qed.

(* for an output that is complete from status s on (wf_hs, wf_ht) *)
Lemma incomplete_before t o s :
  (rk s <= rk (st t) -> In o (outs t)) -> is_complete t o = false -> rk (st t) < rk s.
Proof.
  intros H C. apply Nat.nle_gt. intros L. apply H, is_complete_In in L. congruence.
Qed.

(* the implied outputs leave the status where it is or raise it, at most to running *)
Lemma implied_st t m : wf t ->
  let s1 := c_st (implied_ctl m (hs t) (ht t) (ctl_of t)) in
  s1 = st t \/ rk (st t) < rk s1 <= rk Running.
Proof.
  intros W.
  pose proof (incomplete_before t OSubmitted Submitted (wf_hs t W)) as W1. fold (hs t) in W1.
  pose proof (incomplete_before t OStarted Running (wf_ht t W)) as W2. fold (ht t) in W2.
  assert (A : let s1 := c_st (if hs t then ctl_of t else act MSubmitted (ctl_of t)) in
              s1 = st t \/ rk (st t) < rk s1 <= rk Running).
  { destruct (hs t); cbn; [auto|]. specialize (W1 eq_refl).
    destruct (psub_st_cases (st t)) as [[E Q]|[_ Q]]; rewrite Q; [rewrite E; cbn; lia|auto]. }
  destruct m; cbn [implied_ctl]; auto; destruct (ht t); auto; right; specialize (W2 eq_refl); cbn in *; lia.
Qed.

(* so a message is turned away only where nothing was implied *)
Lemma refused_st t m : wf t ->
  backward m (c_st (implied_ctl m (hs t) (ht t) (ctl_of t))) = true ->
  c_st (implied_ctl m (hs t) (ht t) (ctl_of t)) = st t.
Proof.
  intros W B. destruct (implied_st t m W) as [E|L]; [exact E|]. exfalso.
  destruct m; cbn [backward implied_ctl] in B, L; try discriminate B; try apply Nat.ltb_lt in B; cbn in *; lia.
Qed.

(* the "received: only from <= x" clause of an edge, from the guard that let
   the message through *)
Lemma guard_edge (r : bool) x a a1 :
  r && (x <? a1) = false -> a <= a1 -> negb r || (a <=? x) = true.
Proof.
  destruct r; [|reflexivity]. cbn. intros G L. apply Nat.ltb_ge in G. apply Nat.leb_le. lia.
Qed.

Lemma pm_edges t m f n : wf t ->
  st (fst (process_message t m f n)) = st t \/
  edge_ok m (flag_received f) (st t) (st (fst (process_message t m f n))) = true.
Proof.
  intros W. destruct (check t m f n) eqn:C; [|rewrite pm_ignored by exact C; left; reflexivity].
  rewrite (pm_st t m f n C), ctl_next_act. cbn zeta.
  pose proof (refused_st t m W) as R.
  assert (I : rk (st t) <= rk (c_st (implied_ctl m (hs t) (ht t) (ctl_of t))))
    by (destruct (implied_st t m W) as [->|]; lia).
  destruct (flag_received f && backward m _) eqn:G.
  - left. apply andb_true_iff in G. apply R, G.
  - clear R. destruct m; cbn [backward act edge_ok] in *.
    + cbn. destruct (psub_st_cases (st t)) as [[E Q]|[_ Q]]; rewrite Q; [right; rewrite E; reflexivity|left; reflexivity].
    + right. apply (guard_edge _ _ _ _ G I).
    + right. reflexivity.
    + right. rewrite implied_exec. cbn [ctl_of c_exec].
      rewrite (guard_edge _ _ _ _ G I), andb_true_r.
      destruct (next_of (texec t)) eqn:N; cbn [c_st status_eqb rk Nat.eqb orb andb]; [|reflexivity].
      apply negb_true_iff, status_eqb_neq. intros E.
      rewrite (no_next_None _ (wf_failed t W E)) in N. discriminate N.
    + right. cbn [implied_ctl ctl_of c_st c_sub] in *.
      rewrite (guard_edge _ _ _ _ G I), andb_true_r.
      destruct (next_of (tsub t)) eqn:N; cbn [c_st status_eqb rk Nat.eqb orb andb]; [|reflexivity].
      apply negb_true_iff, status_eqb_neq. intros E.
      rewrite (no_next_None _ (wf_subfailed t W E)) in N. discriminate N.
    + right. reflexivity.
    + left. reflexivity.
    + left. reflexivity.
Qed.

Lemma prep_raw_st t : st (prep_raw t) = Preparing.
Proof.
  unfold prep_raw. destruct (status_eqb (st t) Preparing) eqn:E; cbn; [apply status_eqb_eq; exact E|reflexivity].
Qed.

Lemma step_edges t o : wf t ->
  st (fst (step t o)) = st t \/ op_edge o (st t) (st (fst (step t o))) = true.
Proof.
  intros W. destruct o as [|ok|m f rel]; cbn [step op_edge].
  - unfold preppable. destruct (status_eqb (st t) Waiting) eqn:E1; cbn [orb fst].
    + rewrite prep_raw_st. right. reflexivity.
    + destruct (status_eqb (st t) Preparing) eqn:E2; cbn [fst]; [|left; reflexivity].
      rewrite prep_raw_st. left. symmetry. apply status_eqb_eq. exact E2.
  - apply (pm_edges t _ Internal _ W).
  - apply pm_edges. exact W.
Qed.

(* every step of every run from the fresh task takes an edge of the table *)
Fixpoint trace_edges (t : task) (ops : list op) : Prop :=
  match ops with
  | [] => True
  | o :: r =>
      (st (fst (step t o)) = st t \/ op_edge o (st t) (st (fst (step t o))) = true)
      /\ trace_edges (fst (step t o)) r
  end.
Lemma trace_edges_wf t ops : wf t -> trace_edges t ops.
Proof.
  revert t. induction ops as [|o r IH]; intros t W; cbn; [exact I|].
  split; [apply step_edges; exact W|apply IH; apply wf_step; exact W].
Qed.

Definition edge_msgs : list msg := [MSubmitted; MStarted; MSucceeded; MFailed; MSubFail; MExpired].
Definition reach_paths : list (list op) :=
  [ []; [OpMsg MExpired Internal 0%Z]; [OpPrep]; [OpPrep; OpMsg MExpired Internal 0%Z];
    [OpPrep; OpSubRes false]; [OpPrep; OpSubRes true];
    [OpPrep; OpMsg MStarted Received 0%Z]; [OpPrep; OpMsg MFailed Received 0%Z];
    [OpPrep; OpMsg MSucceeded Received 0%Z] ].
Definition reach_setups : list (nat * nat * list op) :=
  flat_map (fun nm => map (fun p => (fst nm, snd nm, p)) reach_paths) [(0,0); (1,1); (1,0); (0,1)].
Definition flag_of (r : bool) : flag := if r then Received else Polled.
(* the tasks at the end of the setups: evaluated once, as an argument, and not
   again for every edge *)
Definition reach_tasks : list (nat * nat * list op * task) :=
  map (fun s => (s, final (fresh (fst (fst s)) (snd (fst s)) 1) (snd s))) reach_setups.
Definition reaches (ts : list (nat * nat * list op * task)) (m : msg) (r : bool) (a b : status) : bool :=
  existsb (fun x => status_eqb (st (snd x)) a &&
                    status_eqb (st (fst (step (snd x) (OpMsg m (flag_of r) 0%Z)))) b) ts.
Lemma reach_table :
  (fun ts => forallb (fun m => forallb (fun r => forallb (fun a => forallb (fun b =>
     implb (edge_ok m r a b && negb (status_eqb a b)) (reaches ts m r a b))
     statuses_ordered) statuses_ordered) [true; false]) edge_msgs) reach_tasks = true.
Proof. vm_compute. reflexivity. Qed.

Lemma statuses_ordered_In s : In s statuses_ordered.
Proof. destruct s; cbn; tauto. Qed.

Lemma edges_reachable m r a b :
  edge_ok m r a b = true -> a <> b ->
  exists n mm pre f,
    flag_received f = r /\
    st (final (fresh n mm 1) pre) = a /\
    st (fst (step (final (fresh n mm 1) pre) (OpMsg m f 0%Z))) = b.
Proof.
  intros E N.
  assert (Hm : In m edge_msgs).
  { destruct m; cbn in E; try discriminate; cbn; auto 7. }
  pose proof reach_table as T. cbv beta in T. rewrite forallb_forall in T. specialize (T m Hm).
  rewrite forallb_forall in T.
  assert (Hr : In r [true; false]) by (destruct r; cbn; tauto).
  specialize (T r Hr). rewrite forallb_forall in T. specialize (T a (statuses_ordered_In a)).
  rewrite forallb_forall in T. specialize (T b (statuses_ordered_In b)).
  cbn beta in T. rewrite E in T. apply status_eqb_neq in N. rewrite N in T. cbn [andb negb implb] in T.
  unfold reaches in T. apply existsb_exists in T. destruct T as [[[[n mm] pre] t0] [I H]].
  apply in_map_iff in I. destruct I as (s & [= -> <-] & _).
  cbn [fst snd] in H. apply andb_true_iff in H. destruct H as [H1 H2].
  apply status_eqb_eq in H1. apply status_eqb_eq in H2.
  exists n, mm, pre, (flag_of r). split; [destruct r; reflexivity|]. auto.
Qed.

Definition retried (t t' : task) (e : list effect) : Prop :=
  (In (ERetry false) e /\ exists x', next_of (texec t) = Some x' /\ texec t' = Some x') \/
  (In (ERetry true) e /\ exists x', next_of (tsub t) = Some x' /\ tsub t' = Some x').

(* a retry effect is exactly one successful next() of the corresponding timer *)
Lemma pm_retry_effect t m f n b :
  In (ERetry b) (snd (process_message t m f n)) ->
  let t' := fst (process_message t m f n) in
  st t' = Waiting /\
  exists x', next_of (if b then tsub t else texec t) = Some x' /\
             (if b then tsub t' else texec t') = Some x'.
Proof.
  cbn zeta. destruct (check t m f n) eqn:C; [|rewrite pm_ignored by exact C; intros []].
  destruct (pm_act t m f n C) as [Hc ->]. intros H.
  apply In_acts in H. destruct H as [H|[H|H]]; try discriminate H.
  destruct (flag_received f && _); [discriminate H|].
  apply act_eff_inv in H. destruct H as [-> N].
  destruct b; cbn [act] in Hc; rewrite ?implied_exec in Hc; cbn [implied_ctl ctl_of c_exec c_sub] in Hc.
  - destruct (next_of (tsub t)) as [x'|]; [|contradiction]. split; [exact (f_equal c_st Hc)|].
    exists x'. split; [reflexivity|exact (f_equal c_sub Hc)].
  - destruct (next_of (texec t)) as [x'|]; [|contradiction]. split; [exact (f_equal c_st Hc)|].
    exists x'. split; [reflexivity|exact (f_equal c_exec Hc)].
Qed.

Lemma implied_waiting m hs ht c : c_st (implied_ctl m hs ht c) = Waiting -> c_st c = Waiting.
Proof.
  assert (A : c_st (act MSubmitted c) = Waiting -> c_st c = Waiting)
    by (intros H; apply (psub_st_eq _ _ H); discriminate).
  destruct m, hs, ht; cbn [implied_ctl]; auto; discriminate.
Qed.

Lemma pm_to_waiting t m f n :
  st (fst (process_message t m f n)) = Waiting -> st t <> Waiting ->
  retried t (fst (process_message t m f n)) (snd (process_message t m f n)).
Proof.
  intros H N.
  assert (R : exists b, In (ERetry b) (snd (process_message t m f n))).
  { destruct (check t m f n) eqn:C; [|rewrite pm_ignored in H by exact C; contradiction].
    destruct (pm_act t m f n C) as [Hc ->]. apply (f_equal c_st) in Hc. cbn [ctl_of c_st] in Hc.
    rewrite H in Hc. symmetry in Hc.
    destruct (flag_received f && _); [apply implied_waiting in Hc; contradiction|].
    destruct m; cbn [act c_st] in Hc; try discriminate Hc; rewrite ?implied_exec in Hc;
      cbn [implied_ctl ctl_of c_st c_exec c_sub] in Hc; try contradiction.
    - apply psub_st_eq in Hc; [contradiction|discriminate].
    - exists false. apply in_or_app. right. cbn [act_eff].
      destruct (next_of (texec t)); [left; reflexivity|discriminate Hc].
    - exists true. apply in_or_app. right. cbn [act_eff].
      destruct (next_of (tsub t)); [left; reflexivity|discriminate Hc]. }
  destruct R as [b R]. destruct (pm_retry_effect t m f n b R) as [_ X].
  destruct b; [right|left]; auto.
Qed.

Lemma edge_received_forward m a b :
  edge_ok m true a b = true -> (m = MExpired -> a = Waiting) ->
  a = b \/ rk a < rk b \/ b = Waiting.
Proof.
  (* the target b is all but fixed by the message: settle it before the source *)
  destruct m; cbn [edge_ok]; intros E X; try discriminate E;
    try rewrite (X eq_refl) in *; destruct b; try discriminate E;
    destruct a; try discriminate E; auto; right; left; apply Nat.ltb_lt; reflexivity.
Qed.

Lemma pm_received_forward t m n : wf t -> (m = MExpired -> st t = Waiting) ->
  let t' := fst (process_message t m Received n) in
  st t' = st t \/ rk (st t) < rk (st t') \/ st t' = Waiting.
Proof.
  intros W X. cbn zeta. destruct (pm_edges t m Received n W) as [E|E]; [left; exact E|].
  destruct (edge_received_forward _ _ _ E X) as [H|[H|H]]; auto.
Qed.

Definition lifecycle_edge (a b : status) : bool :=
  ((rk a <? rk b) || (status_eqb a Submitted && status_eqb b SubmitFailed))
  && (negb (status_eqb b Expired) || status_eqb a Waiting)
  && (negb (status_eqb b SubmitFailed) || status_eqb a Preparing || status_eqb a Submitted).
Definition pre_start (a : status) : bool := status_eqb a Preparing || status_eqb a Submitted.
(* expiry is raised for waiting tasks only; submission failure is reported by the
   submit command or a poll (not by the job) while the job has not started; a
   polled/internal started or failed does not contradict a finished state *)
Definition env_msg (m : msg) (r : bool) (a : status) : bool :=
  match m with
  | MExpired => status_eqb a Waiting
  | MSubFail => negb r && pre_start a
  | MStarted => r || (rk a <=? rk Running)
  | MFailed => r || negb (status_eqb a Succeeded)
  | _ => true
  end.
Definition env_ok (t : task) (o : op) : bool :=
  match o with
  | OpPrep => true
  | OpSubRes ok => ok || pre_start (st t)
  | OpMsg m f _ => env_msg m (flag_received f) (st t)
  end.

Lemma edge_lifecycle m r a b :
  edge_ok m r a b = true -> env_msg m r a = true ->
  a = b \/ lifecycle_edge a b = true \/ b = Waiting.
Proof.
  destruct m; cbn [edge_ok env_msg]; intros E X; try discriminate E;
    destruct b; try discriminate E; destruct r; try discriminate X;
    destruct a; try discriminate E; try discriminate X; auto.
Qed.

Lemma step_lifecycle t o : wf t -> env_ok t o = true ->
  let t' := fst (step t o) in
  st t' = st t \/ lifecycle_edge (st t) (st t') = true \/ st t' = Waiting.
Proof.
  intros W X. cbn zeta. destruct (step_edges t o W) as [E|E]; [left; exact E|].
  destruct o as [|ok|m f rel]; cbn [op_edge env_ok] in *.
  - apply andb_true_iff in E. destruct E as [E1 E2].
    apply status_eqb_eq in E1. apply status_eqb_eq in E2. rewrite E1, E2. right. left. reflexivity.
  - destruct ok.
    + destruct (edge_lifecycle MSubmitted false _ _ E eq_refl) as [H|[H|H]]; auto.
    + cbn [orb] in X. destruct (edge_lifecycle MSubFail false _ _ E X) as [H|[H|H]]; auto.
  - destruct (edge_lifecycle m _ _ _ E X) as [H|[H|H]]; auto.
Qed.

(* without the environment hypothesis the lifecycle statement is false:
   a poll result 'started' processed after the received 'succeeded' *)
Definition late_poll_pre : list op :=
  [OpPrep; OpMsg MStarted Received 0%Z; OpMsg MSucceeded Received 0%Z].
Definition late_poll_op : op := OpMsg MStarted Polled 0%Z.
Lemma late_poll_regresses :
  let t := final (fresh 0 0 0) late_poll_pre in
  st t = Succeeded /\ st (fst (step t late_poll_op)) = Running.
Proof. vm_compute. auto. Qed.

Lemma pm_stale t m n : n <> Z.of_nat (sn t) -> process_message t m Received n = (t, []).
Proof.
  intros N. apply pm_ignored. rewrite check_eq. unfold stale. cbn [flag_received andb].
  apply Z.eqb_neq in N. rewrite N. reflexivity.
Qed.

Lemma pm_retry_window t m f n :
  st t = Waiting -> retry_lined_up t = true -> m <> MExpired ->
  process_message t m f n = (t, []).
Proof.
  intros S L N. apply pm_ignored. rewrite check_eq. unfold blocked. rewrite S, L.
  destruct m; try apply andb_false_r. congruence.
Qed.

(* a backward message finds 'submitted' (and, where it matters, 'started')
   complete: nothing is implied and nothing is newly completed *)
Lemma pm_backward_polls t m : wf t -> backward m (st t) = true ->
  process_message t m Received (Z.of_nat (sn t)) = (t, [EPoll]).
Proof.
  intros W B.
  assert (C : check t m Received (Z.of_nat (sn t)) = true).
  { rewrite check_eq. unfold stale, blocked. rewrite Z.eqb_refl.
    destruct (status_eqb (st t) Waiting) eqn:E; [|reflexivity].
    apply status_eqb_eq in E. rewrite E in B. destruct m; discriminate B. }
  assert (Hs : hs t = true /\ add1 OSubmitted (outs t) = outs t).
  { assert (I : hs t = true).
    { apply hs_In, (wf_hs t W). destruct m; try discriminate B; destruct (st t); try discriminate B; apply Nat.leb_le; reflexivity. }
    split; [exact I|apply add1_idem; exact I]. }
  assert (Ht : rk Running <= rk (st t) -> ht t = true /\ add1 OStarted (outs t) = outs t).
  { intros R. assert (I : ht t = true) by (apply ht_In, (wf_ht t W R)).
    split; [exact I|apply add1_idem; exact I]. }
  destruct Hs as [H1 A1].
  rewrite pm_closed_eq. unfold pm_closed. rewrite C. cbn [negb flag_received].
  destruct m; try discriminate B; cbn [backward] in B;
    cbn [ctl_next adds eff_next ctl_of c_st c_exec c_sub andb].
  - rewrite B. cbn [c_st c_exec c_sub addl fold_left]. rewrite A1, upd_eta. reflexivity.
  - destruct Ht as [H2 A2]; [apply Nat.ltb_lt in B; lia|]. rewrite H1. cbn iota. rewrite B.
    cbn [c_st c_exec c_sub addl fold_left app]. rewrite A2, A1, upd_eta. reflexivity.
  - destruct Ht as [H2 A2]; [apply Nat.ltb_lt in B; cbn in *; lia|].
    unfold fail_final, imp_eff, mid_st, mid_sub. rewrite H1, H2. cbn iota. rewrite B.
    cbn [c_st c_exec c_sub addl fold_left app negb andb]. rewrite A1, A2, upd_eta. reflexivity.
  - unfold subfail_final. rewrite B.
    cbn [c_st c_exec c_sub addl fold_left app negb andb]. rewrite upd_eta. reflexivity.
Qed.

(* a poll is requested only for a received, current, backward message *)
Lemma pm_poll_only_backward t m f n : wf t ->
  In EPoll (snd (process_message t m f n)) ->
  flag_received f = true /\ n = Z.of_nat (sn t) /\ backward m (st t) = true.
Proof.
  intros W. destruct (check t m f n) eqn:C; [|rewrite pm_ignored by exact C; intros []].
  destruct (pm_act t m f n C) as [_ ->]. intros H.
  apply In_acts in H. destruct H as [H|[H|H]]; try discriminate H.
  destruct (flag_received f && _) eqn:G; [|apply act_eff_inv in H; destruct H].
  apply andb_true_iff in G. destruct G as [F B].
  rewrite (refused_st t m W B) in B. repeat split; [exact F| |exact B].
  rewrite check_eq in C. unfold stale in C. rewrite F in C.
  destruct (n =? Z.of_nat (sn t))%Z eqn:E; [apply Z.eqb_eq; exact E|discriminate C].
Qed.
