(* Proofs/GraphMalformedProofs.v — C14: malformed graph text is never accepted
   by the model (it returns GErr = GraphParseError, or Unmod for inputs outside
   the modelled fragment; never Ok). *)
From Coq Require Import List Bool Arith String.
From Cylc Require Import Base.Util Gen.FamTables Model.GraphBase Model.GraphExpr Model.FamTrig
  Model.GraphParse Model.GraphAst.
Import ListNotations.

(* a pair that _proc_dep_pair must reject *)
Definition bad_pair (p : pair) : bool :=
  let lt := match fst p with Some l => l | None => [] end in
  let right := snd p in
  existsb is_or right                                             (* OR on the right *)
  || existsb is_bang lt                                           (* suicide on the left *)
  || negb (Nat.eqb (count_tok is_lp lt) (count_tok is_rp lt))     (* unbalanced ( ) on the left *)
  || negb (Nat.eqb (count_tok is_lp right) (count_tok is_rp right))   (* ... on the right *)
  || existsb is_nil (split_on is_and right)                       (* empty node on the right *)
  || match fst p with                                             (* empty node in a plain AND list *)
     | Some l => negb (existsb is_or l || existsb is_lp l) && existsb is_nil (split_on is_and l)
     | None => false
     end.

Lemma proc_pair_bad fm eoc st p : bad_pair p = true -> proc_pair fm eoc st p = GErr.
Proof.
  unfold bad_pair, proc_pair. destruct p as [lft right]. cbn [fst snd].
  set (lt := match lft with Some l => l | None => [] end).
  destruct (existsb is_or right); [reflexivity|].
  destruct (existsb is_bang lt); [reflexivity|].
  destruct (Nat.eqb (count_tok is_lp lt) (count_tok is_rp lt)); [|reflexivity].
  destruct (Nat.eqb (count_tok is_lp right) (count_tok is_rp right)); [|reflexivity].
  destruct (existsb is_nil (split_on is_and right)); [reflexivity|]. cbn [negb orb].
  destruct lft as [l|]; [|discriminate]. subst lt.
  destruct (existsb is_or l || existsb is_lp l) eqn:E1; cbn [negb andb]; [discriminate|].
  intros E2.
  destruct (is_nil l) eqn:En.
  - destruct l; [|discriminate]. reflexivity.
  - cbn [orb]. apply orb_false_iff in E1. destruct E1 as [Eo El]. rewrite Eo, El. cbn [orb]. now rewrite E2.
Qed.

Lemma fold_res_ok_in {A S} (f : S -> A -> res S) : forall l s s' x,
  fold_res f l s = Ok s' -> In x l -> exists s1 s2, f s1 x = Ok s2.
Proof.
  induction l as [|a r IH]; intros s s' x H Hin; [destruct Hin|].
  cbn [fold_res] in H. destruct (f s a) as [s1| |] eqn:E; cbn [bind] in H; try discriminate.
  destruct Hin as [<-|Hin]; [eauto|eapply IH; eauto].
Qed.

Theorem parse_lines_no_bad_pair fm full st :
  parse_lines fm full = Ok st ->
  forall p, In p (lines_pairs (dedup_first toks_eqb [] full)) -> bad_pair p = false.
Proof.
  unfold parse_lines. intros H p Hp.
  destruct (fold_res _ _ empty_state) as [st1| |] eqn:E; cbn [bind] in H; try discriminate.
  destruct (fold_res_ok_in _ _ _ _ p E Hp) as [s1 [s2 Hs]].
  destruct (bad_pair p) eqn:Eb; [|reflexivity]. rewrite (proc_pair_bad _ _ _ _ Eb) in Hs. discriminate.
Qed.

Lemma join_lines_dangling : forall nb first part,
  nb <> [] -> ends_cont (last nb []) = true -> join_lines first part nb = GErr.
Proof.
  induction nb as [|this rest IH]; [congruence|]. intros first part _ Hlast.
  cbn [join_lines]. destruct (first && starts_cont this); [reflexivity|].
  destruct rest as [|nxt rest'].
  - cbn [is_nil andb last] in *. now rewrite Hlast.
  - cbn [is_nil andb]. destruct (ends_cont this && starts_cont nxt); [reflexivity|].
    assert (Hr : forall f p, join_lines f p (nxt :: rest') = GErr)
      by (intros f p; apply IH; [discriminate|exact Hlast]).
    destruct ((ends_cont this || starts_cont nxt) && negb (ends_bad this || starts_bad nxt)).
    + apply Hr.
    + now rewrite Hr.
Qed.

(* everything an accepted text is guaranteed to be *)
Theorem parse_ok_wellformed fm text st :
  parse fm text = Ok st ->
  exists nb full,
    phys_lines text = Ok nb /\ join_lines true [] nb = Ok full
    /\ starts_cont (hd [] nb) = false                         (* no leading => & | *)
    /\ (nb <> [] -> ends_cont (last nb []) = false)           (* no dangling => & | *)
    /\ (forall l, In l full -> has_double is_and l = false /\ has_double is_or l = false)   (* no && || *)
    /\ (forall p, In p (lines_pairs (dedup_first toks_eqb [] full)) -> bad_pair p = false).
Proof.
  unfold parse. intros H.
  destruct (phys_lines text) as [nb| |] eqn:Ep; cbn [bind] in H; try discriminate.
  destruct (join_lines true [] nb) as [full| |] eqn:Ej; cbn [bind] in H; try discriminate.
  destruct (check_lines full) as [u| |] eqn:Ec; cbn [bind] in H; try discriminate.
  exists nb, full. split; [reflexivity|]. split; [exact Ej|]. split; [|split; [|split]].
  - destruct nb as [|this rest]; [reflexivity|]. cbn [hd]. cbn [join_lines] in Ej.
    destruct (starts_cont this); [discriminate|reflexivity].
  - intros Hne. destruct (ends_cont (last nb [])) eqn:E; [|reflexivity].
    rewrite (join_lines_dangling nb true [] Hne E) in Ej. discriminate.
  - intros l Hl. unfold check_lines in Ec.
    destruct (existsb (fun l => has_double is_and l || has_double is_or l) full) eqn:Ee; [discriminate|].
    pose proof (proj1 (existsb_false _ _) Ee l Hl) as Hx.
    now apply orb_false_iff in Hx.
  - now apply (parse_lines_no_bad_pair fm full st).
Qed.
