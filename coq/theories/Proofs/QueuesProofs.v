(* Proofs/QueuesProofs.v — lemmas about Model/Queues.v (C05): the release loop
   of one queue by the four ways an iteration can go; release_tasks over all
   queues and the invariant [wf] of every op; _make_indep puts every name in
   the queue that [owner] names, also on the config that __init__ prepares
   ([prepared], [init_state_reachable_wf]). *)
From Coq Require Import List Bool Arith Lia Permutation.
From Cylc Require Import Base.Util Model.Queues.
Import ListNotations.

Lemma mem_nat_spec x l : reflect (In x l) (mem Nat.eqb x l).
Proof. apply iff_reflect. symmetry. apply mem_nat_In. Qed.

Lemma In_snoc_other {A} (x y : A) l : x <> y -> (In x (l ++ [y]) <-> In x l).
Proof. rewrite In_snoc. tauto. Qed.

Lemma In_rm t x l : In t (rm x l) <-> In t l /\ t <> x.
Proof.
  unfold rm. rewrite filter_In. rewrite negb_true_iff, Nat.eqb_neq. tauto.
Qed.

Lemma In_set_add t x l : In t (set_add x l) <-> In t l \/ t = x.
Proof.
  unfold set_add. destruct (mem_nat_spec x l) as [E|E].
  - split; [tauto|]. intros [H| ->]; auto.
  - rewrite in_app_iff. cbn. intuition.
Qed.

Lemma NoDup_set_add x l : NoDup l -> NoDup (set_add x l).
Proof.
  intros H. unfold set_add. destruct (mem_nat_spec x l) as [_|E]; [exact H|].
  apply NoDup_snoc; assumption.
Qed.

Lemma NoDup_rm x l : NoDup l -> NoDup (rm x l).
Proof. apply NoDup_filter. Qed.

Definition nonheld (held : list nat) (t : task) : bool := negb (is_held held t).

(* LimitedTaskQueue.release, by what an iteration of its loop does: the deque is
   empty; the limit is reached; a held task is passed over; a task is released *)
Lemma pop_loop_ind limit held (P : nat -> list task -> list task -> list task -> list task -> Prop) :
  (forall n, P n [] [] [] []) ->
  (forall n dq, limit <> 0 -> limit <= n -> P n dq [] [] dq) ->
  (forall n t r rel h rest, limit = 0 \/ n < limit -> is_held held t = true ->
     P n r rel h rest -> P n (t :: r) rel (t :: h) rest) ->
  (forall n t r rel h rest, limit = 0 \/ n < limit -> is_held held t = false ->
     P (S n) r rel h rest -> P n (t :: r) (t :: rel) h rest) ->
  forall dq n rel h rest, pop_loop limit n held dq = (rel, h, rest) -> P n dq rel h rest.
Proof.
  intros Hnil Hstop Hheld Hrel. induction dq as [|t r IH]; intros n rel h rest; cbn [pop_loop].
  - intros [= <- <- <-]. apply Hnil.
  - destruct (Nat.eqb limit 0 || Nat.ltb n limit) eqn:G.
    + apply orb_true_iff in G. rewrite Nat.eqb_eq, Nat.ltb_lt in G.
      destruct (is_held held t) eqn:Eh.
      * destruct (pop_loop limit n held r) as [[rel' h'] rest'] eqn:E.
        intros [= <- <- <-]. apply Hheld; auto.
      * destruct (pop_loop limit (S n) held r) as [[rel' h'] rest'] eqn:E.
        intros [= <- <- <-]. apply Hrel; auto.
    + apply orb_false_iff in G. destruct G as [G1 G2]. apply Nat.eqb_neq in G1. apply Nat.ltb_ge in G2.
      intros [= <- <- <-]. apply Hstop; assumption.
Qed.

(* the loop pops a prefix; the released tasks are the non-held ones of that
   prefix, the passed-over ones the held ones *)
Lemma pop_loop_split limit held : forall dq n rel h rest,
  pop_loop limit n held dq = (rel, h, rest) ->
  exists popped, dq = popped ++ rest
    /\ rel = filter (nonheld held) popped
    /\ h = filter (is_held held) popped.
Proof.
  apply pop_loop_ind.
  - exists []. auto.
  - exists []. auto.
  - intros n t r rel h rest _ Eh [p (-> & -> & ->)]. exists (t :: p). cbn. unfold nonheld. rewrite Eh. auto.
  - intros n t r rel h rest _ Eh [p (-> & -> & ->)]. exists (t :: p). cbn. unfold nonheld. rewrite Eh. auto.
Qed.
Arguments pop_loop_split {limit held dq n rel h rest}.

(* all non-held tasks for an unlimited queue, else the first (limit - n) of
   them, in queue order *)
Lemma pop_loop_released limit held : forall dq n rel h rest,
  pop_loop limit n held dq = (rel, h, rest) ->
  rel = if Nat.eqb limit 0 then filter (nonheld held) dq
        else firstn (limit - n) (filter (nonheld held) dq).
Proof.
  apply pop_loop_ind.
  - intros n. rewrite firstn_nil. now destruct (Nat.eqb limit 0).
  - intros n dq Hl Hn. apply Nat.eqb_neq in Hl. rewrite Hl. now replace (limit - n) with 0 by lia.
  - intros n t r rel h rest _ Eh IH. cbn [filter].
    change (nonheld held t) with (negb (is_held held t)). rewrite Eh. exact IH.
  - intros n t r rel h rest Hg Eh ->. cbn [filter].
    change (nonheld held t) with (negb (is_held held t)). rewrite Eh. cbn [negb].
    destruct (Nat.eqb_spec limit 0); [reflexivity|].
    now replace (limit - n) with (S (limit - S n)) by lia.
Qed.
Arguments pop_loop_released {limit held dq n rel h rest}.

Lemma pop_loop_maximal limit held : forall dq n rel h rest,
  pop_loop limit n held dq = (rel, h, rest) ->
  rest = [] \/ (limit <> 0 /\ limit <= n + length rel).
Proof.
  apply pop_loop_ind; auto.
  - intros n dq Hl Hn. right. cbn. split; [exact Hl|lia].
  - intros n t r rel h rest _ _ [IH|[Hl IH]]; [now left|right]. cbn [length]. split; [exact Hl|lia].
Qed.
Arguments pop_loop_maximal {limit held dq n rel h rest}.

(* the limit: a limited queue never takes the count above max(limit, before) *)
Lemma pop_loop_limit limit held : limit <> 0 -> forall dq n rel h rest,
  pop_loop limit n held dq = (rel, h, rest) ->
  n + length rel <= Nat.max limit n.
Proof.
  intros Hl dq n rel h rest E. rewrite (pop_loop_released E).
  apply Nat.eqb_neq in Hl. rewrite Hl, firstn_length. lia.
Qed.

Corollary pop_loop_unlimited held dq n :
  pop_loop 0 n held dq = (filter (nonheld held) dq, filter (is_held held) dq, []).
Proof.
  destruct (pop_loop 0 n held dq) as [[rel h] rest] eqn:E.
  destruct (pop_loop_split E) as (p & -> & -> & ->).
  destruct (pop_loop_maximal E) as [->|[H _]]; [|contradiction].
  now rewrite app_nil_r.
Qed.

Lemma filter_partition_perm {A} (f : A -> bool) l :
  Permutation l (filter (fun x => negb (f x)) l ++ filter f l).
Proof.
  induction l as [|x l IH]; cbn; [constructor|].
  destruct (f x); cbn.
  - apply Permutation_cons_app. exact IH.
  - now constructor.
Qed.

Lemma requeue_perm front h rest : Permutation (requeue front h rest) (h ++ rest).
Proof. destruct front; cbn; [reflexivity|apply Permutation_app_comm]. Qed.

Lemma pop_loop_conserves {limit held} front {dq n rel h rest} :
  pop_loop limit n held dq = (rel, h, rest) ->
  Permutation dq (rel ++ requeue front h rest).
Proof.
  intros E. destruct (pop_loop_split E) as [p [-> [-> ->]]].
  rewrite requeue_perm. rewrite app_assoc. apply Permutation_app_tail.
  apply (filter_partition_perm (is_held held) p).
Qed.

(* with the fix (front = true) the remaining queue is the old queue minus the
   released tasks, order untouched *)
Lemma pop_loop_order_fixed limit held dq n rel h rest :
  pop_loop limit n held dq = (rel, h, rest) ->
  exists popped, dq = popped ++ rest /\
    requeue true h rest = filter (is_held held) popped ++ rest /\
    rel = filter (nonheld held) popped.
Proof.
  intros E. destruct (pop_loop_split E) as [p [-> [-> ->]]].
  exists p. auto.
Qed.

Lemma count_incr n a m : count (incr n a) m = if Nat.eqb m n then S (count a m) else count a m.
Proof.
  unfold count. induction a as [|[k c] r IH]; cbn.
  - destruct (Nat.eqb_spec m n); reflexivity.
  - destruct (Nat.eqb_spec n k) as [->|Hnk]; cbn.
    + destruct (Nat.eqb_spec m k); reflexivity.
    + destruct (Nat.eqb_spec m k) as [->|Hmk].
      * destruct (Nat.eqb_spec k n); [congruence|reflexivity].
      * exact IH.
Qed.

Lemma n_active_incr M n a : n_active M (incr n a) = n_active M a + count_occ Nat.eq_dec M n.
Proof.
  unfold n_active, sum_nat. induction M as [|m M IH]; cbn; [reflexivity|].
  rewrite count_incr, IH. destruct (Nat.eqb_spec m n), (Nat.eq_dec m n); try contradiction; lia.
Qed.

Definition incr_all (rel : list task) (a : counter) : counter :=
  fold_left (fun a t => incr (t_name t) a) rel a.

(* each released task whose name occurs k times in M adds k to M's count *)
Lemma n_active_incr_all M k : forall rel a,
  Forall (fun t => count_occ Nat.eq_dec M (t_name t) = k) rel ->
  n_active M (incr_all rel a) = n_active M a + k * length rel.
Proof.
  intros rel a H. revert a. induction H as [|t r Ht _ IH]; intros a; cbn [length]; [cbn; lia|].
  change (incr_all (t :: r) a) with (incr_all r (incr (t_name t) a)).
  rewrite IH, n_active_incr, Ht. lia.
Qed.

Definition deque_ok (q : queue) : Prop :=
  Forall (fun t => In (t_name t) (q_members q)) (q_deque q).

Lemma Forall_filter {A} (P : A -> Prop) f l : Forall P l -> Forall P (filter f l).
Proof. apply incl_Forall, incl_filter. Qed.

Lemma release_queue_inv {front held q a rel q' a'} :
  release_queue front held q a = (rel, q', a') ->
  exists h rest,
    pop_loop (q_limit q) (n_active (q_members q) a) held (q_deque q) = (rel, h, rest)
    /\ q' = set_deque q (requeue front h rest) /\ a' = incr_all rel a.
Proof.
  unfold release_queue.
  destruct (pop_loop (q_limit q) (n_active (q_members q) a) held (q_deque q)) as [[r h] rest].
  intros [= <- <- <-]. eauto.
Qed.

Lemma release_queue_conserves {front held q a rel q' a'} :
  release_queue front held q a = (rel, q', a') -> Permutation (q_deque q) (rel ++ q_deque q').
Proof.
  intros E. destruct (release_queue_inv E) as (h & rest & Ep & -> & _).
  exact (pop_loop_conserves front Ep).
Qed.

Lemma release_queue_ok {front held q a rel q' a'} :
  release_queue front held q a = (rel, q', a') -> deque_ok q ->
  Forall (fun t => In (t_name t) (q_members q)) rel /\ deque_ok q'.
Proof.
  intros E Hok. pose proof (release_queue_conserves E) as Hp.
  destruct (release_queue_inv E) as (h & rest & _ & -> & _).
  apply Forall_app. exact (Permutation_Forall Hp Hok).
Qed.

Lemma release_queue_limit front held q a rel q' a' :
  release_queue front held q a = (rel, q', a') ->
  deque_ok q -> NoDup (q_members q) -> q_limit q <> 0 ->
  n_active (q_members q) a' <= Nat.max (q_limit q) (n_active (q_members q) a).
Proof.
  intros E Hok Hnd Hl. destruct (release_queue_ok E Hok) as [Hrel _].
  destruct (release_queue_inv E) as (h & rest & Ep & _ & ->).
  rewrite (n_active_incr_all _ 1), Nat.mul_1_l; [eapply pop_loop_limit; eauto|].
  eapply Forall_impl; [|exact Hrel]. intros t Ht. apply NoDup_count_occ'; assumption.
Qed.

Definition disjoint (a b : list name) : Prop := forall x, In x a -> ~ In x b.

Fixpoint pairwise_disjoint (qs : list queue) : Prop :=
  match qs with
  | [] => True
  | q :: r => (forall q', In q' r -> disjoint (q_members q) (q_members q')) /\ pairwise_disjoint r
  end.

Record wf (qs : list queue) : Prop := {
  wf_names : NoDup (map q_name qs);
  wf_nodup : Forall (fun q => NoDup (q_members q)) qs;
  wf_deque : Forall deque_ok qs;
  wf_disj : pairwise_disjoint qs
}.

(* a release by a queue sharing no member with M leaves M's active count alone *)
Lemma release_queue_foreign front held q a rel q' a' M :
  release_queue front held q a = (rel, q', a') ->
  deque_ok q -> disjoint M (q_members q) ->
  n_active M a' = n_active M a.
Proof.
  intros E Hok Hd. destruct (release_queue_ok E Hok) as [Hrel _].
  destruct (release_queue_inv E) as (h & rest & _ & _ & ->).
  rewrite (n_active_incr_all M 0); [apply Nat.add_0_r|]. eapply Forall_impl; [|exact Hrel].
  intros t Ht. apply count_occ_not_In. intros Hin. exact (Hd _ Hin Ht).
Qed.

Lemma release_all_foreign front held M : forall qs a rel qs' a',
  release_all front held qs a = (rel, qs', a') ->
  Forall deque_ok qs ->
  (forall q, In q qs -> disjoint M (q_members q)) ->
  n_active M a' = n_active M a.
Proof.
  induction qs as [|q r IH]; intros a rel qs' a'; cbn [release_all].
  - now intros [= _ _ <-].
  - destruct (release_queue front held q a) as [[rel1 q1] a1] eqn:E1.
    destruct (release_all front held r a1) as [[rel2 r2] a2] eqn:E2.
    intros [= _ _ <-] Hok Hd. inversion Hok; subst.
    rewrite (IH _ _ _ _ E2) by auto using in_cons.
    eapply release_queue_foreign; eauto using in_eq.
Qed.

(* IndepQueueManager.release_tasks respects every queue's limit *)
Lemma release_all_limit front held : forall qs a rel qs' a',
  release_all front held qs a = (rel, qs', a') ->
  wf qs ->
  forall q, In q qs -> q_limit q <> 0 ->
  n_active (q_members q) a' <= Nat.max (q_limit q) (n_active (q_members q) a).
Proof.
  induction qs as [|q0 r IH]; intros a rel qs' a' E W q Hin Hl; [destruct Hin|].
  cbn [release_all] in E.
  destruct (release_queue front held q0 a) as [[rel1 q1] a1] eqn:E1.
  destruct (release_all front held r a1) as [[rel2 r2] a2] eqn:E2.
  injection E as <- <- <-.
  destruct W as [Wn Wnd Wdq [Hd0 Hdr]].
  inversion Wn; inversion Wnd; inversion Wdq; subst.
  destruct Hin as [<-|Hin].
  - (* the head queue: later queues do not touch its members *)
    rewrite (release_all_foreign _ _ _ _ _ _ _ _ E2) by assumption.
    eapply release_queue_limit; eauto.
  - (* a later queue: the head's releases do not touch its members *)
    rewrite <- (release_queue_foreign _ _ _ _ _ _ _ (q_members q) E1); [|assumption|].
    + apply (IH _ _ _ _ E2); [constructor| |]; assumption.
    + intros x Hx Hx0. exact (Hd0 _ Hin _ Hx0 Hx).
Qed.

Lemma pairwise_disjoint_ext qs qs' :
  map q_members qs' = map q_members qs -> pairwise_disjoint qs -> pairwise_disjoint qs'.
Proof.
  revert qs'. induction qs as [|q r IH]; intros [|q' r']; cbn; try discriminate; auto.
  intros [= Hm Hr] [Hd Hp]. split; [|auto].
  intros q2 Hq2. rewrite Hm.
  apply (in_map q_members) in Hq2. rewrite Hr in Hq2. apply in_map_iff in Hq2.
  destruct Hq2 as [q3 [<- Hq3]]. auto.
Qed.

(* [wf] only looks at names, memberships and whether queued tasks are members:
   what push, remove and release leave alone or keep true *)
Definition same_shape (qs qs' : list queue) : Prop :=
  map q_name qs' = map q_name qs /\ map q_members qs' = map q_members qs /\ Forall deque_ok qs'.

Lemma wf_same_shape qs qs' : same_shape qs qs' -> wf qs -> wf qs'.
Proof.
  intros (Hn & Hm & Hok) [Wn Wnd Wdq Wdj]. constructor.
  - now rewrite Hn.
  - apply Forall_map with (f := q_members) (P := @NoDup name). rewrite Hm. now apply Forall_map.
  - exact Hok.
  - eapply pairwise_disjoint_ext; eauto.
Qed.

Lemma same_shape_refl qs : Forall deque_ok qs -> same_shape qs qs.
Proof. now repeat split. Qed.

Lemma same_shape_cons q q' r r' :
  q_name q' = q_name q -> q_members q' = q_members q -> deque_ok q' ->
  same_shape r r' -> same_shape (q :: r) (q' :: r').
Proof.
  intros Hn Hm Hok (H1 & H2 & H3). repeat split; cbn; try congruence. now constructor.
Qed.

Lemma push_queue_ok t q : deque_ok q -> deque_ok (push_queue t q).
Proof.
  unfold push_queue, deque_ok. destruct (mem_nat_spec (t_name t) (q_members q)) as [E|_]; [|auto].
  cbn. intros H. apply Forall_app. auto.
Qed.

Lemma push_shape t qs : Forall deque_ok qs -> same_shape qs (map (push_queue t) qs).
Proof.
  induction 1 as [|q r Hq Hr IH]; cbn [map]; [now apply same_shape_refl|].
  apply same_shape_cons; [| |now apply push_queue_ok|exact IH];
    unfold push_queue; now destruct (mem _ _ _).
Qed.

Lemma push_if_limited_shape t a qs :
  Forall deque_ok qs -> same_shape qs (snd (push_if_limited t a qs)).
Proof.
  induction 1 as [|q r Hq Hr IH]; cbn [push_if_limited snd]; [now apply same_shape_refl|].
  destruct (negb _ && _ && mem Nat.eqb (t_name t) (q_members q)) eqn:C.
  - apply andb_true_iff, proj2, mem_nat_In in C.
    apply same_shape_cons; try reflexivity; [|now apply same_shape_refl].
    apply Forall_app. auto.
  - destruct (push_if_limited t a r) as [b r']. now apply same_shape_cons.
Qed.

Lemma remove_last_sub id : forall dq dq', remove_last id dq = Some dq' -> incl dq' dq.
Proof.
  induction dq as [|x r IH]; intros dq'; cbn; [discriminate|].
  destruct (remove_last id r) as [r'|] eqn:E.
  - intros [= <-]. apply incl_cons; [apply in_eq|]. apply incl_tl. now apply IH.
  - destruct (Nat.eqb (t_id x) id); [|discriminate]. intros [= <-]. apply incl_tl, incl_refl.
Qed.

Lemma remove_task_shape id qs : Forall deque_ok qs -> same_shape qs (snd (remove_task id qs)).
Proof.
  induction 1 as [|q r Hq Hr IH]; cbn [remove_task snd]; [now apply same_shape_refl|].
  destruct (remove_last id (q_deque q)) as [dq|] eqn:C.
  - apply same_shape_cons; try reflexivity; [|now apply same_shape_refl].
    exact (incl_Forall (remove_last_sub _ _ _ C) Hq).
  - destruct (remove_task id r) as [b r']. now apply same_shape_cons.
Qed.

Lemma release_all_shape front held qs a :
  Forall deque_ok qs -> same_shape qs (snd (fst (release_all front held qs a))).
Proof.
  intros H. revert a. induction H as [|q r Hq Hr IH]; intros a; cbn [release_all fst snd];
    [now apply same_shape_refl|].
  destruct (release_queue front held q a) as [[rel1 q1] a1] eqn:E1.
  specialize (IH a1). destruct (release_all front held r a1) as [[rel2 r2] a2].
  destruct (release_queue_ok E1 Hq) as [_ Hq1].
  destruct (release_queue_inv E1) as (h & rest & _ & -> & _).
  now apply same_shape_cons.
Qed.

(* in pairwise disjoint queues a shared member means the same queue *)
Lemma pairwise_disjoint_unique qs : pairwise_disjoint qs -> forall q1 q2 x,
  In q1 qs -> In q2 qs -> In x (q_members q1) -> In x (q_members q2) -> q1 = q2.
Proof.
  induction qs as [|q r IH]; cbn; [intros _ ? ? ? []|].
  intros [Hd Hp] q1 q2 x H1 H2 M1 M2.
  destruct H1 as [<-|H1], H2 as [<-|H2]; eauto.
  - destruct (Hd _ H2 _ M1 M2).
  - destruct (Hd _ H1 _ M2 M1).
Qed.

(* with distinct names it is enough that a shared member means the same name *)
Lemma pairwise_disjoint_intro qs :
  NoDup (map q_name qs) ->
  (forall q1 q2 x, In q1 qs -> In q2 qs ->
     In x (q_members q1) -> In x (q_members q2) -> q_name q1 = q_name q2) ->
  pairwise_disjoint qs.
Proof.
  induction qs as [|q r IH]; cbn; [auto|].
  intros Hn Hu. inversion Hn as [|? ? Hq Hr]; subst. split.
  - intros q' Hq' x Hx Hx'. apply Hq. rewrite (Hu q q' x); auto using in_map.
  - apply IH; [exact Hr|]. intros q1 q2 x H1 H2. apply Hu; now right.
Qed.

(* adopt_tasks: precondition — the orphans are not members of another queue *)
Definition adopt_ok (orphans : list name) (qs : list queue) : Prop :=
  forall q, In q qs -> q_name q <> q_default -> forall x, In x orphans -> ~ In x (q_members q).

Definition op_ok (qs : list queue) (o : op) : Prop :=
  match o with OAdopt os => adopt_ok os qs | _ => True end.

Lemma In_fold_set_add os : forall l x,
  In x (fold_left (fun acc o => set_add o acc) os l) <-> In x l \/ In x os.
Proof.
  induction os as [|o r IH]; intros l x; cbn; [tauto|].
  rewrite IH, In_set_add. intuition congruence.
Qed.

Lemma NoDup_fold_set_add os l : NoDup l -> NoDup (fold_left (fun acc o => set_add o acc) os l).
Proof. apply fold_left_inv. intros acc o _. apply NoDup_set_add. Qed.

Lemma adopt_wf os qs : wf qs -> adopt_ok os qs -> wf (adopt os qs).
Proof.
  intros [Wn Wnd Wdq Wdj] Hok.
  assert (Hname : map q_name (adopt os qs) = map q_name qs).
  { unfold adopt. rewrite map_map. apply map_ext. intros q. destruct (Nat.eqb _ _); reflexivity. }
  constructor.
  - now rewrite Hname.
  - apply Forall_map. eapply Forall_impl; [|exact Wnd]. intros q Hq.
    destruct (Nat.eqb _ _); cbn; [now apply NoDup_fold_set_add|exact Hq].
  - apply Forall_map. eapply Forall_impl; [|exact Wdq]. intros q Hq.
    destruct (Nat.eqb _ _); [|exact Hq]. eapply Forall_impl; [|exact Hq].
    intros t Ht. apply In_fold_set_add. now left.
  - apply pairwise_disjoint_intro; [now rewrite Hname|].
    intros q1' q2' x H1 H2. apply in_map_iff in H1, H2.
    destruct H1 as [q1 [<- H1]], H2 as [q2 [<- H2]].
    assert (Hu : In x (q_members q1) -> In x (q_members q2) -> q_name q1 = q_name q2).
    { intros M1 M2. f_equal. exact (pairwise_disjoint_unique _ Wdj _ _ _ H1 H2 M1 M2). }
    destruct (Nat.eqb_spec (q_name q1) q_default) as [E1|E1],
             (Nat.eqb_spec (q_name q2) q_default) as [E2|E2]; cbn.
    + congruence.
    + rewrite In_fold_set_add. intros [M1|O] M2; [auto|destruct (Hok q2 H2 E2 x O M2)].
    + rewrite In_fold_set_add. intros M1 [M2|O]; [auto|destruct (Hok q1 H1 E1 x O M1)].
    + exact Hu.
Qed.

Theorem step_wf front st o :
  wf (st_queues st) -> op_ok (st_queues st) o -> wf (st_queues (fst (step front st o))).
Proof.
  intros W Hok. pose proof (wf_deque _ W) as Wdq.
  destruct o as [t|t a|a|id|id b|os]; cbn [step].
  - exact (wf_same_shape _ _ (push_shape t _ Wdq) W).
  - pose proof (push_if_limited_shape t a _ Wdq) as H.
    destruct (push_if_limited t a (st_queues st)) as [b qs]. exact (wf_same_shape _ _ H W).
  - pose proof (release_all_shape front (st_held st) _ a Wdq) as H.
    destruct (release_all front (st_held st) (st_queues st) a) as [[rel qs] a'].
    exact (wf_same_shape _ _ H W).
  - pose proof (remove_task_shape id _ Wdq) as H.
    destruct (remove_task id (st_queues st)) as [b qs]. exact (wf_same_shape _ _ H W).
  - exact W.
  - now apply adopt_wf.
Qed.

(* histories: every op admissible in the state it is applied to *)
Fixpoint ops_ok (front : bool) (st : state) (ops : list op) : Prop :=
  match ops with
  | [] => True
  | o :: r => op_ok (st_queues st) o /\ ops_ok front (fst (step front st o)) r
  end.

Theorem run_wf front : forall ops st,
  wf (st_queues st) -> ops_ok front st ops -> wf (st_queues (run front st ops)).
Proof.
  induction ops as [|o r IH]; intros st W H; cbn; [exact W|].
  destruct H as [H1 H2]. apply IH; [|exact H2]. now apply step_wf.
Qed.

Definition mems (qs : qconfig) (q : qname) : list name :=
  match assoc Nat.eqb q qs with Some c => qc_members c | None => [] end.

(* specification: the last non-default queue listing t ... *)
Fixpoint owner_nd (qs : qconfig) (t : name) : option qname :=
  match qs with
  | [] => None
  | (q, c) :: r =>
      match owner_nd r t with
      | Some q' => Some q'
      | None => if negb (Nat.eqb q q_default) && mem Nat.eqb t (qc_members c) then Some q else None
      end
  end.
(* ... else the default queue (if it lists t: it lists every task name) *)
Definition owner (qs : qconfig) (t : name) : option qname :=
  match owner_nd qs t with
  | Some q => Some q
  | None => if mem Nat.eqb t (mems qs q_default) then Some q_default else None
  end.

Lemma has_queue_In q (qs : qconfig) : has_queue q qs = true <-> In q (map fst qs).
Proof.
  unfold has_queue. induction qs as [|[k c] r IH]; cbn; [split; [discriminate|tauto]|].
  destruct (Nat.eqb_spec q k) as [->|Hne]; [tauto|].
  rewrite IH. split; [auto|]. intros [H|H]; [congruence|exact H].
Qed.

Lemma mems_notin (qs : qconfig) q0 : ~ In q0 (map fst qs) -> mems qs q0 = [].
Proof.
  intros H. unfold mems. destruct (assoc Nat.eqb q0 qs) eqn:E; [|reflexivity].
  exfalso. apply H. apply has_queue_In. unfold has_queue. now rewrite E.
Qed.

Lemma mems_snoc_old (qs : qconfig) e q0 : In q0 (map fst qs) -> mems (qs ++ [e]) q0 = mems qs q0.
Proof.
  intros H. apply has_queue_In in H. unfold mems, has_queue in *. rewrite assoc_app.
  now destruct (assoc Nat.eqb q0 qs).
Qed.

Lemma In_mems_snoc (qs : qconfig) q c q0 t : ~ In q (map fst qs) ->
  (In t (mems (qs ++ [(q, c)]) q0) <-> In t (mems qs q0) \/ (q0 = q /\ In t (qc_members c))).
Proof.
  intros Hq. unfold mems. rewrite assoc_app. cbn [assoc].
  destruct (assoc Nat.eqb q0 qs) eqn:E.
  - split; [auto|]. intros [H|[-> _]]; [exact H|].
    exfalso. apply Hq, has_queue_In. unfold has_queue. now rewrite E.
  - destruct (Nat.eqb_spec q0 q); cbn; tauto.
Qed.

Lemma mems_upd f q' qs q :
  mems (upd_members f q' qs) q =
    if Nat.eqb q q' && has_queue q qs then f (mems qs q) else mems qs q.
Proof.
  unfold mems, has_queue. induction qs as [|[k c] r IH]; cbn.
  - now rewrite andb_false_r.
  - destruct (Nat.eqb_spec k q') as [E1|Hk]; cbn.
    + subst k. destruct (Nat.eqb_spec q q') as [E2|Hq]; cbn; [reflexivity|].
      cbn in IH. exact IH.
    + destruct (Nat.eqb_spec q k) as [E2|Hq]; cbn.
      * subst k. destruct (Nat.eqb_spec q q'); [contradiction|reflexivity].
      * exact IH.
Qed.

Lemma names_upd f q qs : map fst (upd_members f q qs) = map fst qs.
Proof.
  unfold upd_members. rewrite map_map. apply map_ext. intros [k c]. cbn.
  destruct (Nat.eqb k q); reflexivity.
Qed.

Lemma has_queue_upd f q' qs q : has_queue q (upd_members f q' qs) = has_queue q qs.
Proof. apply eq_true_iff_eq. now rewrite !has_queue_In, names_upd. Qed.

Lemma In_mems_upd_rm x q' qs q0 t :
  In t (mems (upd_members (rm x) q' qs) q0) <-> In t (mems qs q0) /\ ~ (t = x /\ q0 = q').
Proof.
  rewrite mems_upd. destruct (Nat.eqb_spec q0 q') as [->|Hne]; cbn [andb]; [|tauto].
  destruct (has_queue q' qs) eqn:E; [rewrite In_rm; tauto|].
  unfold mems, has_queue in *. destruct (assoc Nat.eqb q' qs); [discriminate|]. cbn. tauto.
Qed.

Lemma In_mems_upd_add x q qs q0 t : has_queue q qs = true ->
  (In t (mems (upd_members (set_add x) q qs) q0) <-> In t (mems qs q0) \/ (t = x /\ q0 = q)).
Proof.
  intros H. rewrite mems_upd. destruct (Nat.eqb_spec q0 q) as [->|Hne]; cbn [andb]; [|tauto].
  rewrite H, In_set_add. tauto.
Qed.

Lemma In_mems_indep_step_other q qs seen x q0 t : t <> x ->
  (In t (mems (fst (indep_step q (qs, seen) x)) q0) <-> In t (mems qs q0)).
Proof.
  intros Hne. unfold indep_step. destruct (assoc Nat.eqb x seen) as [oldq|]; cbn [fst].
  - rewrite !In_mems_upd_rm. tauto.
  - rewrite mems_upd. destruct (_ && _); [rewrite In_set_add|]; rewrite In_mems_upd_rm; tauto.
Qed.

(* one pass of the inner loop body takes x out of default and out of the queue [seen] records for it:
   listed before at most by these and by q, it is afterwards listed by q alone *)
Lemma In_mems_indep_step_self q qs seen x :
  has_queue q qs = true -> q <> q_default -> assoc Nat.eqb x seen <> Some q -> In x (mems qs q) ->
  (forall q0, In x (mems qs q0) -> q0 = q \/ q0 = q_default \/ assoc Nat.eqb x seen = Some q0) ->
  forall q0, In x (mems (fst (indep_step q (qs, seen) x)) q0) <-> q0 = q.
Proof.
  intros H Hd Hs Hq Hat q0. unfold indep_step. destruct (assoc Nat.eqb x seen) as [oldq|]; cbn [fst].
  - rewrite !In_mems_upd_rm. split.
    + intros [[A N0] N]. destruct (Hat q0 A) as [E|[E|[= E]]]; [exact E|destruct N0; auto|destruct N; auto].
    + intros ->. split; [split; [exact Hq|tauto]|]. intros [_ E]. apply Hs. now rewrite E.
  - rewrite In_mems_upd_add, In_mems_upd_rm by now rewrite has_queue_upd. split.
    + intros [[A N0]|[_ E]]; [|exact E]. destruct (Hat q0 A) as [E|[E|E]]; [exact E|tauto|discriminate].
    + intros ->. now right.
Qed.

Lemma names_indep_step q st x : map fst (fst (indep_step q st x)) = map fst (fst st).
Proof.
  destruct st as [qs seen]. unfold indep_step. destruct (assoc Nat.eqb x seen); cbn [fst]; now rewrite !names_upd.
Qed.

Lemma owner_nd_snoc P q c t : q <> q_default ->
  owner_nd (P ++ [(q, c)]) t = if mem Nat.eqb t (qc_members c) then Some q else owner_nd P t.
Proof.
  intros Hq. apply Nat.eqb_neq in Hq. induction P as [|[k c'] r IH]; cbn.
  - rewrite Hq. now destruct (mem _ _ _).
  - rewrite IH. now destruct (mem Nat.eqb t (qc_members c)).
Qed.

Lemma owner_snoc P q c t : q <> q_default -> In q_default (map fst P) ->
  owner (P ++ [(q, c)]) t = if mem Nat.eqb t (qc_members c) then Some q else owner P t.
Proof.
  intros Hq Hd. unfold owner. rewrite owner_nd_snoc, mems_snoc_old by assumption.
  now destruct (mem Nat.eqb t (qc_members c)).
Qed.

Lemma owner_cases P t q0 : owner P t = Some q0 -> owner_nd P t = Some q0 \/ q0 = q_default.
Proof.
  unfold owner. destruct (owner_nd P t); [now left|].
  destruct (mem Nat.eqb t (mems P q_default)); [|discriminate]. intros [= <-]. now right.
Qed.

Lemma owner_nd_in P t q : owner_nd P t = Some q -> In q (map fst P) /\ q <> q_default.
Proof.
  induction P as [|[k c] r IH]; cbn; [discriminate|].
  destruct (owner_nd r t) as [q'|].
  - intros [= ->]. destruct (IH eq_refl). auto.
  - destruct (Nat.eqb_spec k q_default) as [|Hk]; cbn; [discriminate|].
    destruct (mem Nat.eqb t (qc_members c)); [|discriminate].
    intros [= <-]. auto.
Qed.

Section Inner.
  Variable P : qconfig.           (* queues processed before this one *)
  Variable q : qname.             (* the queue being processed *)
  Variable ms : list name.        (* its members *)
  Hypothesis Hq0 : q <> q_default.
  Hypothesis HqP : ~ In q (map fst P).

  (* after the members ms1: they are listed by q alone, the others where they were *)
  Record inner_inv (ms1 : list name) (st : qconfig * seen_map) : Prop := {
    ii_names : map fst (fst st) = map fst P ++ [q];
    ii_seen : forall t, assoc Nat.eqb t (snd st) = if mem Nat.eqb t ms1 then Some q else owner_nd P t;
    ii_mems : forall q0 t, In t (mems (fst st) q0) <->
                (q0 = q /\ In t ms) \/ (owner P t = Some q0 /\ ~ In t ms1)
  }.

  Lemma inner_step ms1 st x :
    inner_inv ms1 st -> In x ms -> ~ In x ms1 ->
    inner_inv (ms1 ++ [x]) (indep_step q st x).
  Proof.
    intros [Hn Hs Hm] Hx Hx1. destruct st as [qs seen]. cbn [fst snd] in *. constructor.
    - now rewrite names_indep_step.
    - intros t. cbn [snd indep_step assoc]. rewrite mem_app, Hs. cbn [mem].
      now destruct (Nat.eqb t x), (mem Nat.eqb t ms1).
    - intros q0 t. destruct (Nat.eq_dec t x) as [->|Hne].
      2: { rewrite In_mems_indep_step_other, Hm, In_snoc_other by exact Hne. reflexivity. }
      assert (Hsx : assoc Nat.eqb x seen = owner_nd P x).
      { rewrite Hs. destruct (mem_nat_spec x ms1); [contradiction|reflexivity]. }
      rewrite In_mems_indep_step_self, In_snoc; [| |exact Hq0| | |].
      { split; [intros ->; auto|intros [[E _]|[_ N]]; [exact E|destruct N; auto]]. }
      + apply has_queue_In. rewrite Hn, in_app_iff. right. now left.
      + rewrite Hsx. intros Eo. apply HqP, (owner_nd_in _ _ _ Eo).
      + apply Hm. left. auto.
      + intros q1 A. apply Hm in A. destruct A as [[E _]|[O _]]; [now left|right].
        rewrite Hsx. destruct (owner_cases _ _ _ O); auto.
  Qed.

  Lemma inner_loop : forall ms2 ms1 st,
    NoDup (ms1 ++ ms2) -> incl ms2 ms ->
    inner_inv ms1 st -> inner_inv (ms1 ++ ms2) (fold_left (indep_step q) ms2 st).
  Proof.
    induction ms2 as [|x r IH]; intros ms1 st Hnd Hsub Hinv; cbn [fold_left].
    - now rewrite app_nil_r.
    - apply incl_cons_inv in Hsub. destruct Hsub as [Hx Hr].
      pose proof (NoDup_remove_2 _ _ _ Hnd) as Hx1. rewrite in_app_iff in Hx1.
      rewrite (app_assoc ms1 [x] r : ms1 ++ x :: r = _) in *.
      apply IH; [exact Hnd|exact Hr|].
      apply inner_step; [exact Hinv|exact Hx|tauto].
  Qed.
End Inner.

(* after the queues P: [seen] and the memberships are what the specification
   says of P *)
Record outer_inv (P : qconfig) (st : qconfig * seen_map) : Prop := {
  oi_names : map fst (fst st) = map fst P;
  oi_seen : forall t, assoc Nat.eqb t (snd st) = owner_nd P t;
  oi_mems : forall q0 t, In t (mems (fst st) q0) <-> owner P t = Some q0
}.

Lemma inner_start P q c qs seen : ~ In q (map fst P) ->
  outer_inv P (qs, seen) -> inner_inv P q (qc_members c) [] (qs ++ [(q, c)], seen).
Proof.
  intros HqP [Hn Hs Hm]. cbn [fst snd] in *. constructor; cbn [fst snd mem].
  - rewrite map_app, Hn. reflexivity.
  - exact Hs.
  - intros q0 t. rewrite In_mems_snoc by (rewrite Hn; exact HqP). split.
    + intros [A|B]; [right; split; [apply Hm, A|intros []]|left; exact B].
    + intros [B|[O _]]; [right; exact B|left; apply Hm, O].
Qed.

Lemma outer_step P st e :
  In q_default (map fst P) -> ~ In (fst e) (map fst P) -> NoDup (qc_members (snd e)) ->
  outer_inv P st -> outer_inv (P ++ [e]) (indep_queue st e).
Proof.
  intros HdP HeP Hnd Hinv. destruct st as [qs seen], e as [q c]. cbn [fst snd] in *.
  assert (Hq0 : q <> q_default) by (intros ->; contradiction).
  unfold indep_queue. cbn [fst snd]. destruct (Nat.eqb_spec q q_default) as [|_]; [contradiction|].
  destruct (inner_loop P q (qc_members c) Hq0 HeP _ [] _ Hnd (incl_refl _) (inner_start P q c qs seen HeP Hinv))
    as [Hn' Hs' Hm'].
  cbn [app] in *. constructor.
  - rewrite Hn', map_app. reflexivity.
  - intros t. rewrite Hs'. symmetry. apply owner_nd_snoc, Hq0.
  - intros q0 t. rewrite owner_snoc by assumption. apply (iff_trans (Hm' q0 t)).
    destruct (mem_nat_spec t (qc_members c)) as [Ht|Ht].
    + split; [intros [[-> _]|[_ N]]; [reflexivity|contradiction]|intros [= <-]; left; auto].
    + split; [intros [[_ N]|[O _]]; [contradiction|exact O]|intros O; right; auto].
Qed.

Definition members_nodup (qs : qconfig) : Prop := Forall (fun e => NoDup (qc_members (snd e))) qs.

Lemma outer_loop : forall rest P st,
  In q_default (map fst P) -> NoDup (map fst (P ++ rest)) -> members_nodup rest ->
  outer_inv P st -> outer_inv (P ++ rest) (fold_left indep_queue rest st).
Proof.
  induction rest as [|e r IH]; intros P st HdP Hnd Hm Hinv; cbn [fold_left].
  - now rewrite app_nil_r.
  - inversion Hm; subst.
    assert (He : ~ In (fst e) (map fst P)).
    { rewrite map_app in Hnd. apply NoDup_remove_2 in Hnd. rewrite in_app_iff in Hnd. tauto. }
    rewrite (app_assoc P [e] r : P ++ e :: r = _) in *.
    apply IH; auto.
    + rewrite map_app, in_app_iff. now left.
    + now apply outer_step.
Qed.

Lemma make_indep_inv d rest :
  NoDup (map fst ((q_default, d) :: rest)) -> members_nodup rest ->
  outer_inv ((q_default, d) :: rest) (fold_left indep_queue ((q_default, d) :: rest) ([], [])).
Proof.
  (* the first pass, over default itself, only appends it: by computation *)
  intros Hnd Hm. apply (outer_loop rest [(q_default, d)]); [now left|exact Hnd|exact Hm|].
  constructor; cbn [fst snd app].
  - reflexivity.
  - reflexivity.
  - intros q0 t. unfold owner, mems. cbn.
    destruct (Nat.eqb_spec q0 q_default) as [->|]; destruct (mem_nat_spec t (qc_members d)); cbn;
      (split; [easy|auto; congruence]).
Qed.

Theorem make_indep_partition d rest :
  NoDup (map fst ((q_default, d) :: rest)) -> members_nodup rest ->
  forall q t, In t (mems (make_indep ((q_default, d) :: rest)) q) <-> owner ((q_default, d) :: rest) t = Some q.
Proof. intros Hnd Hm. exact (oi_mems _ _ (make_indep_inv d rest Hnd Hm)). Qed.

Lemma make_indep_names d rest :
  NoDup (map fst ((q_default, d) :: rest)) -> members_nodup rest ->
  map fst (make_indep ((q_default, d) :: rest)) = map fst ((q_default, d) :: rest).
Proof. intros H1 H2. exact (oi_names _ _ (make_indep_inv d rest H1 H2)). Qed.

(* _expand_families yields duplicate-free membership lists *)
Lemma expand_members_NoDup all d ms : NoDup (expand_members all d ms).
Proof.
  unfold expand_members. apply fold_left_inv; [|constructor]. intros acc m _ H.
  destruct (assoc Nat.eqb m d) as [fm|].
  - revert H. apply fold_left_inv. intros acc' f _ H.
    destruct (_ && _); [now apply NoDup_set_add|exact H].
  - destruct (mem Nat.eqb m all); [now apply NoDup_set_add|exact H].
Qed.

Lemma expand_families_NoDup all d qc : members_nodup (expand_families all d qc).
Proof. apply Forall_map, Forall_forall. intros e _. apply expand_members_NoDup. Qed.

Lemma expand_families_names all d qc : map fst (expand_families all d qc) = map fst qc.
Proof. unfold expand_families. rewrite map_map. reflexivity. Qed.

Lemma upd_members_nodup f q qs :
  (forall l, NoDup l -> NoDup (f l)) -> members_nodup qs -> members_nodup (upd_members f q qs).
Proof.
  intros Hf H. apply Forall_map. eapply Forall_impl; [|exact H].
  intros e He. destruct (Nat.eqb (fst e) q); cbn; auto.
Qed.

Lemma indep_step_nodup q st x : members_nodup (fst st) -> members_nodup (fst (indep_step q st x)).
Proof.
  destruct st as [qs seen]. cbn [fst]. intros H. unfold indep_step.
  destruct (assoc Nat.eqb x seen); cbn [fst];
    auto using upd_members_nodup, NoDup_rm, NoDup_set_add.
Qed.

Lemma make_indep_nodup inq : members_nodup inq -> members_nodup (make_indep inq).
Proof.
  intros H. unfold make_indep. apply fold_left_inv; [|constructor].
  intros [qs seen] e He Hst. unfold indep_queue.
  assert (H' : members_nodup (qs ++ [e])).
  { apply Forall_app. split; [exact Hst|]. constructor; [|constructor]. exact (proj1 (Forall_forall _ _) H e He). }
  destruct (Nat.eqb (fst e) q_default); [exact H'|].
  apply fold_left_inv; [|exact H']. intros st x _. apply indep_step_nodup.
Qed.

Lemma init_state_wf (qs : qconfig) :
  NoDup (map fst qs) -> members_nodup qs ->
  (forall e1 e2 t, In e1 qs -> In e2 qs ->
     In t (qc_members (snd e1)) -> In t (qc_members (snd e2)) -> fst e1 = fst e2) ->
  wf (st_queues (init_state qs)).
Proof.
  intros Hn Hnd Hu. unfold init_state. cbn [st_queues]. constructor.
  - now rewrite map_map.
  - apply Forall_map. exact Hnd.
  - apply Forall_map, Forall_forall. intros e _. constructor.
  - apply pairwise_disjoint_intro; [now rewrite map_map|].
    intros q1 q2 x H1 H2. apply in_map_iff in H1, H2.
    destruct H1 as [e1 [<- H1]], H2 as [e2 [<- H2]]. now apply Hu.
Qed.

Lemma mems_In (qs : qconfig) e : NoDup (map fst qs) -> In e qs -> mems qs (fst e) = qc_members (snd e).
Proof.
  unfold mems. induction qs as [|[k c] r IH]; cbn; [easy|].
  intros Hnd [<-|He]; cbn; [now rewrite Nat.eqb_refl|].
  inversion Hnd; subst. destruct (Nat.eqb_spec (fst e) k) as [<-|_]; [|auto].
  exfalso. auto using in_map.
Qed.

(* what IndepQueueManager.__init__ hands to _make_indep *)
Definition prepared (all : list name) (d : descendants) (c0 : qconf) (rest : qconfig) : qconfig :=
  expand_families all d
    ((q_default, {| qc_limit := qc_limit c0; qc_members := dedup Nat.eqb all |}) :: rest).

Lemma init_config_default_first all d c0 rest :
  NoDup (map fst ((q_default, c0) :: rest)) ->
  init_config all d ((q_default, c0) :: rest) = Some (make_indep (prepared all d c0 rest)).
Proof.
  intros Hnd. unfold init_config, set_default_members, has_queue. cbn [assoc].
  rewrite Nat.eqb_refl. cbn [map fst snd]. rewrite Nat.eqb_refl.
  inversion Hnd as [|? ? H0 _]; subst.
  (* no other entry is named default: the map leaves the rest as it is *)
  rewrite (map_ext_in _ id), map_id; [reflexivity|].
  intros [k c] He. cbn. destruct (Nat.eqb_spec k q_default) as [->|_]; [|reflexivity].
  destruct H0. exact (in_map fst _ _ He).
Qed.

Lemma prepared_shape all d c0 rest :
  exists d', prepared all d c0 rest = (q_default, d') :: expand_families all d rest.
Proof. unfold prepared, expand_families. cbn [map fst snd]. eauto. Qed.

Theorem init_config_partition all d c0 rest :
  NoDup (map fst ((q_default, c0) :: rest)) ->
  forall q t, In t (mems (make_indep (prepared all d c0 rest)) q) <-> owner (prepared all d c0 rest) t = Some q.
Proof.
  intros Hnd. destruct (prepared_shape all d c0 rest) as [d' E]. rewrite E.
  apply make_indep_partition.
  - cbn [map fst]. rewrite expand_families_names. exact Hnd.
  - apply expand_families_NoDup.
Qed.

Theorem init_state_reachable_wf all d c0 rest front ops :
  NoDup (map fst ((q_default, c0) :: rest)) ->
  let st0 := init_state (make_indep (prepared all d c0 rest)) in
  ops_ok front st0 ops -> wf (st_queues (run front st0 ops)).
Proof.
  intros Hnd st0 Hops. apply run_wf; [|exact Hops].
  destruct (prepared_shape all d c0 rest) as [d' E].
  assert (Hn : NoDup (map fst ((q_default, d') :: expand_families all d rest))).
  { cbn [map fst]. rewrite expand_families_names. exact Hnd. }
  pose proof (expand_families_NoDup all d rest) as Hm.
  assert (Hn' : NoDup (map fst (make_indep ((q_default, d') :: expand_families all d rest))))
    by now rewrite make_indep_names.
  unfold st0. rewrite E. apply init_state_wf.
  - exact Hn'.
  - apply make_indep_nodup. rewrite <- E. apply expand_families_NoDup.
  - intros e1 e2 t H1 H2. rewrite <- (mems_In _ e1 Hn' H1), <- (mems_In _ e2 Hn' H2).
    rewrite !(make_indep_partition d' _ Hn Hm). congruence.
Qed.

(* order-preserving sub-sequence: the order statement of C05 *)
Inductive sublist {A} : list A -> list A -> Prop :=
| sl_nil : forall l, sublist [] l
| sl_take : forall x s l, sublist s l -> sublist (x :: s) (x :: l)
| sl_skip : forall x s l, sublist s l -> sublist s (x :: l).

Lemma sublist_refl {A} (l : list A) : sublist l l.
Proof. induction l; constructor; auto. Qed.

Lemma sublist_filter_app {A} (f : A -> bool) p r : sublist (filter f p ++ r) (p ++ r).
Proof.
  induction p as [|x p IH]; cbn; [apply sublist_refl|].
  destruct (f x); cbn; constructor; exact IH.
Qed.
