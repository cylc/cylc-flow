(* Proofs/TaskMsgProofs.v — Model/TaskMsg.v (C09, C10, C02): process_message equals a
   closed form (pm_closed_eq: status/timers ctl_next, outputs adds, effects eff_next).
   The single actions (act, implied_ctl) that ctl_next is a sequence of -- the implied
   outputs, then the message: TaskMsgEdges.ctl_next_act -- are defined at the end. *)
From Coq Require Import List Bool Arith ZArith Lia.
From Cylc Require Import Base.Util Gen.TaskMsgTables Model.TaskMsg.
Import ListNotations.

(* "waiting with a retry lined up": every non-expire message is ignored *)
Definition blocked (t : task) : bool := status_eqb (st t) Waiting && retry_lined_up t.
Definition stale (t : task) (f : flag) (n : Z) : bool :=
  flag_received f && negb (Z.eqb n (Z.of_nat (sn t))).
Definition addo (t : task) (o : out) : task := fst (complete t o).
Definition psub (t : task) : task :=
  if status_eqb (st t) Preparing then set_st t Submitted else t.

Lemma status_eqb_refl s : status_eqb s s = true.
Proof. destruct s; reflexivity. Qed.
Lemma status_eqb_eq a b : status_eqb a b = true <-> a = b.
Proof. split; [destruct a, b; cbn; congruence|intros ->; apply status_eqb_refl]. Qed.
Lemma status_eqb_neq a b : status_eqb a b = false <-> a <> b.
Proof.
  rewrite <- status_eqb_eq. destruct (status_eqb a b); split; congruence.
Qed.
Lemma stdout_eqb_eq a b : stdout_eqb a b = true <-> a = b.
Proof. split; [destruct a, b; cbn; congruence|intros ->; destruct b; reflexivity]. Qed.
Lemma out_eqb_eq a b : out_eqb a b = true <-> a = b.
Proof.
  destruct a as [x|x], b as [y|y]; cbn; try (split; congruence).
  - rewrite stdout_eqb_eq. split; congruence.
  - rewrite Nat.eqb_eq. split; congruence.
Qed.
Lemma is_complete_In t o : is_complete t o = true <-> In o (outs t).
Proof. unfold is_complete. apply mem_In. apply out_eqb_eq. Qed.

(* the two reasons to ignore a message: a received one with another submit number,
   a non-expire one while a retry is lined up *)
Lemma check_eq t m f n :
  check t m f n = negb (stale t f n) && negb (blocked t && negb (msg_is_expired m)).
Proof.
  unfold check, stale, blocked. destruct (flag_received f && _); [reflexivity|].
  destruct (status_eqb (st t) Waiting), (msg_is_expired m), (retry_lined_up t); reflexivity.
Qed.
Lemma check_true_unblocked t m f n :
  check t m f n = true -> msg_is_expired m = false -> blocked t = false.
Proof.
  rewrite check_eq. intros C E. rewrite E, andb_true_r in C.
  apply andb_true_iff in C. destruct C as [_ C]. apply negb_true_iff in C. exact C.
Qed.

Lemma complete_addo t o : complete t o = (addo t o, negb (is_complete t o)).
Proof. unfold addo, complete. destruct (is_complete t o); reflexivity. Qed.
Lemma blocked_addo t o : blocked (addo t o) = blocked t.
Proof. unfold addo, complete. destruct (is_complete t o); reflexivity. Qed.
Lemma st_addo t o : st (addo t o) = st t.
Proof. unfold addo, complete. destruct (is_complete t o); reflexivity. Qed.
Lemma is_complete_addo_same t o : is_complete (addo t o) o = true.
Proof.
  unfold addo, complete. destruct (is_complete t o) eqn:E; cbn; [exact E|].
  unfold is_complete. cbn.
  assert (H : out_eqb o o = true) by (apply out_eqb_eq; reflexivity).
  rewrite H. reflexivity.
Qed.
Lemma is_complete_addo_other t o o' :
  is_complete (addo t o) o' = out_eqb o' o || is_complete t o'.
Proof.
  unfold addo, complete. destruct (is_complete t o) eqn:E; cbn.
  - destruct (out_eqb o' o) eqn:E'; [|reflexivity].
    apply out_eqb_eq in E'. subst. rewrite E. reflexivity.
  - reflexivity.
Qed.
Lemma is_complete_psub t o : is_complete (psub t) o = is_complete t o.
Proof. unfold psub. destruct (status_eqb (st t) Preparing); reflexivity. Qed.

(* t with new status, outputs and timers; submit number and configuration kept *)
Definition upd (t : task) (s : status) (o : list out) (xe xs : option timer) : task :=
  {| st := s; sn := sn t; outs := o; texec := xe; tsub := xs;
     cf_n := cf_n t; cf_m := cf_m t; cf_k := cf_k t |}.
Definition add1 (o : out) (l : list out) : list out := if mem out_eqb o l then l else o :: l.
Definition addl (l : list out) (a : list out) : list out := fold_left (fun acc o => add1 o acc) a l.

(* 'submitted' / 'started' already complete: nothing is implied for it *)
Definition hs (t : task) := is_complete t OSubmitted.
Definition ht (t : task) := is_complete t OStarted.
Definition reset_sub (x : option timer) : option timer :=
  match x with Some y => Some {| tm_len := tm_len y; tm_num := 0 |} | None => None end.
Definition psub_st (s : status) : status := if status_eqb s Preparing then Submitted else s.
(* status and submission timer once the incomplete implied 'submitted' and 'started' have acted *)
Definition mid_st (s : status) (hs ht : bool) : status :=
  if ht then (if hs then s else psub_st s) else Running.
Definition mid_sub (xs : option timer) (ht : bool) := if ht then xs else reset_sub xs.
Definition next_of (x : option timer) : option timer :=
  match x with Some y => timer_next y | None => None end.
Notation rk := status_rank.

(* the part of a task that decides its further course; [ctl_next c hs ht m r] is the one after
   message m (r: flag is received), written out per message with the implied outputs folded in *)
Record ctl := { c_st : status; c_exec : option timer; c_sub : option timer }.
Definition ctl_of (t : task) : ctl := {| c_st := st t; c_exec := texec t; c_sub := tsub t |}.
Definition ctl_next (c : ctl) (hs ht : bool) (m : msg) (r : bool) : ctl :=
  let s := c_st c in let xe := c_exec c in let xs := c_sub c in
  match m with
  | MOther | MCustom _ => c
  | MExpired => {| c_st := Expired; c_exec := xe; c_sub := xs |}
  | MSubmitted =>
      if r && (rk Submitted <=? rk s) then c else {| c_st := psub_st s; c_exec := xe; c_sub := xs |}
  | MStarted =>
      let s1 := if hs then s else psub_st s in
      if r && (rk Running <? rk s1) then {| c_st := s1; c_exec := xe; c_sub := xs |}
      else {| c_st := Running; c_exec := xe; c_sub := reset_sub xs |}
  | MSucceeded => {| c_st := Succeeded; c_exec := xe; c_sub := mid_sub xs ht |}
  | MFailed =>
      let s1 := mid_st s hs ht in
      let xs1 := mid_sub xs ht in
      if r && (rk Failed <? rk s1) then {| c_st := s1; c_exec := xe; c_sub := xs1 |}
      else match next_of xe with
           | Some x' => {| c_st := Waiting; c_exec := Some x'; c_sub := xs1 |}
           | None => {| c_st := Failed; c_exec := xe; c_sub := xs1 |}
           end
  | MSubFail =>
      if r && (rk SubmitFailed <? rk s) then c
      else match next_of xs with
           | Some x' => {| c_st := Waiting; c_exec := xe; c_sub := Some x' |}
           | None => {| c_st := SubmitFailed; c_exec := xe; c_sub := xs |}
           end
  end.

Definition no_next (x : option timer) : bool :=
  match next_of x with None => true | Some _ => false end.
(* the message is acted upon, no retry remains and the final status is new: its output is completed *)
Definition fail_final (t : task) (r : bool) : bool :=
  let s1 := mid_st (st t) (hs t) (ht t) in
  negb (r && (rk Failed <? rk s1)) && no_next (texec t) && negb (status_eqb s1 Failed).
Definition subfail_final (t : task) (r : bool) : bool :=
  negb (r && (rk SubmitFailed <? rk (st t))) && no_next (tsub t) && negb (status_eqb (st t) SubmitFailed).

(* the outputs message m completes, implied ones included *)
Definition adds (t : task) (m : msg) (r : bool) : list out :=
  match m with
  | MOther => []
  | MCustom k => if k <? cf_k t then [Custom k] else []
  | MExpired => [OExpired]
  | MSubmitted => [OSubmitted]
  | MStarted => [OStarted; OSubmitted]
  | MSucceeded => [OSucceeded; OSubmitted; OStarted]
  | MFailed => [OSubmitted; OStarted] ++ (if fail_final t r then [OFailed] else [])
  | MSubFail => if subfail_final t r then [OSubmitFailed] else []
  end.

Definition imp_eff (hs ht : bool) : list effect :=
  (if hs then [] else [ESpawn OSubmitted]) ++ (if ht then [] else [ESpawn OStarted]).
Definition eff_next (t : task) (m : msg) (r : bool) : list effect :=
  match m with
  | MOther => []
  | MCustom k => if (k <? cf_k t) && negb (is_complete t (Custom k)) then [ESpawn (Custom k)] else []
  | MExpired => [ESpawn OExpired]
  | MSubmitted => if r && (rk Submitted <=? rk (st t)) then [EPoll] else [ESpawn OSubmitted]
  | MStarted =>
      let s1 := if hs t then st t else psub_st (st t) in
      (if hs t then [] else [ESpawn OSubmitted]) ++
      (if r && (rk Running <? rk s1) then [EPoll] else [ESpawn OStarted])
  | MSucceeded => imp_eff (hs t) (ht t) ++ [ESpawn OSucceeded]
  | MFailed =>
      imp_eff (hs t) (ht t) ++
      (if r && (rk Failed <? rk (mid_st (st t) (hs t) (ht t))) then [EPoll]
       else match next_of (texec t) with Some _ => [ERetry false] | None => [ESpawn OFailed] end)
  | MSubFail =>
      if r && (rk SubmitFailed <? rk (st t)) then [EPoll]
      else match next_of (tsub t) with Some _ => [ERetry true] | None => [ESpawn OSubmitFailed] end
  end.

Definition pm_closed (t : task) (m : msg) (f : flag) (n : Z) : task * list effect :=
  if negb (check t m f n) then (t, []) else
  let r := flag_received f in
  let c := ctl_next (ctl_of t) (hs t) (ht t) m r in
  (upd t (c_st c) (addl (outs t) (adds t m r)) (c_exec c) (c_sub c), eff_next t m r).

(* the model's task operations as updates of the original task *)
Lemma upd_eta t : upd t (st t) (outs t) (texec t) (tsub t) = t.
Proof. destruct t; reflexivity. Qed.
Lemma addo_upd t o : addo t o = upd t (st t) (add1 o (outs t)) (texec t) (tsub t).
Proof.
  unfold addo, complete, add1, is_complete. destruct (mem out_eqb o (outs t)); cbn.
  - symmetry. apply upd_eta.
  - reflexivity.
Qed.
Lemma outs_addo t o : outs (addo t o) = add1 o (outs t).
Proof. rewrite addo_upd. reflexivity. Qed.
Lemma psub_upd t : psub t = upd t (psub_st (st t)) (outs t) (texec t) (tsub t).
Proof.
  unfold psub, psub_st. destruct (status_eqb (st t) Preparing); [reflexivity|symmetry; apply upd_eta].
Qed.
Lemma started_core_upd t : started_core t = upd t Running (outs t) (texec t) (reset_sub (tsub t)).
Proof. unfold started_core, reset_sub, upd, set_tsub, set_st. cbn. destruct (tsub t) eqn:E; cbn; rewrite ?E; reflexivity. Qed.
(* the last branch of failed_core and subfail_core: status x with its output o *)
Lemma set_final_upd t x o :
  (if status_eqb (st t) x then t else fst (complete (set_st t x) o)) =
  upd t x (if status_eqb (st t) x then outs t else add1 o (outs t)) (texec t) (tsub t).
Proof.
  destruct (status_eqb (st t) x) eqn:E.
  - apply status_eqb_eq in E. rewrite <- E, upd_eta. reflexivity.
  - change (fst (complete (set_st t x) o)) with (addo (set_st t x) o). rewrite addo_upd. reflexivity.
Qed.
Lemma failed_core_closed t :
  failed_core t =
  match next_of (texec t) with
  | Some x' => (upd t Waiting (outs t) (Some x') (tsub t), [ERetry false])
  | None => (upd t Failed (if status_eqb (st t) Failed then outs t else add1 OFailed (outs t))
                 (texec t) (tsub t), [ESpawn OFailed])
  end.
Proof.
  unfold failed_core. fold (next_of (texec t)). rewrite set_final_upd.
  destruct (next_of (texec t)); reflexivity.
Qed.
Lemma subfail_core_closed t :
  subfail_core t =
  match next_of (tsub t) with
  | Some x' => (upd t Waiting (outs t) (texec t) (Some x'), [ERetry true])
  | None => (upd t SubmitFailed (if status_eqb (st t) SubmitFailed then outs t else add1 OSubmitFailed (outs t))
                 (texec t) (tsub t), [ESpawn OSubmitFailed])
  end.
Proof.
  unfold subfail_core. fold (next_of (tsub t)). rewrite set_final_upd.
  destruct (next_of (tsub t)); reflexivity.
Qed.

Lemma mem_add1 o o' l : mem out_eqb o' (add1 o l) = out_eqb o' o || mem out_eqb o' l.
Proof.
  unfold add1. destruct (mem out_eqb o l) eqn:E; [|reflexivity].
  destruct (out_eqb o' o) eqn:E'; [|reflexivity]. apply out_eqb_eq in E'. subst o'. exact E.
Qed.
Lemma add1_idem o l : mem out_eqb o l = true -> add1 o l = l.
Proof. intros H. unfold add1. rewrite H. reflexivity. Qed.

Lemma ht_addo_submitted t : is_complete (addo t OSubmitted) OStarted = is_complete t OStarted.
Proof. rewrite is_complete_addo_other. reflexivity. Qed.

Lemma guarded_rk t f g : guarded t f g = flag_received f &&
  match guard_of g with
  | Some (CGt, s) => rk s <? rk (st t)
  | Some (CGte, s) => rk s <=? rk (st t)
  | None => false
  end.
Proof. reflexivity. Qed.

(* the internal 'submitted' / 'started' messages of implied outputs *)
Lemma pm_closed_submitted t n : blocked t = false ->
  pm_closed t MSubmitted Internal n =
  (upd t (psub_st (st t)) (add1 OSubmitted (outs t)) (texec t) (tsub t), [ESpawn OSubmitted]).
Proof.
  intros B. unfold pm_closed. rewrite check_eq, B. reflexivity.
Qed.
Lemma pm_closed_started t n : blocked t = false ->
  pm_closed t MStarted Internal n =
  (upd t Running (add1 OSubmitted (add1 OStarted (outs t))) (texec t) (reset_sub (tsub t)),
   (if hs t then [] else [ESpawn OSubmitted]) ++ [ESpawn OStarted]).
Proof.
  intros B. unfold pm_closed. rewrite check_eq, B. reflexivity.
Qed.
Lemma blocked_psub_st t o :
  blocked t = false -> blocked (upd t (psub_st (st t)) o (texec t) (tsub t)) = false.
Proof. unfold blocked, psub_st. cbn. destruct (st t); auto. Qed.

Definition implied_of (m : msg) : list stdout :=
  match msg_std m with Some s => implied_std s | None => [] end.
Lemma implied_filter t m :
  implied t m = filter (fun o => negb (is_complete t (Std o))) (implied_of m).
Proof. unfold implied, implied_of. destruct (msg_std m); reflexivity. Qed.

Section Rec.
  (* the recursive call of pm_gen, correct on the implied outputs of m *)
  Variables (rec : task -> msg -> Z -> task * list effect) (n : Z) (m : msg).
  Hypothesis rec_closed : forall o, In o (implied_of m) ->
    forall t, rec t (std_msg o) n = pm_closed t (std_msg o) Internal n.
  Let run_implied (t : task) :=
    fold_left (fun acc o => let r := rec (fst acc) (std_msg o) n in
                            (fst r, snd acc ++ filter not_poll (snd r)))
              (implied t m) (t, []).

  Lemma implied_fold_one t : implied_of m = [SoSubmitted] -> blocked t = false ->
    run_implied t =
    (upd t (if hs t then st t else psub_st (st t)) (add1 OSubmitted (outs t)) (texec t) (tsub t),
     if hs t then [] else [ESpawn OSubmitted]).
  Proof.
    intros E B. unfold run_implied. rewrite implied_filter. rewrite E in *. unfold hs. cbn [filter].
    destruct (is_complete t OSubmitted) eqn:Es; cbn [negb fold_left fst snd std_msg].
    - rewrite add1_idem, upd_eta by exact Es. reflexivity.
    - rewrite (rec_closed SoSubmitted), pm_closed_submitted by (cbn; auto). reflexivity.
  Qed.

  Lemma implied_fold_both t : implied_of m = [SoSubmitted; SoStarted] -> blocked t = false ->
    run_implied t =
    (upd t (mid_st (st t) (hs t) (ht t)) (add1 OStarted (add1 OSubmitted (outs t)))
         (texec t) (mid_sub (tsub t) (ht t)),
     imp_eff (hs t) (ht t)).
  Proof.
    intros E B. unfold run_implied. rewrite implied_filter. rewrite E in *. unfold hs, ht. cbn [filter].
    destruct (is_complete t OSubmitted) eqn:Es, (is_complete t OStarted) eqn:Et;
      cbn [negb fold_left fst snd std_msg].
    - rewrite !add1_idem, upd_eta by (rewrite ?mem_add1; auto). reflexivity.
    - rewrite (rec_closed SoStarted), pm_closed_started by (cbn; auto). unfold hs. rewrite Es.
      rewrite !(add1_idem OSubmitted) by (rewrite ?mem_add1; exact Es). reflexivity.
    - rewrite (rec_closed SoSubmitted), pm_closed_submitted by (cbn; auto).
      rewrite (add1_idem OStarted) by (rewrite mem_add1; exact Et). reflexivity.
    - rewrite (rec_closed SoSubmitted), pm_closed_submitted by (cbn; auto). cbn [fst snd].
      rewrite (rec_closed SoStarted), pm_closed_started by (cbn; auto using blocked_psub_st).
      unfold hs, is_complete. cbn [upd outs].
      rewrite (add1_idem OSubmitted (add1 OStarted _)) by (rewrite !mem_add1; reflexivity).
      rewrite mem_add1. reflexivity.
  Qed.
End Rec.

(* pm0, pm1 and process_message differ only in the recursive call: each level is
   right as soon as the one below is right on the implied outputs *)
Theorem pm_gen_closed rec t m f n :
  (forall o, In o (implied_of m) ->
   forall t', rec t' (std_msg o) n = pm_closed t' (std_msg o) Internal n) ->
  pm_gen rec t m f n = pm_closed t m f n.
Proof.
  intros H. unfold pm_gen, pm_closed.
  destruct (check t m f n) eqn:C; cbn [negb]; [|reflexivity].
  pose proof (check_true_unblocked t m f n C) as B.
  destruct m; cbn [adds eff_next ctl_next ctl_of c_st c_exec c_sub addl fold_left].
  - (* submitted; here and below [complete_msg] on the concrete message computes to what [change] puts *)
    change (complete_msg t MSubmitted) with (complete t OSubmitted). rewrite complete_addo.
    cbn [implied msg_std implied_std filter fold_left fst snd core app].
    fold (psub (addo t OSubmitted)). rewrite guarded_rk, st_addo. cbn [guard_of].
    destruct (flag_received f && _); cbn [fst snd c_st c_exec c_sub].
    + rewrite addo_upd. reflexivity.
    + rewrite psub_upd, addo_upd. reflexivity.
  - (* started *)
    change (complete_msg t MStarted) with (complete t OStarted). rewrite complete_addo. cbn [fst snd].
    rewrite (implied_fold_one _ _ _ H) by (rewrite ?blocked_addo; auto).
    unfold hs. rewrite is_complete_addo_other. cbn [out_eqb stdout_eqb orb]. fold (hs t). rewrite addo_upd.
    cbn [core fst snd upd st outs texec tsub]. rewrite guarded_rk. cbn [guard_of upd st].
    destruct (flag_received f && _); [reflexivity|]. rewrite started_core_upd. reflexivity.
  - (* succeeded *)
    change (complete_msg t MSucceeded) with (complete t OSucceeded). rewrite complete_addo. cbn [fst snd].
    rewrite (implied_fold_both _ _ _ H) by (rewrite ?blocked_addo; auto).
    unfold hs, ht. rewrite !is_complete_addo_other. cbn [out_eqb stdout_eqb orb]. fold (hs t) (ht t).
    rewrite addo_upd. cbn [core]. rewrite guarded_rk. cbn [guard_of]. rewrite andb_false_r. reflexivity.
  - (* failed *)
    change (complete_msg t MFailed) with (t, false). cbn [fst snd].
    rewrite (implied_fold_both _ _ _ H) by auto.
    cbn [core fst snd]. rewrite guarded_rk. cbn [guard_of upd st].
    unfold fail_final, no_next.
    destruct (flag_received f && _); cbn [negb andb app fold_left fst snd c_st c_exec c_sub]; [reflexivity|].
    rewrite failed_core_closed. cbn [upd st outs texec tsub].
    destruct (next_of (texec t)); cbn [fst snd andb app fold_left c_st c_exec c_sub]; [reflexivity|].
    destruct (status_eqb (mid_st (st t) (hs t) (ht t)) Failed); reflexivity.
  - (* submission failed *)
    cbn [complete_msg msg_out msg_std implied filter fold_left fst snd core app].
    rewrite guarded_rk. cbn [guard_of]. unfold subfail_final, no_next.
    destruct (flag_received f && _); cbn [negb andb fold_left fst snd].
    + rewrite upd_eta. reflexivity.
    + rewrite subfail_core_closed.
      destruct (next_of (tsub t)); cbn [fst snd andb app fold_left c_st c_exec c_sub]; [reflexivity|].
      destruct (status_eqb (st t) SubmitFailed); reflexivity.
  - (* expired *)
    change (complete_msg t MExpired) with (complete t OExpired). rewrite complete_addo.
    cbn [implied msg_std implied_std filter fold_left fst snd core app].
    rewrite guarded_rk. cbn [guard_of]. rewrite andb_false_r, addo_upd. reflexivity.
  - (* custom *)
    unfold complete_msg, msg_out. cbn [implied msg_std fold_left fst snd core app].
    destruct (k <? cf_k t); cbn [andb fst snd fold_left]; [|rewrite upd_eta; reflexivity].
    rewrite complete_addo, addo_upd. cbn [fst snd]. unfold add1, is_complete.
    destruct (mem out_eqb (Custom k) (outs t)); cbn [negb]; [rewrite upd_eta|]; reflexivity.
  - rewrite upd_eta. reflexivity.
Qed.

Lemma pm0_submitted t n : pm0 t MSubmitted n = pm_closed t MSubmitted Internal n.
Proof. apply pm_gen_closed. intros o []. Qed.
Lemma pm1_implied t o n : In o [SoSubmitted; SoStarted] ->
  pm1 t (std_msg o) n = pm_closed t (std_msg o) Internal n.
Proof.
  intros I. apply pm_gen_closed. intros o' I' t'.
  destruct I as [<-|[<-|[]]]; cbn in I'; [destruct I'|].
  destruct I' as [<-|[]]. apply pm0_submitted.
Qed.

Theorem pm_closed_eq t m f n : process_message t m f n = pm_closed t m f n.
Proof.
  apply pm_gen_closed. intros o I t'. apply pm1_implied.
  destruct m; cbn in I |- *; tauto.
Qed.

(* what a message does to status and timers once it is acted upon: the model's
   core (with started_core, failed_core, subfail_core) without the guards *)
Definition act (m : msg) (c : ctl) : ctl :=
  let s := c_st c in let xe := c_exec c in let xs := c_sub c in
  match m with
  | MOther | MCustom _ => c
  | MExpired => {| c_st := Expired; c_exec := xe; c_sub := xs |}
  | MSubmitted => {| c_st := psub_st s; c_exec := xe; c_sub := xs |}
  | MStarted => {| c_st := Running; c_exec := xe; c_sub := reset_sub xs |}
  | MSucceeded => {| c_st := Succeeded; c_exec := xe; c_sub := xs |}
  | MFailed => match next_of xe with
               | Some x' => {| c_st := Waiting; c_exec := Some x'; c_sub := xs |}
               | None => {| c_st := Failed; c_exec := xe; c_sub := xs |}
               end
  | MSubFail => match next_of xs with
                | Some x' => {| c_st := Waiting; c_exec := xe; c_sub := Some x' |}
                | None => {| c_st := SubmitFailed; c_exec := xe; c_sub := xs |}
                end
  end.
Definition act_eff (t : task) (m : msg) : list effect :=
  match m with
  | MOther => []
  | MCustom k => if (k <? cf_k t) && negb (is_complete t (Custom k)) then [ESpawn (Custom k)] else []
  | MExpired => [ESpawn OExpired]
  | MSubmitted => [ESpawn OSubmitted]
  | MStarted => [ESpawn OStarted]
  | MSucceeded => [ESpawn OSucceeded]
  | MFailed => match next_of (texec t) with Some _ => [ERetry false] | None => [ESpawn OFailed] end
  | MSubFail => match next_of (tsub t) with Some _ => [ERetry true] | None => [ESpawn OSubmitFailed] end
  end.
(* before the message itself, those of its implied outputs 'submitted' and
   'started' that are not complete yet act, as internal messages *)
Definition implied_ctl (m : msg) (hs ht : bool) (c : ctl) : ctl :=
  let c1 := if hs then c else act MSubmitted c in
  match m with
  | MStarted => c1
  | MSucceeded | MFailed => if ht then c1 else act MStarted c1
  | _ => c
  end.
Definition implied_eff (m : msg) (hs ht : bool) : list effect :=
  match m with
  | MStarted => if hs then [] else [ESpawn OSubmitted]
  | MSucceeded | MFailed => imp_eff hs ht
  | _ => []
  end.

Lemma implied_ind (P : ctl -> Prop) m hs ht c :
  P c -> (forall c', P c' -> P (act MSubmitted c')) -> (forall c', P c' -> P (act MStarted c')) ->
  P (implied_ctl m hs ht c).
Proof. intros H0 H1 H2. destruct m, hs, ht; cbn [implied_ctl]; auto. Qed.
