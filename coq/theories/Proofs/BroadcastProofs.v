(* Proofs/BroadcastProofs.v — lemmas about Model/Broadcast.v.
   Everything is observed on the leaves: a nested dict is read through
   [get_leaf], and an operation on the in-memory dict is described by the
   list of trees whose leaves it writes over the old ones ([leafstep]). *)
From Coq Require Import List ZArith NArith Bool Arith.
From Cylc Require Import Base.Util Model.C3 Model.Broadcast.
Import ListNotations.

Lemma key_eqb_spec a b : key_eqb a b = true <-> a = b.
Proof.
  destruct a, b; cbn; rewrite ?Z.eqb_eq, ?N.eqb_eq; split; congruence.
Qed.
Lemma key_eqb_refl a : key_eqb a a = true.
Proof. apply key_eqb_spec. reflexivity. Qed.

Lemma key_eqb_neq a b : a <> b -> key_eqb a b = false.
Proof. intros H. destruct (key_eqb a b) eqn:E; [|reflexivity]. apply key_eqb_spec in E. congruence. Qed.
Lemma key_eqb_false a b : key_eqb a b = false -> a <> b.
Proof. intros H ->. rewrite key_eqb_refl in H. discriminate. Qed.
Lemma key_eqb_sym a b : key_eqb a b = key_eqb b a.
Proof. destruct a, b; cbn; auto using Z.eqb_sym, N.eqb_sym. Qed.
Lemma path_eqb_spec a b : path_eqb a b = true <-> a = b.
Proof. apply list_eqb_spec. apply key_eqb_spec. Qed.
Lemma path_eqb_cons k q k' q' :
  path_eqb (k :: q) (k' :: q') = key_eqb k k' && path_eqb q q'.
Proof. reflexivity. Qed.
Lemma mem_key_In k l : mem key_eqb k l = true <-> In k l.
Proof. apply mem_In. apply key_eqb_spec. Qed.
Lemma mem_path_In p l : mem path_eqb p l = true <-> In p l.
Proof. apply mem_In. apply path_eqb_spec. Qed.

Definition orelse {A} (a b : option A) : option A :=
  match a with Some v => Some v | None => b end.
Lemma orelse_none_r {A} (a : option A) : orelse a None = a.
Proof. destruct a; reflexivity. Qed.
Lemma orelse_assoc {A} (a b c : option A) : orelse a (orelse b c) = orelse (orelse a b) c.
Proof. destruct a; reflexivity. Qed.

Lemma map_flat_map {A B C} (f : B -> C) (g : A -> list B) l :
  map f (flat_map g l) = flat_map (fun x => map f (g x)) l.
Proof. induction l as [|x r IH]; cbn; [reflexivity|]. now rewrite map_app, IH. Qed.

Lemma assoc_upsert k' k t l :
  assoc key_eqb k' (upsert k t l) = if key_eqb k' k then Some t else assoc key_eqb k' l.
Proof.
  induction l as [|[k0 t0] r IH]; cbn; [reflexivity|].
  destruct (key_eqb k k0) eqn:E; cbn.
  - apply key_eqb_spec in E. subst k0. destruct (key_eqb k' k); reflexivity.
  - rewrite IH. destruct (key_eqb k' k0) eqn:E0; [|reflexivity].
    apply key_eqb_spec in E0. subst k0. rewrite key_eqb_sym, E. reflexivity.
Qed.
Lemma upsert_keys k t l :
  map fst (upsert k t l) = if mem key_eqb k (map fst l) then map fst l else map fst l ++ [k].
Proof.
  induction l as [|[k0 t0] r IH]; cbn; [reflexivity|].
  destruct (key_eqb k k0) eqn:E; cbn.
  - apply key_eqb_spec in E. now subst.
  - rewrite IH. destruct (mem key_eqb k (map fst r)); reflexivity.
Qed.
Lemma upsert_nodup k t l : NoDup (map fst l) -> NoDup (map fst (upsert k t l)).
Proof.
  intros H. rewrite upsert_keys. destruct (mem key_eqb k (map fst l)) eqn:E; [exact H|].
  apply NoDup_snoc; [exact H|]. rewrite <- mem_key_In. congruence.
Qed.
Lemma Forall_upsert (Q : key * tree -> Prop) k t l :
  Forall Q l -> Q (k, t) -> Forall Q (upsert k t l).
Proof.
  intros F Ht. induction F as [|[k0 t0] r H0 F IH]; cbn; [auto|].
  destruct (key_eqb k k0); auto.
Qed.

Section TreeInd.
  Variable P : tree -> Prop.
  Hypothesis HL : forall v, P (Leaf v).
  Hypothesis HN : forall kids, Forall (fun kt => P (snd kt)) kids -> P (Node kids).
  Fixpoint tree_ind2 (t : tree) : P t :=
    match t with
    | Leaf v => HL v
    | Node kids =>
        HN kids ((fix go (l : dict) : Forall (fun kt => P (snd kt)) l :=
                    match l with
                    | [] => Forall_nil _
                    | kt :: r => Forall_cons kt (tree_ind2 (snd kt)) (go r)
                    end) kids)
    end.
End TreeInd.

(* well-formed: keys of every dict are unique (Python dicts) *)
Inductive wf : tree -> Prop :=
| wf_leaf v : wf (Leaf v)
| wf_node kids : NoDup (map fst kids) -> Forall (fun kt => wf (snd kt)) kids -> wf (Node kids).

(* conforming to a schema [s]: s p = true iff the path p is a section (dict) *)
Definition sub (s : path -> bool) (k : key) : path -> bool := fun q => s (k :: q).
Inductive conf : (path -> bool) -> tree -> Prop :=
| conf_leaf s v : s [] = false -> conf s (Leaf v)
| conf_node s kids : s [] = true ->
    Forall (fun kt => conf (sub s (fst kt)) (snd kt)) kids -> conf s (Node kids).

Definition inv (S : path -> bool) (m : dict) : Prop := wf (Node m) /\ conf S (Node m).

Lemma wf_node_inv kids : wf (Node kids) ->
  NoDup (map fst kids) /\ Forall (fun kt => wf (snd kt)) kids.
Proof. intros H; inversion H; auto. Qed.
Lemma conf_node_inv s kids : conf s (Node kids) ->
  s [] = true /\ Forall (fun kt => conf (sub s (fst kt)) (snd kt)) kids.
Proof. intros H; inversion H; auto. Qed.
Lemma conf_shape s t : conf s t ->
  s [] = match t with Leaf _ => false | Node _ => true end.
Proof. destruct 1; assumption. Qed.

Lemma wf_kid kids k t : wf (Node kids) -> assoc key_eqb k kids = Some t -> wf t.
Proof.
  intros H E. apply wf_node_inv in H. destruct H as [_ F]. rewrite Forall_forall in F.
  exact (F _ (assoc_In key_eqb key_eqb_spec _ _ _ E)).
Qed.
Lemma conf_kid s kids k t : conf s (Node kids) -> assoc key_eqb k kids = Some t -> conf (sub s k) t.
Proof.
  intros H E. apply conf_node_inv in H. destruct H as [_ F]. rewrite Forall_forall in F.
  exact (F _ (assoc_In key_eqb key_eqb_spec _ _ _ E)).
Qed.

Lemma wf_upsert k t l : wf (Node l) -> wf t -> wf (Node (upsert k t l)).
Proof.
  intros H Ht. apply wf_node_inv in H. destruct H as [Hn F].
  constructor; [now apply upsert_nodup|now apply Forall_upsert].
Qed.
Lemma conf_upsert s k t l : conf s (Node l) -> conf (sub s k) t -> conf s (Node (upsert k t l)).
Proof.
  intros H Ht. apply conf_node_inv in H. destruct H as [Hs F].
  constructor; [exact Hs|now apply Forall_upsert].
Qed.
Lemma wf_single k t : wf t -> wf (Node [(k, t)]).
Proof. intros H. constructor; cbn; [constructor; [intros []|constructor]|repeat constructor; exact H]. Qed.
Lemma conf_single s k t : s [] = true -> conf (sub s k) t -> conf s (Node [(k, t)]).
Proof. intros Hs H. constructor; [exact Hs|]. constructor; [exact H|constructor]. Qed.
Lemma inv_nil S : S [] = true -> inv S [].
Proof. intros HS. split; [constructor; constructor|constructor; [exact HS|constructor]]. Qed.

Lemma get_leaf_node k q kids :
  get_leaf (k :: q) (Node kids) =
  match assoc key_eqb k kids with Some t => get_leaf q t | None => None end.
Proof. reflexivity. Qed.
Lemma get_leaf_nil_node kids : get_leaf [] (Node kids) = None.
Proof. reflexivity. Qed.
Lemma get_leaf_empty q : get_leaf q (Node []) = None.
Proof. destruct q; reflexivity. Qed.
Lemma get_leaf_cons_leaf k q v : get_leaf (k :: q) (Leaf v) = None.
Proof. reflexivity. Qed.
Lemma get_leaf_cons k' q k t r :
  get_leaf (k' :: q) (Node ((k, t) :: r)) =
  if key_eqb k' k then get_leaf q t else get_leaf (k' :: q) (Node r).
Proof. cbn. destruct (key_eqb k' k); reflexivity. Qed.
Lemma get_leaf_upsert k' q k t l :
  get_leaf (k' :: q) (Node (upsert k t l)) =
  if key_eqb k' k then get_leaf q t else get_leaf (k' :: q) (Node l).
Proof. rewrite !get_leaf_node, assoc_upsert. destruct (key_eqb k' k); reflexivity. Qed.
Lemma get_leaf_absent_key k q m : ~ In k (map fst m) -> get_leaf (k :: q) (Node m) = None.
Proof. intros H. rewrite get_leaf_node, (proj2 (assoc_None key_eqb key_eqb_spec _ _) H). reflexivity. Qed.

(* below a key [k] that the schema makes a section, the dict under [k]
   (empty if there is none yet) carries the leaves that start with [k] *)
Lemma inv_section S m k : inv S m -> sub S k [] = true ->
  inv (sub S k) (kids_of (assoc key_eqb k m)) /\
  forall q, get_leaf q (Node (kids_of (assoc key_eqb k m))) = get_leaf (k :: q) (Node m).
Proof.
  intros [Hw Hc] Hk. setoid_rewrite get_leaf_node.
  destruct (assoc key_eqb k m) as [t|] eqn:Ea; cbn [kids_of].
  - pose proof (conf_kid _ _ _ _ Hc Ea) as Hct. pose proof (wf_kid _ _ _ Hw Ea) as Hwt.
    apply conf_shape in Hct as Hsh. destruct t as [v|kids]; [congruence|]. repeat split; auto.
  - split; [now apply inv_nil|apply get_leaf_empty].
Qed.
Lemma get_leaf_below_setting S m k k' q : conf S (Node m) -> sub S k [] = false ->
  get_leaf (k :: k' :: q) (Node m) = None.
Proof.
  intros Hc Hk. rewrite get_leaf_node. destruct (assoc key_eqb k m) as [t|] eqn:Ea; [|reflexivity].
  apply (conf_kid _ _ _ _ Hc), conf_shape in Ea. destruct t; [reflexivity|congruence].
Qed.

(* a leaf path of a conforming tree is a leaf path of the schema *)
Fixpoint leafpath (s : path -> bool) (p : path) : Prop :=
  match p with
  | [] => s [] = false
  | k :: q => s [] = true /\ leafpath (sub s k) q
  end.
Lemma get_leaf_leafpath p : forall s t v, conf s t -> get_leaf p t = Some v -> leafpath s p.
Proof.
  induction p as [|k q IH]; intros s t v Hc E; destruct t as [v'|kids]; cbn in *; try discriminate.
  - now inversion Hc.
  - destruct (assoc key_eqb k kids) as [t'|] eqn:Ea; [|discriminate].
    split; [now inversion Hc|]. eapply IH; [eapply conf_kid; eauto|exact E].
Qed.
Lemma leafpath_not_section p : forall s, leafpath s p -> s p = false.
Proof. induction p as [|k q IH]; intros s; cbn; [auto|]. intros [_ H]. exact (IH _ H). Qed.

(* the value at [p] after the trees [ts] are written over [base] one after the other: later trees win *)
Definition apply_leaf (p : path) (ts : list tree) (base : option val) : option val :=
  fold_left (fun acc t => orelse (get_leaf p t) acc) ts base.

Lemma apply_leaf_app p l1 l2 b : apply_leaf p (l1 ++ l2) b = apply_leaf p l2 (apply_leaf p l1 b).
Proof. apply fold_left_app. Qed.
Lemma apply_leaf_cons p t ts b : apply_leaf p (t :: ts) b = apply_leaf p ts (orelse (get_leaf p t) b).
Proof. reflexivity. Qed.

(* a dict with unique keys is what its entries write one after the other *)
Lemma apply_leaf_kids p kids b : NoDup (map fst kids) ->
  apply_leaf p (map (fun kt => Node [kt]) kids) b = orelse (get_leaf p (Node kids)) b.
Proof.
  revert b. induction kids as [|[k t] r IH]; intros b Hnd; [destruct p; reflexivity|].
  inversion Hnd as [|? ? Hk Hr]; subst.
  cbn [map]. rewrite apply_leaf_cons, IH by exact Hr.
  destruct p as [|k' q]; [reflexivity|]. rewrite !get_leaf_cons.
  destruct (key_eqb k' k) eqn:E; [|reflexivity].
  apply key_eqb_spec in E. subst k'. now rewrite get_leaf_absent_key.
Qed.

(* [f] keeps the invariant and writes the leaves of [ts], in that order *)
Definition leafstep (S : path -> bool) (f : dict -> dict) (ts : list tree) : Prop :=
  forall m, inv S m ->
    inv S (f m) /\ forall p, get_leaf p (Node (f m)) = apply_leaf p ts (get_leaf p (Node m)).

Lemma leafstep_id S : leafstep S (fun m => m) [].
Proof. intros m H. split; [exact H|reflexivity]. Qed.
Lemma leafstep_comp S f g a b :
  leafstep S f a -> leafstep S g b -> leafstep S (fun m => g (f m)) (a ++ b).
Proof.
  intros Hf Hg m Hm. destruct (Hf m Hm) as [I1 G1]. destruct (Hg (f m) I1) as [I2 G2].
  split; [exact I2|]. intros p. rewrite G2, G1, apply_leaf_app. reflexivity.
Qed.
Lemma leafstep_fold {X} S (step : dict -> X -> dict) (g : X -> list tree) l :
  (forall x, In x l -> leafstep S (fun m => step m x) (g x)) ->
  leafstep S (fun m => fold_left step l m) (flat_map g l).
Proof.
  induction l as [|x r IH]; intros H; cbn [fold_left flat_map].
  - apply leafstep_id.
  - apply (leafstep_comp S (fun m => step m x) (fun m => fold_left step r m)).
    + apply H. now left.
    + apply IH. intros y Hy. apply H. now right.
Qed.
Lemma leafstep_same_leaves S f ts ts' :
  (forall p b, apply_leaf p ts b = apply_leaf p ts' b) -> leafstep S f ts -> leafstep S f ts'.
Proof. intros E H m Hm. destruct (H m Hm) as [I G]. split; [exact I|]. intros p. rewrite G. apply E. Qed.

Lemma add1_leaf v k acc : add1 (Leaf v) k acc = upsert k (Leaf v) acc.
Proof. reflexivity. Qed.
Lemma add1_node sk k acc :
  add1 (Node sk) k acc = upsert k (Node (addict (kids_of (assoc key_eqb k acc)) sk)) acc.
Proof. reflexivity. Qed.
Lemma addict_cons tgt k sv r : addict tgt ((k, sv) :: r) = addict (add1 sv k tgt) r.
Proof. reflexivity. Qed.
Lemma addict_nil tgt : addict tgt [] = tgt.
Proof. reflexivity. Qed.

(* merging one entry [k: sv] writes its leaves over those of the target *)
Definition add1_ok (sv : tree) : Prop :=
  forall S k, wf sv -> conf (sub S k) sv -> leafstep S (add1 sv k) [Node [(k, sv)]].

(* addict is the fold of add1 over the entries of the source *)
Lemma leafstep_addict_kids S src : Forall (fun kt => add1_ok (snd kt)) src ->
  wf (Node src) -> conf S (Node src) -> leafstep S (fun m => addict m src) [Node src].
Proof.
  intros F Hw Hc. apply wf_node_inv in Hw. destruct Hw as [Hnd Fw].
  apply conf_node_inv in Hc. destruct Hc as [_ Fc].
  apply (leafstep_same_leaves _ _ (flat_map (fun kt => [Node [kt]]) src)).
  { intros p b. rewrite (flat_map_single _ (fun kt => Node [kt])) by reflexivity. now apply apply_leaf_kids. }
  apply (leafstep_fold S (fun a ks => add1 (snd ks) (fst ks) a)).
  rewrite Forall_forall in *. intros [k sv] Hin. apply (F _ Hin); [apply (Fw _ Hin)|apply (Fc _ Hin)].
Qed.

(* assigning [t'] to key [k] writes the leaves of [{k: sv}] if below [k] the
   leaves of [t'] are those of [sv] written over the old ones *)
Lemma upsert_leaves S m k sv t' : inv S m -> wf t' -> conf (sub S k) t' ->
  (forall q, get_leaf q t' = orelse (get_leaf q sv) (get_leaf (k :: q) (Node m))) ->
  inv S (upsert k t' m) /\
  forall p, get_leaf p (Node (upsert k t' m)) = apply_leaf p [Node [(k, sv)]] (get_leaf p (Node m)).
Proof.
  intros [Hwm Hcm] Hw Hc G. split; [split; [apply wf_upsert|apply conf_upsert]; assumption|].
  intros [|k' q]; [reflexivity|]. cbn [apply_leaf fold_left]. rewrite get_leaf_upsert, get_leaf_cons.
  destruct (key_eqb k' k) eqn:E; [|reflexivity]. apply key_eqb_spec in E. subst k'. apply G.
Qed.

Lemma add1_ok_all sv : add1_ok sv.
Proof.
  induction sv as [v|sk IH] using tree_ind2; intros S k Hw Hc m Hm.
  - rewrite add1_leaf. apply (upsert_leaves S m k (Leaf v)); try assumption.
    intros [|k2 q]; [reflexivity|].
    (* nothing of the target lies below a setting *)
    rewrite (get_leaf_below_setting S m k k2 q (proj2 Hm) (conf_shape _ _ Hc)). reflexivity.
  - rewrite add1_node. apply conf_shape in Hc as Hk.
    destruct (inv_section S m k Hm Hk) as [I0 G0].
    destruct (leafstep_addict_kids (sub S k) sk IH Hw Hc _ I0) as [[W C] G].
    apply (upsert_leaves S m k (Node sk)); try assumption.
    intros q. rewrite G, G0. reflexivity.
Qed.

Lemma leafstep_addict S src :
  wf (Node src) -> conf S (Node src) -> leafstep S (fun m => addict m src) [Node src].
Proof. apply leafstep_addict_kids. apply Forall_forall. intros kt _. apply add1_ok_all. Qed.

Lemma In_flatten t : wf t -> forall p v, In (p, v) (flatten t) <-> get_leaf p t = Some v.
Proof.
  induction t as [v0|kids IH] using tree_ind2; intros Hw p v.
  - destruct p; cbn; split; try discriminate.
    + intros [[= ->]|[]]. reflexivity.
    + intros [= ->]. now left.
    + intros [[=]|[]].
  - apply wf_node_inv in Hw. destruct Hw as [Hnd Fw]. rewrite Forall_forall in IH, Fw.
    cbn [flatten]. split.
    + intros H. apply in_flat_map in H. destruct H as ([k t] & Hin & Hm).
      apply in_map_iff in Hm. destruct Hm as ([q v'] & [= <- <-] & Hq).
      rewrite get_leaf_node, (assoc_NoDup key_eqb key_eqb_spec k kids t Hnd Hin).
      apply (IH _ Hin (Fw _ Hin)). exact Hq.
    + destruct p as [|k q]; [discriminate|]. rewrite get_leaf_node.
      destruct (assoc key_eqb k kids) as [t|] eqn:Ea; [|discriminate]. intros E.
      apply (assoc_In key_eqb key_eqb_spec) in Ea. apply in_flat_map. exists (k, t). split; [exact Ea|].
      apply in_map_iff. exists (q, v). split; [reflexivity|].
      apply (IH _ Ea (Fw _ Ea)). exact E.
Qed.

Lemma get_leaf_chain p : forall q v, get_leaf q (chain p v) = if path_eqb q p then Some v else None.
Proof.
  induction p as [|k p IH]; intros q v; cbn [chain].
  - destruct q; reflexivity.
  - destruct q as [|k' q]; [reflexivity|]. rewrite get_leaf_cons, path_eqb_cons.
    destruct (key_eqb k' k); [apply IH|reflexivity].
Qed.
Lemma wf_chain p v : wf (chain p v).
Proof. induction p as [|k p IH]; cbn; [constructor|now apply wf_single]. Qed.
Lemma conf_chain p : forall s v, leafpath s p -> conf s (chain p v).
Proof.
  induction p as [|k p IH]; intros s v; cbn.
  - intros H. now constructor.
  - intros [H0 H]. apply conf_single; auto.
Qed.
Lemma flatten_chain p v : flatten (chain p v) = [(p, v)].
Proof. induction p as [|k p IH]; cbn; [reflexivity|]. rewrite IH. reflexivity. Qed.
Lemma first_leaf_chain p v : first_leaf (chain p v) = Some (p, v).
Proof. induction p as [|k p IH]; cbn; [reflexivity|]. rewrite IH. reflexivity. Qed.

(* the value of the last record for [p] in [recs], [base] if there is none *)
Definition lastm (p : path) (recs : list (path * val)) (base : option val) : option val :=
  fold_left (fun acc r => if path_eqb p (fst r) then Some (snd r) else acc) recs base.

Lemma lastm_app p l1 l2 b : lastm p (l1 ++ l2) b = lastm p l2 (lastm p l1 b).
Proof. apply fold_left_app. Qed.
Lemma lastm_cons p r l b :
  lastm p (r :: l) b = lastm p l (if path_eqb p (fst r) then Some (snd r) else b).
Proof. reflexivity. Qed.
Lemma lastm_map_cons k p l b :
  lastm p (map (fun pv => (k :: fst pv, snd pv)) l) b =
  match p with
  | k' :: q => if key_eqb k' k then lastm q l b else b
  | [] => b
  end.
Proof.
  revert b. induction l as [|r l IH]; intros b; cbn [map].
  - destruct p as [|k' q]; [reflexivity|]. destruct (key_eqb k' k); reflexivity.
  - rewrite lastm_cons, IH. destruct p as [|k' q]; [reflexivity|]. cbn [fst snd].
    rewrite path_eqb_cons. destruct (key_eqb k' k); reflexivity.
Qed.

Lemma lastm_flatten t : wf t -> forall p b, lastm p (flatten t) b = orelse (get_leaf p t) b.
Proof.
  induction t as [v0|kids IH] using tree_ind2; intros Hw p b.
  - destruct p; reflexivity.
  - apply wf_node_inv in Hw. destruct Hw as [Hnd Fw]. cbn [flatten]. revert b.
    induction kids as [|[k0 t0] r IHr]; intros b; [destruct p; reflexivity|].
    apply Forall_cons_iff in IH, Fw. apply NoDup_cons_iff in Hnd.
    destruct IH as [IH0 IH], Fw as [Hw0 Fw], Hnd as [Hk Hnd].
    cbn [flat_map fst snd]. rewrite lastm_app, lastm_map_cons, IHr by assumption.
    destruct p as [|k q]; [reflexivity|]. rewrite get_leaf_cons.
    destruct (key_eqb k k0) eqn:E; [|reflexivity]. apply key_eqb_spec in E. subst k0.
    rewrite (IH0 Hw0), get_leaf_absent_key by exact Hk. reflexivity.
Qed.

(* schema of the whole .broadcasts dict: point and namespace levels are
   dicts, below them the setting schema [sect] applies *)
Definition full (sect : path -> bool) (p : path) : bool :=
  match p with _ :: _ :: rest => sect rest | _ => true end.
(* {point: {namespace: setting}}, what put_ns merges in *)
Definition wrap (m : msetting) : tree := Node [(fst (fst m), Node [(snd (fst m), snd m)])].
Definition samek (pt ns : key) (m : msetting) : bool :=
  key_eqb pt (fst (fst m)) && key_eqb ns (snd (fst m)).

Lemma wf_wrap m : wf (snd m) -> wf (wrap m).
Proof. intros H. apply wf_single. apply wf_single. exact H. Qed.
Lemma conf_wrap sect m : conf sect (snd m) -> conf (full sect) (wrap m).
Proof. intros H. apply conf_single; [reflexivity|]. apply conf_single; [reflexivity|]. exact H. Qed.
Lemma get_leaf_wrap q m :
  get_leaf q (wrap m) =
  match q with
  | pt :: ns :: r => if samek pt ns m then get_leaf r (snd m) else None
  | _ => None
  end.
Proof.
  unfold wrap, samek. destruct q as [|pt q]; [reflexivity|]. rewrite get_leaf_cons.
  destruct (key_eqb pt (fst (fst m))); cbn [andb]; [|destruct q; reflexivity].
  destruct q as [|ns r]; [reflexivity|]. rewrite get_leaf_cons.
  destruct (key_eqb ns (snd (fst m))); reflexivity.
Qed.

(* [put_mods], level by level *)
Definition ns_mods (tr : C3.tree) (t : tree) (p ns : key) : list msetting :=
  if ns_known tr ns then [(p, ns, t)] else [].
Definition pt_mods tr t nss (pt : option key) : list msetting :=
  match pt with None => [] | Some p => flat_map (ns_mods tr t p) nss end.
Definition setting_mods tr pts nss (s : option tree) : list msetting :=
  match s with None => [] | Some t => flat_map (pt_mods tr t nss) pts end.
Lemma put_mods_settings tr pts nss ss : put_mods tr pts nss ss = flat_map (setting_mods tr pts nss) ss.
Proof. reflexivity. Qed.

Lemma leafstep_put_ns sect tr t p ns : wf t -> conf sect t ->
  leafstep (full sect) (fun m => put_ns tr t p m ns) (map wrap (ns_mods tr t p ns)).
Proof.
  intros Hw Hc. unfold put_ns, ns_mods. destruct (ns_known tr ns); [|apply leafstep_id].
  apply (leafstep_addict (full sect) [(p, Node [(ns, t)])]).
  - apply (wf_wrap (p, ns, t)). exact Hw.
  - apply (conf_wrap sect (p, ns, t)). exact Hc.
Qed.

Lemma leafstep_put_pt sect tr t nss pt : wf t -> conf sect t ->
  leafstep (full sect) (fun m => put_pt tr t nss m pt) (map wrap (pt_mods tr t nss pt)).
Proof.
  intros Hw Hc. destruct pt as [p|]; cbn [put_pt pt_mods]; [|apply leafstep_id].
  rewrite map_flat_map.
  (* creating the point's dict writes no leaf *)
  apply (leafstep_same_leaves _ _ ([Node [(p, Node [])]] ++ flat_map (fun ns => map wrap (ns_mods tr t p ns)) nss)).
  { intros q b. rewrite apply_leaf_app. apply f_equal. cbn.
    destruct q as [|k q]; [reflexivity|]. rewrite get_leaf_cons.
    destruct (key_eqb k p); [|reflexivity]. rewrite get_leaf_empty. reflexivity. }
  apply (leafstep_comp (full sect) (fun m => addict m [(p, Node [])])
           (fun m => fold_left (put_ns tr t p) nss m)).
  - apply leafstep_addict.
    + apply wf_single. constructor; constructor.
    + apply conf_single; [reflexivity|]. now apply inv_nil.
  - apply leafstep_fold. intros ns _. apply leafstep_put_ns; assumption.
Qed.

Lemma leafstep_put_setting sect tr pts nss s :
  match s with Some t => wf t /\ conf sect t | None => True end ->
  leafstep (full sect) (fun m => put_setting tr pts nss m s) (map wrap (setting_mods tr pts nss s)).
Proof.
  destruct s as [t|]; cbn [put_setting setting_mods]; [|intros _; apply leafstep_id].
  intros [Hw Hc]. rewrite map_flat_map. apply leafstep_fold. intros pt _. apply leafstep_put_pt; assumption.
Qed.

Lemma leafstep_put_mem sect tr pts nss ss :
  (forall t, In (Some t) ss -> wf t /\ conf sect t) ->
  leafstep (full sect) (put_mem tr pts nss ss) (map wrap (put_mods tr pts nss ss)).
Proof.
  intros F. rewrite put_mods_settings, map_flat_map.
  apply (leafstep_fold (full sect) (put_setting tr pts nss)).
  intros [t|] Hs; apply leafstep_put_setting; auto.
Qed.

Lemma db_get_delete p q d :
  db_get p (db_delete q d) = if path_eqb p q then None else db_get p d.
Proof.
  unfold db_get, db_delete. induction d as [|[p0 v0] r IH]; cbn [filter assoc fst].
  - destruct (path_eqb p q); reflexivity.
  - destruct (path_eqb p0 q) eqn:E0; cbn [negb].
    + rewrite IH. apply path_eqb_spec in E0. subst p0.
      destruct (path_eqb p q); reflexivity.
    + cbn [assoc]. rewrite IH. destruct (path_eqb p p0) eqn:E1; [|reflexivity].
      apply path_eqb_spec in E1. subst p0. now rewrite E0.
Qed.
Lemma db_get_insert p q v d :
  db_get p (db_insert q v d) = if path_eqb p q then Some v else db_get p d.
Proof.
  unfold db_insert. unfold db_get at 1. rewrite assoc_app. fold (db_get p (db_delete q d)).
  rewrite db_get_delete. cbn [assoc]. destruct (path_eqb p q); [reflexivity|].
  apply orelse_none_r.
Qed.
Lemma db_get_put p recs : forall d, db_get p (db_put recs d) = lastm p recs (db_get p d).
Proof.
  induction recs as [|r l IH]; intros d; [reflexivity|].
  cbn [db_put fold_left]. fold (db_put l (db_insert (fst r) (snd r) d)).
  rewrite IH, db_get_insert. reflexivity.
Qed.
Lemma db_get_del p recs : forall d,
  db_get p (db_del recs d) = if mem path_eqb p (map fst recs) then None else db_get p d.
Proof.
  induction recs as [|r l IH]; intros d; [reflexivity|].
  cbn [db_del fold_left]. fold (db_del l (db_delete (fst r) d)).
  rewrite IH, db_get_delete. cbn [map mem].
  destruct (path_eqb p (fst r)); cbn [orb]; [destruct (mem path_eqb p (map fst l)); reflexivity|reflexivity].
Qed.

Lemma db_nodup_delete q d : NoDup (map fst d) -> NoDup (map fst (db_delete q d)).
Proof. apply NoDup_map_filter. Qed.
Lemma db_nodup_insert q v d : NoDup (map fst d) -> NoDup (map fst (db_insert q v d)).
Proof.
  intros H. unfold db_insert. rewrite map_app. apply NoDup_snoc; [now apply db_nodup_delete|].
  intros Hin. apply in_map_iff in Hin. destruct Hin as (r & E & Hr). apply filter_In in Hr.
  destruct Hr as [_ Hr]. cbn in E, Hr.
  rewrite E, (proj2 (path_eqb_spec q q) eq_refl) in Hr. discriminate.
Qed.
Lemma db_nodup_put recs d : NoDup (map fst d) -> NoDup (map fst (db_put recs d)).
Proof. apply (fold_left_inv (fun d => NoDup (map fst d))). intros a r _. apply db_nodup_insert. Qed.
Lemma db_nodup_del recs d : NoDup (map fst d) -> NoDup (map fst (db_del recs d)).
Proof. apply (fold_left_inv (fun d => NoDup (map fst d))). intros a r _. apply db_nodup_delete. Qed.

Section Sort.
  Context {A : Type} (leb : A -> A -> bool).
  Lemma filter_insert_by (f : A -> bool) x l :
    (forall y, f x = true -> f y = true -> leb x y = true) ->
    filter f (insert_by leb x l) = if f x then x :: filter f l else filter f l.
  Proof.
    intros H. induction l as [|y r IH]; cbn; [reflexivity|].
    destruct (leb x y) eqn:E; cbn; [reflexivity|].
    rewrite IH. destruct (f x) eqn:Fx; destruct (f y) eqn:Fy; try reflexivity.
    rewrite (H y eq_refl Fy) in E. discriminate.
  Qed.
  (* elements that compare as equal under [leb] keep their order *)
  Lemma filter_sort_by (f : A -> bool) l :
    (forall x y, f x = true -> f y = true -> leb x y = true) ->
    filter f (sort_by leb l) = filter f l.
  Proof.
    intros H. induction l as [|x r IH]; [reflexivity|].
    change (sort_by leb (x :: r)) with (insert_by leb x (sort_by leb r)).
    rewrite filter_insert_by by (intros y; apply H). cbn [filter]. now rewrite IH.
  Qed.
End Sort.

Lemma lex_cmp_refl a : lex_cmp a a = Eq.
Proof. induction a as [|x a IH]; cbn; [reflexivity|]. now rewrite Z.compare_refl. Qed.
Lemma samek_leb pt ns x y : samek pt ns x = true -> samek pt ns y = true -> ms_leb x y = true.
Proof.
  unfold samek. intros Hx Hy. apply andb_prop in Hx, Hy. destruct Hx as [E1 E2], Hy as [E3 E4].
  apply key_eqb_spec in E1, E2, E3, E4.
  unfold ms_leb. rewrite <- E1, <- E2, <- E3, <- E4, !lex_cmp_refl. reflexivity.
Qed.

(* only the settings for the point and namespace of [p] matter at [p], and
   the sort by (point, namespace) leaves those in the order they came *)
Lemma apply_leaf_wrap_filter p ms b :
  apply_leaf p (map wrap ms) b =
  match p with
  | pt :: ns :: _ => apply_leaf p (map wrap (filter (samek pt ns) ms)) b
  | _ => b
  end.
Proof.
  revert b. induction ms as [|m r IH]; intros b; [destruct p as [|pt [|ns q]]; reflexivity|].
  cbn [map filter]. rewrite apply_leaf_cons, IH, get_leaf_wrap.
  destruct p as [|pt [|ns q]]; try reflexivity.
  destruct (samek pt ns m) eqn:E; [|reflexivity].
  cbn [map]. now rewrite apply_leaf_cons, get_leaf_wrap, E.
Qed.
Lemma apply_leaf_wrap_sorted p ms b :
  apply_leaf p (map wrap (sort_by ms_leb ms)) b = apply_leaf p (map wrap ms) b.
Proof.
  rewrite (apply_leaf_wrap_filter p (sort_by ms_leb ms)), (apply_leaf_wrap_filter p ms).
  destruct p as [|pt [|ns q]]; try reflexivity.
  rewrite filter_sort_by; [reflexivity|]. intros x y. apply samek_leb.
Qed.

Lemma expand_node m kids : snd m = Node kids ->
  expand m = map (fun pv => (fst (fst m) :: fst pv, snd pv))
               (map (fun pv => (snd (fst m) :: fst pv, snd pv)) (flatten (snd m))).
Proof. unfold expand. intros ->. rewrite map_map. reflexivity. Qed.

Definition ms_ok (m : msetting) : Prop := wf (snd m) /\ exists kids, snd m = Node kids.

Lemma lastm_expand p m b : ms_ok m -> lastm p (expand m) b = orelse (get_leaf p (wrap m)) b.
Proof.
  intros [Hw [kids Hk]]. rewrite get_leaf_wrap, (expand_node m kids Hk). unfold samek.
  rewrite lastm_map_cons. destruct p as [|pt r0]; [reflexivity|].
  destruct (key_eqb pt (fst (fst m))); cbn [andb]; [|destruct r0; reflexivity].
  rewrite lastm_map_cons. destruct r0 as [|ns r]; [reflexivity|].
  destruct (key_eqb ns (snd (fst m))); [|reflexivity].
  apply lastm_flatten. exact Hw.
Qed.

Lemma lastm_expand_all p ms : Forall ms_ok ms -> forall b,
  lastm p (flat_map expand ms) b = apply_leaf p (map wrap ms) b.
Proof.
  induction 1 as [|m r Hm _ IH]; intros b; [reflexivity|].
  cbn [flat_map map]. rewrite lastm_app, lastm_expand by exact Hm. apply IH.
Qed.

Lemma db_get_put_expand p ms d : Forall ms_ok ms ->
  db_get p (db_put (flat_map expand (sort_by ms_leb ms)) d) =
  apply_leaf p (map wrap ms) (db_get p d).
Proof.
  intros F. rewrite db_get_put, lastm_expand_all, apply_leaf_wrap_sorted; [reflexivity|].
  rewrite Forall_forall in *. intros m Hm. apply F. now apply In_sort_by in Hm.
Qed.

(* drop_leaves and prune both map a function over the entries of a dict and
   drop those that come back empty *)
Definition fmap (f : key -> tree -> option tree) (kids : dict) : dict :=
  flat_map (fun kt => match f (fst kt) (snd kt) with
                      | Some t' => [(fst kt, t')] | None => [] end) kids.
Definition get_leaf_o (p : path) (o : option tree) : option val :=
  match o with Some t => get_leaf p t | None => None end.

Lemma fmap_cons f k t r :
  fmap f ((k, t) :: r) = match f k t with Some t' => [(k, t')] | None => [] end ++ fmap f r.
Proof. reflexivity. Qed.
Lemma fmap_keys_in f kids k : In k (map fst (fmap f kids)) -> In k (map fst kids).
Proof.
  induction kids as [|[k0 t0] r IH]; cbn [map fst]; [intros []|].
  rewrite fmap_cons, map_app. intros H. apply in_app_or in H. destruct H as [H|H]; [|right; auto].
  destruct (f k0 t0); [destruct H as [H|[]]; now left|destruct H].
Qed.
Lemma fmap_nodup f kids : NoDup (map fst kids) -> NoDup (map fst (fmap f kids)).
Proof.
  induction kids as [|[k0 t0] r IH]; cbn [map fst]; [constructor|]. intros H.
  inversion H as [|? ? Hk Hr]; subst. rewrite fmap_cons.
  destruct (f k0 t0); cbn; [constructor|]; auto.
  intros Hin. apply Hk. exact (fmap_keys_in f r k0 Hin).
Qed.
Lemma fmap_assoc f kids k : NoDup (map fst kids) ->
  assoc key_eqb k (fmap f kids) =
  match assoc key_eqb k kids with Some t => f k t | None => None end.
Proof.
  induction kids as [|[k0 t0] r IH]; cbn [map fst]; [reflexivity|]. intros H.
  inversion H as [|? ? Hk Hr]; subst. rewrite fmap_cons, assoc_app. cbn [assoc].
  destruct (key_eqb k k0) eqn:E.
  - apply key_eqb_spec in E. subst k0. destruct (f k t0) as [t'|]; cbn [assoc].
    + now rewrite key_eqb_refl.
    + apply (assoc_None key_eqb key_eqb_spec). intros Hin. apply Hk. exact (fmap_keys_in f r k Hin).
  - destruct (f k0 t0); cbn [assoc]; [rewrite E|]; cbn [orelse]; auto.
Qed.
Lemma fmap_forall (Q : key * tree -> Prop) f kids :
  (forall k t t', In (k, t) kids -> f k t = Some t' -> Q (k, t')) -> Forall Q (fmap f kids).
Proof.
  induction kids as [|[k0 t0] r IH]; intros H; [constructor|].
  rewrite fmap_cons. apply Forall_app. split.
  - destruct (f k0 t0) eqn:E; [|constructor]. constructor; [|constructor].
    apply (H k0 t0); [now left|exact E].
  - apply IH. intros k t t' Hin. apply H. now right.
Qed.

(* [o] is [t] without the leaves whose path satisfies [P] (and possibly
   without some empty dicts): still well-formed and conforming *)
Definition restricts (P : path -> bool) (o : option tree) (t : tree) : Prop :=
  (forall t', o = Some t' -> wf t' /\ forall s, conf s t -> conf s t') /\
  forall p, get_leaf_o p o = if P p then None else get_leaf p t.

Lemma restricts_fmap P f kids : wf (Node kids) ->
  (forall k t, In (k, t) kids -> wf t -> restricts (sub P k) (f k t) t) ->
  restricts P (Some (Node (fmap f kids))) (Node kids).
Proof.
  intros Hw H. apply wf_node_inv in Hw. destruct Hw as [Hnd Fw]. rewrite Forall_forall in Fw.
  assert (H' : forall k t, In (k, t) kids -> restricts (sub P k) (f k t) t)
    by (intros k t Hin; apply H; [exact Hin|apply (Fw _ Hin)]).
  split.
  - intros t' [= <-]. split.
    + constructor; [now apply fmap_nodup|]. apply fmap_forall. intros k t t2 Hin E.
      exact (proj1 (proj1 (H' k t Hin) t2 E)).
    + intros s Hc. apply conf_node_inv in Hc. destruct Hc as [Hs Fc]. rewrite Forall_forall in Fc.
      constructor; [exact Hs|]. apply fmap_forall. intros k t t2 Hin E.
      exact (proj2 (proj1 (H' k t Hin) t2 E) _ (Fc _ Hin)).
  - intros [|k q]; [cbn; destruct (P []); reflexivity|]. cbn [get_leaf_o].
    rewrite !get_leaf_node, fmap_assoc by exact Hnd.
    destruct (assoc key_eqb k kids) as [t|] eqn:Ea; [|destruct (P (k :: q)); reflexivity].
    apply (assoc_In key_eqb key_eqb_spec) in Ea. exact (proj2 (H' k t Ea) q).
Qed.

Lemma drop_leaves_node P kids :
  drop_leaves P (Node kids) = Some (Node (fmap (fun k t => drop_leaves (sub P k) t) kids)).
Proof. reflexivity. Qed.
Lemma prune_node kids :
  prune (Node kids) = match fmap (fun _ t => prune t) kids with
                      | [] => None | l => Some (Node l) end.
Proof. reflexivity. Qed.
Lemma prune_root_fmap m : prune_root m = fmap (fun _ t => prune t) m.
Proof. unfold prune_root. rewrite prune_node. destruct (fmap _ m); reflexivity. Qed.

Lemma drop_leaves_spec t : forall P, wf t -> restricts P (drop_leaves P t) t.
Proof.
  induction t as [v|kids IH] using tree_ind2; intros P Hw.
  - cbn [drop_leaves]. split.
    + intros t'. destruct (P []); [discriminate|]. intros [= <-]. auto.
    + intros [|k q]; cbn.
      * destruct (P []); reflexivity.
      * destruct (P []); cbn; destruct (P (k :: q)); reflexivity.
  - rewrite drop_leaves_node. apply restricts_fmap; [exact Hw|].
    rewrite Forall_forall in IH. intros k t Hin. apply (IH _ Hin).
Qed.

Lemma prune_spec t : wf t -> restricts (fun _ => false) (prune t) t.
Proof.
  induction t as [v|kids IH] using tree_ind2; intros Hw.
  - split; [intros t' [= <-]; auto|reflexivity].
  - rewrite Forall_forall in IH.
    destruct (restricts_fmap (fun _ => false) (fun _ t => prune t) kids Hw) as [R G];
      [intros k t Hin; apply (IH _ Hin)|].
    rewrite prune_node. destruct (fmap _ kids) as [|kt l]; [|split; assumption].
    (* an empty dict has no leaves: it may go *)
    split; [discriminate|]. intros p. rewrite <- G. cbn. now rewrite get_leaf_empty.
Qed.

Lemma clear_mem_spec P m : wf (Node m) ->
  restricts P (Some (Node (clear_mem P m))) (Node m).
Proof.
  intros Hw. unfold clear_mem. rewrite prune_root_fmap, drop_leaves_node. cbn [kids_of].
  destruct (drop_leaves_spec (Node m) P Hw) as [D G]. rewrite drop_leaves_node in D, G.
  destruct (D _ eq_refl) as [Hw1 Hc1].
  destruct (restricts_fmap (fun _ => false) (fun _ t => prune t) _ Hw1) as [R G'];
    [intros k t _; apply prune_spec|].
  destruct (R _ eq_refl) as [Hw2 Hc2].
  split; [intros t' [= <-]; auto|]. intros p. rewrite G'. exact (G p).
Qed.

Lemma load_app d r : load (d ++ [r]) = load_row (load d) r.
Proof. unfold load. rewrite fold_left_app. reflexivity. Qed.

Lemma leafstep_load_row S r : S [] = true -> leafpath S (fst r) ->
  leafstep S (fun m => load_row m r) [chain (fst r) (snd r)].
Proof.
  destruct r as [[|k q] v]; cbn [fst snd]; intros HS Hl; [cbn in Hl; congruence|].
  apply (leafstep_addict S [(k, chain q v)]).
  - apply (wf_chain (k :: q)).
  - apply (conf_chain (k :: q)). exact Hl.
Qed.

Lemma load_spec S d : S [] = true -> NoDup (map fst d) ->
  (forall r, In r d -> leafpath S (fst r)) ->
  inv S (load d) /\ forall p, get_leaf p (Node (load d)) = db_get p d.
Proof.
  intros HS. induction d as [|r d IH] using rev_ind; intros Hnd Hl.
  - split; [now apply inv_nil|]. intros p. apply get_leaf_empty.
  - rewrite map_app in Hnd. apply NoDup_remove in Hnd. rewrite app_nil_r in Hnd.
    destruct Hnd as [Hnd Hnot].
    destruct IH as [I G]; [exact Hnd|intros r' Hr'; apply Hl, in_or_app; now left|].
    rewrite load_app.
    destruct (leafstep_load_row S r HS) with (m := load d) as [I' G'];
      [apply Hl, in_or_app; right; now left|exact I|].
    split; [exact I'|]. intros p. rewrite G', G. cbn. rewrite get_leaf_chain.
    unfold db_get. rewrite assoc_app. destruct r as [p0 v0]. cbn [assoc fst snd].
    destruct (path_eqb p p0) eqn:E; cbn [orelse].
    + apply path_eqb_spec in E. subst p. now rewrite (proj2 (assoc_None path_eqb path_eqb_spec _ _)).
    + destruct (assoc path_eqb p d); reflexivity.
Qed.

(* [ci] writes all leaves of the settings it is given, provided they are [good] *)
Definition ci_ok (ci : iter) (good : tree -> Prop) : Prop :=
  forall ms, Forall (fun m => good (snd m)) ms ->
    ci ms = (flat_map expand (sort_by ms_leb ms), false).

(* a setting with exactly one leaf, as the CLI produces them *)
Definition single (t : tree) : Prop :=
  exists kids pv, t = Node kids /\ first_leaf t = Some pv /\ flatten t = [pv].

Lemma single_chain k q v : single (chain (k :: q) v).
Proof.
  exists [(k, chain q v)], (k :: q, v). split; [reflexivity|].
  split; [apply first_leaf_chain|apply flatten_chain].
Qed.

Lemma change_walk_single ms : Forall (fun m => single (snd m)) ms ->
  change_walk first_leaf ms = (flat_map expand ms, false).
Proof.
  induction 1 as [|[[p ns] t] r (kids & [q v] & Ht & Hf & Hfl) _ IH]; [reflexivity|].
  cbn [snd] in *. cbn [change_walk flat_map]. rewrite IH. subst t. rewrite Hf.
  unfold expand. cbn [fst snd]. rewrite Hfl. reflexivity.
Qed.

Lemma ci_ok_pre_fix : ci_ok change_iter_pre_fix single.
Proof.
  intros ms F. unfold change_iter_pre_fix. apply change_walk_single.
  rewrite Forall_forall in *. intros m Hm. apply F. now apply In_sort_by in Hm.
Qed.
Lemma ci_ok_current : ci_ok change_iter (fun _ => True).
Proof. intros ms _. reflexivity. Qed.

(* the state invariant: the in-memory dict is well-formed and follows the schema, and the DB
   table holds exactly its leaves *)
Definition db_mem_inv (sect : path -> bool) (st : state) : Prop :=
  inv (full sect) (s_mem st) /\ NoDup (map fst (s_db st)) /\
  forall p, db_get p (s_db st) = get_leaf p (Node (s_mem st)).

Definition put_setting_ok (sect : path -> bool) (good : tree -> Prop) (s : option tree) : Prop :=
  match s with Some t => wf t /\ conf sect t /\ good t | None => True end.
Definition op_ok (sect : path -> bool) (good : tree -> Prop) (o : op) : Prop :=
  match o with Put _ _ ss => Forall (put_setting_ok sect good) ss | _ => True end.

Lemma put_mods_In tr pts nss ss m : In m (put_mods tr pts nss ss) -> In (Some (snd m)) ss.
Proof.
  intros H. apply in_flat_map in H. destruct H as ([t|] & Hs & H); [|destruct H].
  apply in_flat_map in H. destruct H as ([p|] & _ & H); [|destruct H].
  apply in_flat_map in H. destruct H as (ns & _ & H).
  destruct (ns_known tr ns); [|destruct H]. destruct H as [<-|[]]. exact Hs.
Qed.

Lemma put_inv ci good sect tr pts nss ss st :
  ci_ok ci good -> sect [] = true -> db_mem_inv sect st -> Forall (put_setting_ok sect good) ss ->
  db_mem_inv sect (fst (put_with ci tr pts nss ss st)).
Proof.
  intros Hci Hs (Hinv & Hnd & Heq) F. unfold put_with. rewrite Forall_forall in F.
  assert (Fm : forall m, In m (put_mods tr pts nss ss) ->
                 wf (snd m) /\ conf sect (snd m) /\ good (snd m)).
  { intros m Hm. apply put_mods_In in Hm. exact (F _ Hm). }
  assert (Hgood : Forall (fun m => good (snd m)) (put_mods tr pts nss ss))
    by (apply Forall_forall; intros m Hm; apply (Fm m Hm)).
  rewrite (Hci _ Hgood). cbn [fst s_mem s_db].
  destruct (leafstep_put_mem sect tr pts nss ss) with (m := s_mem st) as [I G];
    [intros t Hin; destruct (F _ Hin) as (Hw & Hc & _); split; assumption|exact Hinv|].
  split; [exact I|]. split; [now apply db_nodup_put|].
  intros p. cbn [s_mem s_db]. rewrite G, db_get_put_expand, Heq; [reflexivity|].
  apply Forall_forall. intros m Hm. destruct (Fm m Hm) as (Hw & Hc & _).
  split; [exact Hw|]. apply conf_shape in Hc. rewrite Hs in Hc. destruct (snd m); [discriminate|eauto].
Qed.

(* a leaf of the whole dict lies below a point, a namespace and a setting key *)
Definition long (p : path) : Prop := match p with _ :: _ :: _ :: _ => True | _ => False end.
Lemma leaf_long sect m p v : sect [] = true -> conf (full sect) (Node m) ->
  get_leaf p (Node m) = Some v -> long p.
Proof.
  intros Hs Hc E. apply (get_leaf_leafpath _ _ _ _ Hc) in E.
  destruct p as [|pt [|ns [|k rest]]]; cbn in E; [| | |exact I].
  - discriminate.
  - destruct E as [_ E]. discriminate.
  - destruct E as [_ [_ E]]. unfold sub, full in E. congruence.
Qed.

(* clear hands each removed leaf to the iterator as a single-leaf setting,
   and gets the same leaves back as the records to delete *)
Lemma expand_split_ms pv : long (fst pv) -> flat_map expand (split_ms pv) = [pv].
Proof.
  destruct pv as [[|pt [|ns [|k rest]]] v]; cbn [fst long]; try contradiction. intros _.
  unfold split_ms, expand. cbn [fst snd flat_map chain].
  change (Node [(k, chain rest v)]) with (chain (k :: rest) v). rewrite flatten_chain. reflexivity.
Qed.
Lemma split_ms_good (good : tree -> Prop) pv ms :
  (forall k q v, good (chain (k :: q) v)) -> long (fst pv) -> In ms (split_ms pv) -> good (snd ms).
Proof.
  destruct pv as [[|pt [|ns [|k rest]]] v]; cbn [fst long]; try contradiction.
  intros Hg _ [<-|[]]. apply Hg.
Qed.
Lemma In_clear_recs removed r : (forall pv, In pv removed -> long (fst pv)) ->
  In r (flat_map expand (sort_by ms_leb (flat_map split_ms removed))) <-> In r removed.
Proof.
  intros Hl. split; intros H.
  - apply in_flat_map in H. destruct H as (ms & Hms & Hr).
    apply In_sort_by, in_flat_map in Hms. destruct Hms as (pv & Hpv & Hms).
    assert (Hin : In r (flat_map expand (split_ms pv))) by (apply in_flat_map; eauto).
    rewrite expand_split_ms in Hin by auto. destruct Hin as [<-|[]]. exact Hpv.
  - assert (Hr : In r (flat_map expand (split_ms r))) by (rewrite expand_split_ms by auto; now left).
    apply in_flat_map in Hr. destruct Hr as (ms & Hms & Hr).
    apply in_flat_map. exists ms. split; [apply In_sort_by, in_flat_map; eauto|exact Hr].
Qed.

(* deleting the records of the leaves whose path satisfies [P] deletes by [P] *)
Lemma mem_removed P t recs p : wf t ->
  (forall r, In r recs <-> In r (filter (fun pv => P (fst pv)) (flatten t))) ->
  (if mem path_eqb p (map fst recs) then None else get_leaf p t) =
  if P p then None else get_leaf p t.
Proof.
  intros Hw Hr.
  assert (Hrem : forall v, In (p, v) recs <-> get_leaf p t = Some v /\ P p = true).
  { intros v. rewrite Hr, filter_In, (In_flatten _ Hw). reflexivity. }
  destruct (mem path_eqb p (map fst recs)) eqn:Em.
  - apply mem_path_In, in_map_iff in Em. destruct Em as ([q v] & E & Hin). cbn [fst] in E. subst q.
    apply Hrem in Hin. destruct Hin as [_ ->]. reflexivity.
  - destruct (P p) eqn:HP; [|reflexivity].
    destruct (get_leaf p t) as [v|] eqn:Ev; [|reflexivity].
    assert (Hin : In (p, v) recs) by (apply Hrem; auto).
    apply (in_map fst), mem_path_In in Hin. cbn [fst] in Hin. congruence.
Qed.

Lemma clear_inv ci good sect pts nss cancel st :
  ci_ok ci good -> (forall k q v, good (chain (k :: q) v)) -> sect [] = true ->
  db_mem_inv sect st -> db_mem_inv sect (fst (clear_with ci pts nss cancel st)).
Proof.
  intros Hci Hg Hs ([Hw Hc] & Hnd & Heq). unfold clear_with.
  set (P := targeted pts nss (cancel_keys cancel)).
  set (removed := filter (fun pv => P (fst pv)) (flatten (Node (s_mem st)))).
  assert (Hlong : forall pv, In pv removed -> long (fst pv)).
  { intros [p v] H. apply filter_In in H. destruct H as [H _]. apply (In_flatten _ Hw) in H.
    exact (leaf_long sect _ p v Hs Hc H). }
  assert (Hgood : Forall (fun ms => good (snd ms)) (flat_map split_ms removed)).
  { apply Forall_forall. intros ms Hms. apply in_flat_map in Hms. destruct Hms as (pv & Hpv & Hms).
    exact (split_ms_good good pv ms Hg (Hlong _ Hpv) Hms). }
  rewrite (Hci _ Hgood). cbn [fst s_mem s_db].
  destruct (clear_mem_spec P (s_mem st) Hw) as [R G]. destruct (R _ eq_refl) as [W C].
  split; [split; [exact W|exact (C _ Hc)]|]. split; [apply db_nodup_del; exact Hnd|].
  intros p. cbn [s_mem s_db]. specialize (G p). cbn [get_leaf_o] in G. rewrite G, db_get_del, Heq.
  apply (mem_removed P (Node (s_mem st))); [exact Hw|]. intros r. apply In_clear_recs, Hlong.
Qed.

Lemma step_inv ci good sect tr st o :
  ci_ok ci good -> (forall k q v, good (chain (k :: q) v)) -> sect [] = true ->
  db_mem_inv sect st -> op_ok sect good o -> db_mem_inv sect (fst (step_with ci tr st o)).
Proof.
  intros Hci Hg Hs HI Ho. destruct o as [pts nss ss|pts nss c|c|]; cbn [step_with].
  - eapply put_inv; eauto.
  - eapply clear_inv; eauto.
  - unfold expire_with. destruct (filter _ _); [exact HI|]. eapply clear_inv; eauto.
  - exact HI.
Qed.

Lemma run_inv ci good sect tr h :
  ci_ok ci good -> (forall k q v, good (chain (k :: q) v)) -> sect [] = true ->
  Forall (op_ok sect good) h -> db_mem_inv sect (run_with ci tr h).
Proof.
  intros Hci Hg Hs F. rewrite Forall_forall in F. apply (fold_left_inv (db_mem_inv sect)).
  - intros st o Ho HI. eapply step_inv; eauto.
  - split; [now apply inv_nil|]. split; [constructor|]. intros p. cbn. now rewrite get_leaf_empty.
Qed.

(* the state reloaded from the DB has the same leaves as the in-memory state *)
Lemma roundtrip_gen ci good sect tr h :
  ci_ok ci good -> (forall k q v, good (chain (k :: q) v)) -> sect [] = true ->
  Forall (op_ok sect good) h ->
  let st := run_with ci tr h in
  forall p, get_leaf p (Node (load (s_db st))) = get_leaf p (Node (s_mem st)).
Proof.
  intros Hci Hg Hs F st p. destruct (run_inv ci good sect tr h Hci Hg Hs F) as ((Hw & Hc) & Hnd & Heq).
  fold st in Hw, Hc, Hnd, Heq.
  destruct (load_spec (full sect) (s_db st)) as [_ G]; [reflexivity|exact Hnd| |].
  - intros [p0 v0] Hin. cbn [fst]. apply (get_leaf_leafpath p0 (full sect) (Node (s_mem st)) v0 Hc).
    rewrite <- Heq. apply (assoc_NoDup path_eqb path_eqb_spec); assumption.
  - rewrite G. apply Heq.
Qed.

Lemma clear_with_mem ci pts nss cancel st :
  s_mem (fst (clear_with ci pts nss cancel st)) =
  clear_mem (targeted pts nss (cancel_keys cancel)) (s_mem st).
Proof. unfold clear_with. destruct (ci _). reflexivity. Qed.

Definition prec_order (anc : list key) (cycle : key) : list (key * key) :=
  map (pair KStar) (rev anc) ++ map (pair cycle) (rev anc).
(* the last defined of a list of options, starting from [b] *)
Definition last_defined (l : list (option val)) (b : option val) : option val :=
  fold_left (fun acc o => orelse o acc) l b.

Lemma apply_leaf_last p ts b : apply_leaf p ts b = last_defined (map (get_leaf p) ts) b.
Proof. revert b. induction ts as [|t r IH]; intros b; cbn; [reflexivity|apply IH]. Qed.
Lemma last_defined_app l1 l2 b : last_defined (l1 ++ l2) b = last_defined l2 (last_defined l1 b).
Proof. apply fold_left_app. Qed.
(* trees that together write at most one value at [p], for each [x] in turn *)
Lemma apply_leaf_flat_map {X} p (g : X -> list tree) (h : X -> option val) l :
  (forall x b, apply_leaf p (g x) b = orelse (h x) b) ->
  forall b, apply_leaf p (flat_map g l) b = last_defined (map h l) b.
Proof.
  intros H. induction l as [|x r IH]; intros b; [reflexivity|].
  cbn [flat_map map]. rewrite apply_leaf_app, H. exact (IH _).
Qed.

Lemma fold_addict_spec sect srcs : sect [] = true ->
  Forall (inv sect) srcs ->
  inv sect (fold_left addict srcs []) /\
  forall p, get_leaf p (Node (fold_left addict srcs [])) = apply_leaf p (map Node srcs) None.
Proof.
  intros Hs F. rewrite Forall_forall in F.
  destruct (leafstep_fold sect addict (fun s => [Node s]) srcs) with (m := @nil (key * tree)) as [I G].
  - intros s Hin. apply leafstep_addict; apply (F s Hin).
  - now apply inv_nil.
  - split; [exact I|]. intros p. rewrite G, (flat_map_single _ Node) by reflexivity. cbn. now rewrite get_leaf_empty.
Qed.

(* the dict stored under a key, if it is one *)
Definition dict_at (o : option tree) : list dict :=
  match o with Some (Node s) => [s] | _ => [] end.

Lemma dict_at_spec S m k : inv S m -> sub S k [] = true ->
  Forall (inv (sub S k)) (dict_at (assoc key_eqb k m)) /\
  forall p b, apply_leaf p (map Node (dict_at (assoc key_eqb k m))) b =
              orelse (get_leaf (k :: p) (Node m)) b.
Proof.
  intros Hi Hk. destruct (inv_section S m k Hi Hk) as [I G]. split.
  - destruct (assoc key_eqb k m) as [[v|s]|]; cbn [dict_at]; [constructor| |constructor].
    constructor; [exact I|constructor].
  - intros p b. rewrite <- G.
    destruct (assoc key_eqb k m) as [[v|s]|]; cbn [dict_at kids_of map]; rewrite ?get_leaf_empty; reflexivity.
Qed.

(* what [bc_sources] takes from point [c] and namespace [ns] *)
Definition source (m : dict) (c ns : key) : list dict :=
  dict_at (assoc key_eqb ns (kids_of (assoc key_eqb c m))).

Lemma source_spec sect m c ns : inv (full sect) m -> sect [] = true ->
  Forall (inv sect) (source m c ns) /\
  forall p b, apply_leaf p (map Node (source m c ns)) b =
              orelse (get_leaf (c :: ns :: p) (Node m)) b.
Proof.
  intros Hi Hs. destruct (inv_section (full sect) m c Hi eq_refl) as [I G].
  destruct (dict_at_spec _ _ ns I Hs) as [F L]. split; [exact F|].
  intros p b. rewrite <- G. apply L.
Qed.

Lemma bc_sources_prec m anc cycle :
  bc_sources m anc cycle = flat_map (fun cn => source m (fst cn) (snd cn)) (prec_order anc cycle).
Proof.
  assert (H : forall c l,
             match assoc key_eqb c m with
             | Some (Node nsd) => flat_map (fun ns => dict_at (assoc key_eqb ns nsd)) l
             | _ => []
             end = flat_map (source m c) l).
  { intros c l. unfold source.
    destruct (assoc key_eqb c m) as [[v|nsd]|]; [|reflexivity|]; induction l; cbn; auto. }
  unfold bc_sources, prec_order. cbn [flat_map].
  rewrite app_nil_r, flat_map_app, !flat_map_map. apply f_equal2; apply H.
Qed.

Lemma sources_ok sect m anc cycle : inv (full sect) m -> sect [] = true ->
  Forall (inv sect) (bc_sources m anc cycle).
Proof.
  intros Hi Hs. rewrite bc_sources_prec. apply Forall_flat_map, Forall_forall.
  intros cn _. apply (source_spec sect m _ _ Hi Hs).
Qed.
