(* Proofs/PoolTheorems.v — what acceptance by the pool monitor implies, property by property *)
From Coq Require Import List Bool Arith ZArith Lia.
From Cylc Require Import Base.Util Model.Pool Proofs.PoolProofs.
Import ListNotations.
Open Scope Z_scope.

(* the events that may change [done] (output events, and [ECmdRemove], which erases) or [bcast] *)
Definition logs (e : event) : bool :=
  match e with
  | EOutput _ _ | EStaleOutput _ _ | ECmdRemove _ | EBcast _ | EBcastLoaded _ => true
  | _ => false
  end.

Lemma core_frame s s' : core s' = core s -> done s' = done s /\ bcast s' = bcast s.
Proof. now intros [= _ _ _ -> _ _ ->]. Qed.

(* events with few tests, whose successor state is read off [step] directly *)
Definition few_tests (e : event) : bool :=
  match e with
  | EMerge _ _ | EAbs _ | ERestart | ESpawnHist _ _ _ _ | ETransient _ _ _ | EForceSat _ _
  | EStateForced _ _ _ _ _ | EManual _ | ECrash => true
  | _ => false
  end.

Lemma step_silent c s e s' :
  logs e = false -> step c s e = Ok s' -> done s' = done s /\ bcast s' = bcast s.
Proof.
  intros L H. destruct (quiet e) eqn:Q; [exact (core_frame _ _ (step_quiet _ _ _ _ Q H))|].
  destruct (few_tests e) eqn:F.
  { destruct e; try discriminate F; revert H; cbn [step]; peel; intros [= <-];
      rewrite ?store_done, ?store_bcast; split; reflexivity. }
  destruct e; try discriminate; clear L Q F.
  (* ESpawn EAdd ESat EState ERelease ESubmit ERemove ERestore ETickEnd: the successor state of the step_* lemma *)
  - apply step_spawn in H. destruct H as (_ & _ & _ & _ & _ & ->). cbn. apply core_frame, add_hold_if_core.
  - apply step_add in H. destruct H as (p & _ & _ & ->). now split.
  - apply step_sat in H. destruct H as (p & inp & i & _ & _ & _ & _ & ->). now rewrite store_done, store_bcast.
  - destruct (lookup s t) as [[p inp]|] eqn:El.
    + destruct (step_state _ _ _ _ _ _ _ _ _ _ H El) as (_ & _ & _ & _ & _ & _ & _ & _ & ->).
      rewrite store_done, store_bcast. apply core_frame, add_hold_if_core.
    + cbn [step] in H. rewrite El in H. destruct h; injection H as <-; [apply core_frame, add_hold_core|now split].
  - apply step_release in H. destruct H as (_ & _ & ->). now split.
  - apply step_submit in H. destruct H as (p & i & _ & _ & _ & _ & _ & _ & ->). now split.
  - apply step_remove in H. destruct H as (p & i & _ & _ & _ & ->). now split.
  - destruct (crash_mode s) eqn:Hc.
    + apply (step_restore_crash _ _ _ _ Hc) in H. destruct H as (_ & _ & _ & _ & _ & ->). now split.
    + apply (step_restore _ _ _ _ Hc) in H. destruct H as (p & _ & _ & _ & ->). now split.
  - apply step_tick in H. destruct H as (_ & _ & _ & _ & _ & _ & _ & ->). now split.
Qed.

Lemma step_done c s e s' k :
  step c s e = Ok s' -> In k (done s') ->
  In k (done s) \/ e = EOutput (fst k) (snd k) \/ e = EStaleOutput (fst k) (snd k).
Proof.
  intros H. destruct (logs e) eqn:L; [|destruct (step_silent _ _ _ _ L H) as [-> _]; auto].
  revert H. destruct e; try discriminate L; cbn [step]; peel; intros [= <-]; cbn; rewrite ?store_done; auto.
  all: try solve [intros [<-|Hk]; auto].
  (* ECmdRemove only filters [done] *)
  intros Hk. apply filter_In in Hk. tauto.
Qed.

Lemma exec_done c s tr s' k :
  exec c s tr = Some s' -> In k (done s') -> In k (done s) \/ emitted tr k.
Proof.
  revert tr s'. apply (exec_ind c s (fun tr s' => In k (done s') -> In k (done s) \/ emitted tr k)); [auto|].
  unfold emitted. intros tr s1 e s2 IH H Hk. rewrite !in_app_iff. cbn.
  destruct (step_done _ _ _ _ _ H Hk) as [Hd|[->| ->]]; [|auto..]. destruct (IH Hd) as [?|[?|?]]; auto.
Qed.

(* only a broadcast event changes the broadcasts in force (or, after a crash, adopting what was committed) *)
Lemma step_bcast c s e s' :
  step c s e = Ok s' ->
  bcast s' = bcast s \/ (exists n, e = EBcast n) \/ (exists n, e = EBcastLoaded n /\ crash_mode s = true).
Proof.
  intros H. destruct (logs e) eqn:L; [|destruct (step_silent _ _ _ _ L H) as [_ ->]; auto].
  revert H. destruct e; try discriminate L; cbn [step]; eauto.
  all: try solve [peel; intros [= <-]; cbn; rewrite ?store_bcast; auto].
  (* EBcastLoaded *)
  destruct (crash_mode s); [eauto|]. peel. intros [= <-]. auto.
Qed.

(* C01 / C07 / C02 / C20 / C28 *)
Theorem pool_on_sequence_in_bounds c tr s p :
  exec c (init_state c) tr = Some s -> In p (pool s) -> valid_id c (p_id p).
Proof. intros H Hp. apply (inv_valid c s); [eapply reachable_Inv; eauto|now left]. Qed.

Theorem submissions_distinct c tr s :
  exec c (init_state c) tr = Some s -> NoDup (subs s).
Proof. intros H. apply (inv_subs c s). eapply reachable_Inv; eauto. Qed.

Theorem submit_within_try_bound c s t sn s' :
  step c s (ESubmit t sn) = Ok s' ->
  exists p i, find_task (pool s) t = Some p /\ find_inst (c_insts c) t = Some i /\
    (p_manual p = true \/
     (count_true (fun x => tid_eqb (fst x) t) (subs s) < i_tries i)%nat) /\
    ~ In (t, sn) (subs s).
Proof.
  intros H. apply step_submit in H. destruct H as (p & i & Hf & Hi & _ & Hn & Hb & _). eauto 6.
Qed.

(* C01 *)
Theorem submit_only_when_satisfied c tr1 tr2 t sn sf :
  exec c (init_state c) (tr1 ++ ESubmit t sn :: tr2) = Some sf ->
  exists s1 p i,
    exec c (init_state c) tr1 = Some s1 /\
    find_task (pool s1) t = Some p /\ find_inst (c_insts c) t = Some i /\
    valid_id c t /\ p_status p = Preparing /\
    (p_manual p = true \/
     forall e, In e (i_pre i) ->
       bx_holds (fun k => emitted tr1 k \/ In k (p_forced p)) e).
Proof.
  intros H. apply exec_app in H. destruct H as [s1 [H1 H2]].
  apply exec_cons in H2. destruct H2 as [s2 [Hs _]].
  apply step_submit in Hs. destruct Hs as (p & i & Hf & Hi & Hp & _).
  pose proof (reachable_Inv _ _ _ H1) as I. apply Inv_tasks in I. destruct I as (_ & _ & _ & T).
  apply find_task_In in Hf as Hin. destruct Hin as [Hin <-].
  destruct (T p (or_introl (or_introl Hin))) as (V & Sa & O).
  exists s1, p, i. do 5 (split; [assumption|]).
  (* a preparing task needs its prerequisites, and what satisfies them was emitted before *)
  destruct (O i Hi) as [Hm|Hok]; [unfold needs_ok; now rewrite Hp|now left|right].
  intros e He. unfold prereqs_ok in Hok. rewrite forallb_forall in Hok.
  eapply bx_eval_holds; [|apply Hok; exact He].
  intros k Hk. apply sat_of_spec in Hk. destruct Hk as [Hk|Hk]; [left|now right].
  destruct (exec_done _ _ _ _ _ H1 (Sa k Hk)) as [[]|Ho]. exact Ho.
Qed.

(* C04: the runahead limit *)
Theorem runahead_release_within_limit c s t st h q s' p inp :
  step c s (EState t st h q false) = Ok s' ->
  lookup s t = Some (p, inp) -> p_runahead p = true -> p_manual p = false -> is_final (p_status p) = false ->
  exists l, limit s = Some l /\ fst (p_id p) <= l.
Proof.
  intros H El Hr Hm Hf. destruct (step_state _ _ _ _ _ _ _ _ _ _ H El) as (_ & _ & _ & _ & Hl & _).
  destruct (Hl eq_refl Hr) as [Hw|[?|?]]; [|congruence..].
  unfold within_limit in Hw. destruct (limit s) as [l|]; [|discriminate]. exists l. now rewrite <- Z.leb_le.
Qed.

Lemma nth_or_last_ge n : forall l d b, (forall x, In x l -> b <= x) -> b <= d -> b <= nth_or_last n l d.
Proof.
  induction n as [|n IH]; intros l d b Hl Hd; destruct l as [|x r]; cbn; auto.
  - apply Hl. now left.
  - apply IH; [intros y Hy; apply Hl; now right|apply Hl; now left].
Qed.
Lemma nth_or_last_In n : forall l d, l <> [] -> In (nth_or_last n l d) l.
Proof.
  induction n as [|n IH]; intros l d Hl; destruct l as [|x r]; cbn; try congruence; [now left|].
  destruct r as [|y r']; [destruct n; cbn; now left|]. right. apply IH. discriminate.
Qed.

Lemma max_future_nonneg c pl : 0 <= max_future c pl.
Proof. unfold max_future. induction pl as [|p r IH]; cbn [fold_right]; lia. Qed.

(* C03 / C43: automatic shutdown; C03 / C04: bounded waiting *)
Theorem auto_shutdown_guard c s s' :
  step c s EShutdownAuto = Ok s' ->
  forall p, In p (pool s) ->
    is_active (p_status p) = false /\
    (p_status p = Waiting -> p_runahead p = true) /\
    (fst (p_id p) <= stop_point s ->
       is_final (p_status p) = false /\ (p_status p = Waiting -> p_sat p = [])).
Proof. intros H. now apply step_shutdown_auto in H. Qed.

(* a tick end is accepted only if no ready task has been left unqueued, and no task within the
   runahead limit left unreleased, for [max_idle] consecutive iterations *)
Theorem tick_end_progress c s snap hl hp s' :
  step c s (ETickEnd snap hl hp) = Ok s' ->
  forall p, In p (pool s') -> (p_idle p < max_idle)%nat /\ (p_lag p < max_idle)%nat.
Proof. intros H. now apply step_tick in H. Qed.

(* C09 *)
Inductive lifecycle : status -> status -> Prop :=
| lc_prep : lifecycle Waiting Preparing
| lc_expire : lifecycle Waiting Expired
| lc_p_sub : lifecycle Preparing Submitted
| lc_p_sf : lifecycle Preparing SubmitFailed
| lc_p_run : lifecycle Preparing Running
| lc_p_succ : lifecycle Preparing Succeeded
| lc_p_fail : lifecycle Preparing Failed
| lc_s_run : lifecycle Submitted Running
| lc_s_succ : lifecycle Submitted Succeeded
| lc_s_fail : lifecycle Submitted Failed
| lc_s_sf : lifecycle Submitted SubmitFailed
| lc_r_succ : lifecycle Running Succeeded
| lc_r_fail : lifecycle Running Failed
| lc_retry_p : lifecycle Preparing Waiting
| lc_retry_s : lifecycle Submitted Waiting
| lc_retry_r : lifecycle Running Waiting.

Lemma trans_ok_lifecycle p a b : trans_ok p a b = true -> lifecycle a b.
Proof. destruct a, b; cbn; intros H; try discriminate; constructor. Qed.

Theorem status_change_follows_lifecycle c s t st h q r s' p inp :
  step c s (EState t st h q r) = Ok s' -> lookup s t = Some (p, inp) ->
  st = p_status p \/ p_manual p = true \/
  (lifecycle (p_status p) st /\
   (p_status p = Waiting -> st = Preparing -> p_rel p = true \/ p_manual p = true) /\
   (st = Preparing -> p_held p = true -> p_manual p = true)).
Proof.
  intros H El. destruct (step_state _ _ _ _ _ _ _ _ _ _ H El) as (_ & _ & Ht & _ & _ & Hh & _).
  destruct (status_eqb st (p_status p)) eqn:Es; [left; now apply status_eqb_eq|].
  destruct Ht as [->|[?|Ht]]; [now rewrite (proj2 (status_eqb_eq _ _) eq_refl) in Es|auto|].
  do 2 right. split; [eapply trans_ok_lifecycle; eauto|]. split.
  - intros Hw ->. rewrite Hw in Ht. now apply orb_true_iff in Ht.
  - intros -> Hp. destruct (Hh eq_refl Hp) as [Hs|?]; [|assumption]. rewrite Hs in Es. discriminate.
Qed.

(* C11 *)
Theorem removed_as_complete_is_complete c s t s' :
  step c s (ERemove t true) = Ok s' ->
  exists p i, find_task (pool s) t = Some p /\ find_inst (c_insts c) t = Some i /\
    is_final (p_status p) = true /\ cx_eval (has_out (p_outs p)) (i_comp i) = true.
Proof.
  intros H. apply step_remove in H. destruct H as (p & i & Hf & Hi & Hc & _).
  exists p, i. do 2 (split; [assumption|]). now apply Hc.
Qed.

Theorem finished_complete_not_retained c s snap hl hp s' :
  step c s (ETickEnd snap hl hp) = Ok s' ->
  forall p i, In p (pool s) -> find_inst (c_insts c) (p_id p) = Some i ->
    is_final (p_status p) = true -> cx_eval (has_out (p_outs p)) (i_comp i) = false.
Proof.
  intros H p i Hp Hi. apply step_tick in H. destruct H as (_ & _ & _ & _ & _ & _ & H & _). now apply (H p i).
Qed.

(* C05 (pool level) *)
(* released now for the first time, not counting manually triggered tasks (which may exceed a limit) *)
Definition newly_released (s : mstate) (l : list tid) : list tid :=
  filter (fun t => match find_task (pool s) t with
                   | Some p => negb (p_rel p) && negb (p_manual p) | None => true end) l.
Definition count_in_queue (c : cfg) (q : nat) (l : list tid) : nat :=
  count_true (fun t => match find_inst (c_insts c) t with
                       | Some i => Nat.eqb (i_queue i) q | None => false end) l.

Theorem release_respects_queue_limits c s l s' :
  step c s (ERelease l) = Ok s' ->
  (forall t, In t l -> exists p, find_task (pool s) t = Some p /\ (p_held p = false \/ p_manual p = true)) /\
  forall q, (q < length (c_qlimits c))%nat -> qlimit c q <> 0%nat ->
    count_in_queue c q (newly_released s l) <> 0%nat ->
    (active_in c s q + count_in_queue c q (newly_released s l) <= qlimit c q)%nat.
Proof.
  intros H. apply step_release in H. destruct H as (Hl & Hr & _). split.
  - intros t Ht. destruct (Hl t Ht) as (p & _ & Hf & _ & _ & Hh & _). eauto.
  - intros q Hq Hlim Hn. unfold release_ok in Hr. rewrite forallb_forall in Hr.
    specialize (Hr q). rewrite in_seq in Hr. fold (newly_released s l) in Hr.
    fold (count_in_queue c q (newly_released s l)) in Hr.
    rewrite !orb_true_iff, !Nat.eqb_eq, Nat.leb_le in Hr. destruct Hr as [?|[?|?]]; [lia|congruence..|assumption].
Qed.

(* C06 (pool level): a held task is not queued *)
Theorem held_not_queued c s t st h s' p inp r :
  step c s (EState t st h true r) = Ok s' -> lookup s t = Some (p, inp) -> p_queued p = false ->
  p_manual p = false -> h = false.
Proof.
  intros H El Hq Hm. destruct (step_state _ _ _ _ _ _ _ _ _ _ H El) as (i & _ & _ & Hr & _).
  destruct (Hr eq_refl Hq) as [?|R]; [congruence|]. unfold ready in R. cbn in R.
  rewrite !andb_true_iff, negb_true_iff in R. tauto.
Qed.

(* C19: stop + restart *)
Theorem restart_keeps_persistent_state c s s' :
  step c s ERestart = Ok s' ->
  saved s' = map restored (pool s) /\ pool s' = [] /\
  to_hold s' = to_hold s /\ hold_pt s' = hold_pt s /\ stop_point s' = stop_point s /\
  stop_task s' = stop_task s /\ subs s' = subs s /\ done s' = done s /\ abs_done s' = abs_done s /\
  hist s' = hist s.
Proof. cbn [step]. intros [= <-]. cbn. repeat split. Qed.

(* every task the restart gives back equals the expectation for a pooled task *)
Theorem restore_matches_expected c s v s' :
  crash_mode s = false ->
  step c s (ERestore v) = Ok s' ->
  exists p, find_task (saved s) (v_id v) = Some p /\ view_matches p v = true /\
            pool s' = pool s ++ [p] /\ saved s' = remove_task (saved s) (v_id v) /\ crash_mode s' = false.
Proof.
  intros Hc H. apply (step_restore _ _ _ _ Hc) in H. destruct H as (p & Hf & Hv & _ & ->). eauto 6.
Qed.

(* the restored tasks only move from [saved] to the pool *)
Lemma restores_account c vs : forall s s',
  crash_mode s = false -> exec c s (map ERestore vs) = Some s' ->
  crash_mode s' = false /\ forall p, In p (pool s') \/ In p (saved s') <-> In p (pool s) \/ In p (saved s).
Proof.
  induction vs as [|v r IH]; intros s s' Hc H; [injection H as <-; tauto|].
  apply exec_cons in H. destruct H as [s1 [H1 H]].
  destruct (restore_matches_expected _ _ _ _ Hc H1) as (x & Hf & _ & Hp & Hs & Hc1).
  destruct (IH _ _ Hc1 H) as [D A]. split; [exact D|]. intros p. rewrite A, Hp, Hs, in_app_iff. cbn.
  pose proof (find_remove_task _ _ _ p Hf). pose proof (In_remove_task (saved s) (v_id v) p).
  apply find_task_In in Hf. intuition (subst; auto).
Qed.

(* end to end: after a stop and restart the pool is exactly the old pool with every task
   restored as [restored] says (preparing -> waiting under the same submit number; status,
   held flag, flows, satisfied prerequisites, outputs and submit number otherwise unchanged) *)
Theorem restart_roundtrip c s vs s' :
  exec c s (ERestart :: map ERestore vs ++ [ERestartDone]) = Some s' ->
  forall q, In q (pool s') <-> In q (map restored (pool s)).
Proof.
  intros H. apply exec_cons in H. destruct H as [s0 [[= <-] H]].
  apply exec_snoc in H. destruct H as [s1 [H1 H2]].
  apply restores_account in H1; [|reflexivity]. destruct H1 as [D A]. cbn in A.
  cbn [step] in H2. rewrite D in H2. destruct (saved s1); [|discriminate]. injection H2 as <-.
  intros q. specialize (A q). cbn in A. clear - A. tauto.
Qed.

(* C20: crash + restart *)
(* whatever the database gives back after a crash is accepted only if it is consistent *)
Theorem crash_restore_is_consistent c s v s' :
  crash_mode s = true -> step c s (ERestore v) = Ok s' ->
  exists i, find_inst (c_insts c) (v_id v) = Some i /\
    c_icp c <= fst (v_id v) <= c_fcp c /\
    (forall k, In k (v_sat v) -> In k (done s)) /\
    (forall o, In o (v_outs v) -> In (v_id v, o) (done s)) /\
    ~ In (v_id v) (map p_id (pool s)) /\
    (forall x, In x (subs s') -> In x (subs s) /\ (fst x = v_id v -> (snd x <= v_sn v)%nat)).
Proof.
  intros Hc H. apply (step_restore_crash _ _ _ _ Hc) in H. destruct H as (((i & Hi) & Hb) & Hn & Hs & Ho & _ & ->).
  exists i. do 5 (split; [assumption|]). cbn. intros x Hx. apply filter_In in Hx. destruct Hx as [Hx Hf].
  split; [exact Hx|]. intros Heq. rewrite Heq, tid_eqb_refl in Hf. now apply Nat.leb_le in Hf.
Qed.

(* C29 / C28: commands *)
Theorem force_sat_only_own_prerequisites c s t keys s' p inp i :
  step c s (EForceSat t keys) = Ok s' -> lookup s t = Some (p, inp) -> find_inst (c_insts c) t = Some i ->
  forall k, In k keys -> exists pre, In (k, pre) (inst_keys i).
Proof.
  intros H El Hi. destruct (step_force_sat _ _ _ _ _ _ _ H El) as (i' & Hi' & Hk & _).
  rewrite Hi in Hi'. injection Hi' as <-. exact Hk.
Qed.

(* C30: cylc remove erases exactly the history of the removed instance *)
Theorem remove_erases_history c s t s' :
  step c s (ECmdRemove t) = Ok s' ->
  (forall k, In k (done s') <-> In k (done s) /\ (fst k <> t \/ In k (abs_done s))) /\
  (forall x, In x (subs s') <-> In x (subs s) /\ fst x <> t) /\
  (forall h, In h (hist s') <-> In h (hist s) /\ h_id h <> t) /\
  to_hold s' = to_hold s /\ hold_pt s' = hold_pt s /\ abs_done s' = abs_done s /\
  map p_id (pool s') = map p_id (pool s).
Proof.
  intros [= <-]. cbn.
  split; [intros k; now rewrite filter_In, orb_true_iff, tid_neqb, mem_key_In|].
  split; [intros x; now rewrite filter_In, tid_neqb|]. split; [intros h; now rewrite filter_In, tid_neqb|].
  do 3 (split; [reflexivity|]). rewrite map_map. apply map_ext. intros p. now destruct (forallb _ (p_sat p)).
Qed.

(* ... and leaves every other field of every pooled task alone: only naturally satisfied
   prerequisites that came from the removed instance are unset *)
Theorem remove_frame c s t s' p :
  step c s (ECmdRemove t) = Ok s' -> In p (pool s) ->
  exists p', In p' (pool s') /\ p_id p' = p_id p /\ p_status p' = p_status p /\ p_outs p' = p_outs p /\
    p_flows p' = p_flows p /\ p_forced p' = p_forced p /\ p_held p' = p_held p /\ p_sn p' = p_sn p /\
    (forall k, In k (p_sat p') <-> In k (p_sat p) /\ fst k <> t).
Proof.
  intros [= <-] Hp. cbn. eexists. split; [apply in_map, Hp|].
  destruct (forallb _ (p_sat p)) eqn:E; cbn; do 7 (split; [reflexivity|]); intros k.
  - rewrite forallb_forall in E. split; [intros Hk; split; [exact Hk|apply tid_neqb; auto]|tauto].
  - now rewrite filter_In, tid_neqb.
Qed.

(* broadcasts (C19, C22 at scheduler level) *)
Theorem bcast_restored c s n s' :
  step c s (EBcastLoaded n) = Ok s' -> crash_mode s = false -> n = bcast s /\ s' = s.
Proof.
  cbn [step]. intros H Hc. rewrite Hc in H. destruct (Nat.eqb n (bcast s)) eqn:E; [|discriminate].
  injection H as <-. split; [now apply Nat.eqb_eq|reflexivity].
Qed.

(* over a stretch of history without broadcast events (in particular: a stop and restart), the broadcasts in
   force are unchanged ... *)
Theorem bcast_frame c tr : forall s s',
  exec c s tr = Some s' ->
  (forall n, ~ In (EBcast n) tr) -> (forall n, ~ In (EBcastLoaded n) tr) -> bcast s' = bcast s.
Proof.
  intros s. apply (exec_ind c s (fun tr s' =>
    (forall n, ~ In (EBcast n) tr) -> (forall n, ~ In (EBcastLoaded n) tr) -> bcast s' = bcast s)); [reflexivity|].
  clear tr. intros tr s1 e s2 IH H H1 H2.
  destruct (step_bcast _ _ _ _ H) as [->|[[n ->]|[n [-> _]]]].
  - apply IH; intros n Hn; [apply (H1 n)|apply (H2 n)]; apply in_or_app; now left.
  - destruct (H1 n). apply in_or_app. right. now left.
  - destruct (H2 n). apply in_or_app. right. now left.
Qed.

(* ... so what an accepted clean restart loaded is what was in force when the stretch began *)
Theorem restart_gives_broadcasts_back c tr s0 s1 n s2 :
  exec c s0 tr = Some s1 -> step c s1 (EBcastLoaded n) = Ok s2 -> crash_mode s1 = false ->
  (forall m, ~ In (EBcast m) tr) -> (forall m, ~ In (EBcastLoaded m) tr) ->
  n = bcast s0 /\ bcast s2 = bcast s0.
Proof.
  intros H Hs Hc H1 H2. destruct (bcast_restored _ _ _ _ Hs Hc) as [-> ->].
  split; apply (bcast_frame _ _ _ _ H H1 H2).
Qed.
