(* Proofs/PointAlgProofs.v — lemmas about Model/PointAlg.v.  A point is a
   string; each operation is characterised by what it does to the value the
   string denotes (the [*_value] lemmas), the order laws are those of Z.compare
   for any comparison by value ([value_order_laws]), and sorted() sorts by value
   ([psort_spec]).  The lru_caches of the datetime operations keep [cache_ok]. *)
From Coq Require Import List ZArith String Bool Lia Permutation Sorted
  DecimalString DecimalZ DecimalPos.
From Cylc Require Import Base.Util Model.PointAlg.
Import ListNotations.
Local Open Scope Z_scope.

Lemma to_int_not_nil z : Z.to_int z <> Decimal.Pos Decimal.Nil /\ Z.to_int z <> Decimal.Neg Decimal.Nil.
Proof.
  destruct z as [|p|p]; cbn; split; try discriminate; intros [= E];
    exact (Unsigned.to_uint_nonnil p E).
Qed.

Lemma parse_show z : parse_int (show_z z) = Some z.
Proof.
  (* str(z) starts with a digit or with "-", never with "+" *)
  assert (E : parse_int (show_z z) = option_map Z.of_int (NilZero.int_of_string (show_z z))).
  { unfold show_z. destruct (Z.to_int z) as [d|d]; [destruct d|]; reflexivity. }
  rewrite E. unfold show_z. destruct (to_int_not_nil z) as [H1 H2].
  rewrite NilZero.isi by assumption. cbn. now rewrite DecimalZ.of_to.
Qed.

Lemma parse_uint_show z : 0 <= z -> parse_uint (show_z z) = Some z.
Proof.
  intros Hz. unfold parse_uint, show_z.
  destruct z as [|p|p]; [reflexivity| |lia].
  cbn [Z.to_int NilZero.string_of_int].
  rewrite NilZero.usu by apply Unsigned.to_uint_nonnil.
  cbn. unfold Z.of_uint. now rewrite Unsigned.of_to.
Qed.

Lemma iparse_from_integer z : iparse (from_integer z) = Some z.
Proof.
  unfold from_integer. destruct (z <? 0) eqn:E.
  - apply Z.ltb_lt in E. cbn. rewrite parse_uint_show by lia. cbn. f_equal. lia.
  - apply Z.ltb_ge in E. cbn. now apply parse_uint_show.
Qed.

(* __cmp__ answers 0 for equal strings without looking at their values; for
   strings that have values this is what comparing the values gives *)
Lemma cmp_by_value (v : string -> option Z) a b x y :
  v a = Some x -> v b = Some y ->
  (if String.eqb a b then Ok Eq else Ok (x ?= y)) = Ok (x ?= y).
Proof.
  intros Ha Hb. destruct (String.eqb_spec a b) as [->|Hne]; [|reflexivity].
  rewrite Ha in Hb. injection Hb as ->. now rewrite Z.compare_refl.
Qed.

Lemma pcmp_value a b x y :
  parse_int a = Some x -> parse_int b = Some y -> pcmp a b = Ok (x ?= y).
Proof.
  intros Ha Hb. unfold pcmp, pint. rewrite Ha, Hb. exact (cmp_by_value parse_int a b x y Ha Hb).
Qed.

Lemma pcmp_same a : pcmp a a = Ok Eq.
Proof. unfold pcmp. now rewrite String.eqb_refl. Qed.

Lemma dcmp_value (inst : string -> option Z) a b x y :
  inst a = Some x -> inst b = Some y -> dcmp inst a b = Ok (x ?= y).
Proof.
  intros Ha Hb. unfold dcmp. rewrite Ha, Hb. exact (cmp_by_value inst a b x y Ha Hb).
Qed.

Lemma Ok_inj {A} (x y : A) : @Ok A x = Ok y <-> x = y.
Proof. split; [now intros [= ->]|now intros ->]. Qed.

(* a comparison that compares values is a total order on what has a value:
   reflexive, Eq exactly on equal values, antisymmetric, transitive, total *)
Lemma value_order_laws (cmp : string -> string -> res comparison) (v : string -> option Z) :
  (forall a b x y, v a = Some x -> v b = Some y -> cmp a b = Ok (x ?= y)) ->
  forall a b c x y z, v a = Some x -> v b = Some y -> v c = Some z ->
  cmp a a = Ok Eq /\
  (cmp a b = Ok Eq <-> x = y) /\
  (cmp a b = Ok Lt <-> cmp b a = Ok Gt) /\
  (cmp a b = Ok Lt -> cmp b c = Ok Lt -> cmp a c = Ok Lt) /\
  (cmp a b = Ok Lt \/ cmp a b = Ok Eq \/ cmp a b = Ok Gt).
Proof.
  intros Hv a b c x y z Ha Hb Hc.
  rewrite (Hv a a x x Ha Ha), (Hv a b x y Ha Hb), (Hv b a y x Hb Ha),
    (Hv b c y z Hb Hc), (Hv a c x z Ha Hc), Z.compare_refl.
  split; [reflexivity|]. split; [rewrite Ok_inj; apply Z.compare_eq_iff|].
  split; [rewrite !Ok_inj; symmetry; apply Z.gt_lt_iff|].
  split; [intros [= H1] [= H2]; f_equal; exact (Z.lt_trans _ _ _ H1 H2)|].
  destruct (x ?= y); auto.
Qed.

Lemma is_eq_compare x y : is_eq (x ?= y) = (x =? y).
Proof. rewrite Z.eqb_compare. now destruct (x ?= y). Qed.
Lemma is_lt_compare x y : is_lt (x ?= y) = (x <? y).
Proof. unfold Z.ltb. now destruct (x ?= y). Qed.
Lemma is_gt_compare x y : is_gt (x ?= y) = (y <? x).
Proof. unfold Z.ltb. rewrite (Z.compare_antisym x y). now destruct (x ?= y). Qed.

(* the six rich comparisons, in terms of the integer values *)
Lemma p_ops_value a b x y :
  parse_int a = Some x -> parse_int b = Some y ->
  p_eq a b = Ok (x =? y) /\ p_lt a b = Ok (x <? y) /\ p_le a b = Ok (x <=? y) /\
  p_gt a b = Ok (y <? x) /\ p_ge a b = Ok (y <=? x).
Proof.
  intros Ha Hb. unfold p_eq, p_lt, p_le, p_gt, p_ge.
  rewrite (pcmp_value a b x y Ha Hb). cbn [bind].
  rewrite is_eq_compare, is_lt_compare, is_gt_compare, <- !Z.leb_antisym.
  repeat split.
Qed.

Definition standardised (s : string) : Prop := pstd s = Ok s.

Lemma pstd_inv s s' :
  pstd s = Ok s' -> exists x, parse_int s = Some x /\ s' = show_z x.
Proof.
  unfold pstd. destruct (parse_int s) as [x|]; [|discriminate].
  intros [= <-]. eauto.
Qed.

Lemma standardised_show z : standardised (show_z z).
Proof. unfold standardised, pstd. now rewrite parse_show. Qed.

Lemma standardised_iff s : standardised s <-> exists z, s = show_z z.
Proof.
  split.
  - intros H. destruct (pstd_inv _ _ H) as [x [_ E]]. eauto.
  - intros [z ->]. apply standardised_show.
Qed.

(* equal standardised points are the same string *)
Lemma std_eq_same_string a b :
  standardised a -> standardised b -> p_eq a b = Ok true -> a = b.
Proof.
  intros Ha Hb. destruct (pstd_inv _ _ Ha) as [x [Hx Ea]].
  destruct (pstd_inv _ _ Hb) as [y [Hy Eb]].
  destruct (p_ops_value a b x y Hx Hy) as [E _]. rewrite E. intros [= H].
  apply Z.eqb_eq in H. congruence.
Qed.

Lemma padd_value p x d : parse_int p = Some x -> padd p d = Ok (show_z (x + d)).
Proof. intros H. unfold padd, pint. now rewrite H. Qed.
Lemma psub_value p x d : parse_int p = Some x -> psub p d = Ok (show_z (x - d)).
Proof. intros H. unfold psub, pint. now rewrite H. Qed.

Lemma psubp_value p q x y :
  parse_int p = Some x -> parse_int q = Some y -> psubp p q = Ok (from_integer (x - y)).
Proof. intros Hp Hq. unfold psubp, pint. now rewrite Hp, Hq. Qed.

Definition value_of (s : string) : Z := match parse_int s with Some x => x | None => 0 end.
Definition all_parse (l : list string) : Prop := forall s, In s l -> exists x, parse_int s = Some x.
Definition le_val (a b : string) : Prop := value_of a <= value_of b.

Lemma p_lt_value a b :
  (exists x, parse_int a = Some x) -> (exists y, parse_int b = Some y) ->
  p_lt a b = Ok (value_of a <? value_of b).
Proof.
  intros [x Hx] [y Hy]. destruct (p_ops_value a b x y Hx Hy) as [_ [E _]].
  unfold value_of. now rewrite Hx, Hy.
Qed.

Lemma le_val_trans a b c : le_val a b -> le_val b c -> le_val a c.
Proof. unfold le_val. lia. Qed.

(* the order by value is transitive, so sortedness can be taken in the strong
   sense (each element below all later ones), which survives a permutation of
   the tail *)
Lemma pinsert_spec x l :
  (exists v, parse_int x = Some v) -> all_parse l -> StronglySorted le_val l ->
  exists l', pinsert x l = Ok l' /\ Permutation (x :: l) l' /\ StronglySorted le_val l'.
Proof.
  intros Hx. induction l as [|y r IH]; intros Hall Hs.
  - exists [x]. repeat split; auto. repeat constructor.
  - cbn [pinsert]. rewrite p_lt_value; [|apply Hall; now left|exact Hx]. cbn [bind].
    inversion Hs as [|? ? Hs' Hf]; subst.
    destruct (value_of y <? value_of x) eqn:E.
    + apply Z.ltb_lt in E.
      destruct (IH (fun s Hin => Hall s (or_intror Hin)) Hs') as [r' [-> [P1 S1]]].
      exists (y :: r'). split; [reflexivity|]. split.
      * rewrite perm_swap. now constructor.
      * constructor; [exact S1|]. apply (Permutation_Forall P1).
        constructor; [unfold le_val; lia|exact Hf].
    + apply Z.ltb_ge in E. exists (x :: y :: r). repeat split; auto.
      constructor; [exact Hs|]. constructor; [exact E|].
      exact (Forall_impl _ (fun z => le_val_trans x y z E) Hf).
Qed.

Lemma psort_spec l :
  all_parse l -> exists l', psort l = Ok l' /\ Permutation l l' /\ Sorted le_val l'.
Proof.
  induction l as [|x r IH]; intros Hall.
  - exists []. cbn. auto.
  - assert (Hall' : all_parse r) by (intros s Hin; apply Hall; now right).
    destruct (IH Hall') as [r' [E [P S]]]. cbn [psort]. rewrite E. cbn [bind].
    assert (Hall'' : all_parse r').
    { intros s Hin. apply Hall'. eapply Permutation_in; [symmetry; exact P|exact Hin]. }
    apply (Sorted_StronglySorted le_val_trans) in S.
    destruct (pinsert_spec x r' (Hall x (or_introl eq_refl)) Hall'' S) as [l' [E' [P' S']]].
    exists l'. repeat split; [exact E'| |now apply StronglySorted_Sorted].
    rewrite <- P'. now constructor.
Qed.

Section IsoProofs.
  Variable inst : string -> option Z.
  Variable fmt : Z -> string.
  Variable resol : Z.
  Variable isecs : string -> option Z.
  (* the format has a positive resolution, and parsing the dump of an
     instant on the format's grid gives that instant back *)
  Hypothesis H_res : 0 < resol.
  Hypothesis H_fmt_inst : forall z, z mod resol = 0 -> inst (fmt z) = Some z.

  Lemma gfloor_on_grid z : gfloor resol z mod resol = 0.
  Proof. unfold gfloor. rewrite Z.mul_comm. apply Z.mod_mul. lia. Qed.

  Lemma gfloor_fix z : z mod resol = 0 -> gfloor resol z = z.
  Proof.
    intros H. unfold gfloor. pose proof (Z.div_mod z resol ltac:(lia)). lia.
  Qed.

  Lemma grid_add z d : z mod resol = 0 -> d mod resol = 0 -> (z + d) mod resol = 0.
  Proof.
    intros Hz Hd. apply Z.mod_divide; [lia|].
    apply Z.divide_add_r; apply Z.mod_divide; auto; lia.
  Qed.

  Lemma dstd_inv s s' :
    dstd inst fmt resol s = Ok s' ->
    exists z, inst s = Some z /\ s' = fmt (gfloor resol z) /\ inst s' = Some (gfloor resol z).
  Proof.
    unfold dstd. destruct (inst s) as [z|]; [|discriminate]. intros [= <-].
    exists z. repeat split. apply H_fmt_inst, gfloor_on_grid.
  Qed.

  Lemma dstd_idem s s' :
    dstd inst fmt resol s = Ok s' ->
    dstd inst fmt resol s' = Ok s' /\
    (forall z, inst s = Some z -> z mod resol = 0 -> inst s' = Some z).
  Proof.
    intros H. destruct (dstd_inv _ _ H) as [z [Hz [E Hi]]]. split.
    - unfold dstd. rewrite Hi. rewrite gfloor_fix by apply gfloor_on_grid. now rewrite E.
    - intros z' Hz' Hg. rewrite Hz in Hz'. injection Hz' as <-. rewrite Hi. f_equal. now apply gfloor_fix.
  Qed.

  Lemma dstd_eq_same_string a0 b0 a b :
    dstd inst fmt resol a0 = Ok a -> dstd inst fmt resol b0 = Ok b ->
    dcmp inst a b = Ok Eq -> a = b.
  Proof.
    intros Ha Hb. destruct (dstd_inv _ _ Ha) as [x [_ [Ea Hia]]].
    destruct (dstd_inv _ _ Hb) as [y [_ [Eb Hib]]].
    rewrite (dcmp_value inst a b _ _ Hia Hib). intros [= H]. apply Z.compare_eq in H. congruence.
  Qed.

  Lemma dadd_dsub p0 p i d :
    dstd inst fmt resol p0 = Ok p -> isecs i = Some d -> d mod resol = 0 ->
    exists q z, inst p = Some z /\
      dadd inst fmt resol isecs p i = Ok q /\ inst q = Some (z + d) /\
      dsub inst fmt resol isecs q i = Ok p.
  Proof.
    intros Hp Hi Hd. destruct (dstd_inv _ _ Hp) as [x [_ [Ep Hip]]].
    pose proof (gfloor_on_grid x) as Hg. set (z := gfloor resol x) in *.
    pose proof (grid_add z d Hg Hd) as Hgd.
    exists (fmt (z + d)), z. unfold dadd, dsub.
    rewrite Hip, Hi, (gfloor_fix _ Hgd), (H_fmt_inst _ Hgd).
    repeat split; auto.
    replace (z + d - d) with z by lia. rewrite (gfloor_fix z Hg). now rewrite Ep.
  Qed.
End IsoProofs.

Section ReinitProofs.
  Variable isecs : string -> option Z.
  Variable keyf : config -> Z.
  (* the key determines everything the cached functions depend on *)
  Hypothesis key_sound : forall c1 c2 o, keyf c1 = keyf c2 -> pure_rop isecs c1 o = pure_rop isecs c2 o.

  (* the operation behind the tag (0, 1, 2) under which run_rop caches it *)
  Definition kind_op (kind : Z) (a b : string) : rop :=
    if kind =? 0 then RCmp a b else if kind =? 1 then RAdd a b else RSub a b.

  (* every entry is what any configuration with that key would compute *)
  Definition cache_ok (cache : list (centry)) : Prop :=
    forall kind a b k r, In (kind, a, b, k, r) cache ->
    forall c, keyf c = k -> pure_rop isecs c (kind_op kind a b) = r.

  Lemma clookup_In kind a b k cache r :
    clookup kind a b k cache = Some r -> In (kind, a, b, k, r) cache.
  Proof.
    induction cache as [|[[[[kind' a'] b'] k'] r'] rest IH]; cbn [clookup]; [discriminate|].
    destruct (_ && _) eqn:E; [|intros H; right; auto].
    apply andb_prop in E as [E E4]. apply andb_prop in E as [E E3]. apply andb_prop in E as [E1 E2].
    apply Z.eqb_eq in E1, E4. apply String.eqb_eq in E2, E3. subst.
    intros [= ->]. now left.
  Qed.

  Lemma cached_spec kind a b c cache o r cache' :
    o = kind_op kind a b -> cache_ok cache ->
    cached isecs keyf kind a b c cache o = (r, cache') ->
    r = pure_rop isecs c o /\ cache_ok cache'.
  Proof.
    intros Eo Hc. unfold cached. destruct (clookup kind a b (keyf c) cache) as [r0|] eqn:El.
    - intros [= <- <-]. split; [|exact Hc].
      apply clookup_In in El. rewrite Eo. symmetry. exact (Hc _ _ _ _ _ El c eq_refl).
    - intros [= <- <-]. split; [reflexivity|].
      destruct (is_rerr (pure_rop isecs c o)); [exact Hc|].
      intros kind' a' b' k' r' [E|Hin]; [|eauto].
      injection E as <- <- <- <- <-. intros c' Hk. rewrite <- Eo. now apply key_sound.
  Qed.

  Lemma run_rop_spec c cache o r cache' :
    cache_ok cache -> run_rop isecs keyf c cache o = (r, cache') ->
    r = pure_rop isecs c o /\ cache_ok cache'.
  Proof.
    intros Hc. destruct o as [a b|a|p i|p i]; cbn [run_rop].
    - destruct (String.eqb_spec a b) as [->|Hne].
      + intros [= <- <-]. split; [|exact Hc]. cbn. unfold dcmp. now rewrite String.eqb_refl.
      + apply cached_spec; auto.
    - intros [= <- <-]. auto.
    - apply cached_spec; auto.
    - apply cached_spec; auto.
  Qed.

  Lemma run_scenario_spec steps : forall cache,
    cache_ok cache ->
    run_scenario isecs keyf cache steps = map (fun '(c, o) => pure_rop isecs c o) steps.
  Proof.
    induction steps as [|[c o] rest IH]; intros cache Hc; cbn [run_scenario map]; [reflexivity|].
    destruct (run_rop isecs keyf c cache o) as [r cache'] eqn:E.
    destruct (run_rop_spec _ _ _ _ _ Hc E) as [-> Hc']. f_equal. now apply IH.
  Qed.
End ReinitProofs.
