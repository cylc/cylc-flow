(* Proofs/ParamProofs.v — lemmas about Model/Param.v.
   Both expanders are nested loops over the parameters; each is shown to be one
   pass ([collect]) over the list [combos] of all assignments, and what is said
   of the result is then read off that list. *)
From Coq Require Import List Bool ZArith Lia.
From Cylc Require Import Base.Util Model.Param.
Import ListNotations.
Open Scope Z_scope.

(* all assignments of one value to each parameter, first parameter outermost *)
Fixpoint combos (ps : list (pname * list value)) : list dict :=
  match ps with
  | [] => [[]]
  | (p, vs) :: r => flat_map (fun v => map (cons (p, v)) (combos r)) vs
  end.

(* [a] assigns to every parameter of [ps], in order, one of its values *)
Definition assignment (ps : list (pname * list value)) (a : dict) : Prop :=
  Forall2 (fun pv av => fst av = fst pv /\ In (snd av) (snd pv)) ps a.

Definition size_product (ps : list (pname * list value)) : nat :=
  fold_right (fun pv n => (length (snd pv) * n)%nat) 1%nat ps.

Lemma combos_spec ps a : In a (combos ps) <-> assignment ps a.
Proof.
  revert a; induction ps as [|[p vs] r IH]; intros a; cbn.
  - split.
    + intros [<-|[]]. constructor.
    + intros H; inversion H; auto.
  - rewrite in_flat_map. split.
    + intros [v [Hv Ha]]. apply in_map_iff in Ha. destruct Ha as [a' [<- Ha']].
      constructor; [cbn; auto|]. now apply IH.
    + intros H. inversion H as [|pv av ps' a' [E1 E2] Hr]; subst.
      destruct av as [q w]. cbn in *. subst q. exists w. split; [exact E2|].
      apply in_map. now apply IH.
Qed.

Lemma flat_map_length_const {A B} (f : A -> list B) n l :
  (forall x, length (f x) = n) -> length (flat_map f l) = (length l * n)%nat.
Proof.
  intros H. induction l as [|x l IH]; cbn; [reflexivity|].
  rewrite app_length, H, IH. lia.
Qed.

Lemma combos_length ps : length (combos ps) = size_product ps.
Proof.
  induction ps as [|[p vs] r IH]; cbn; [reflexivity|].
  rewrite (flat_map_length_const _ (length (combos r))).
  - rewrite IH. reflexivity.
  - intros x. apply map_length.
Qed.

Lemma NoDup_map_cons {A} (x : A) l : NoDup l -> NoDup (map (cons x) l).
Proof.
  induction 1 as [|y l Hy Hnd IH]; cbn; constructor; [|exact IH].
  intros Hin. apply in_map_iff in Hin. destruct Hin as [z [E Hz]].
  inversion E; subst. contradiction.
Qed.

Lemma combos_NoDup ps :
  (forall pv, In pv ps -> NoDup (snd pv)) -> NoDup (combos ps).
Proof.
  induction ps as [|[p vs] r IH]; intros H; cbn.
  - constructor; [intros []|constructor].
  - assert (Hr : NoDup (combos r)) by (apply IH; intros pv Hpv; apply H; now right).
    assert (Hvs : NoDup vs) by (apply (H (p, vs)); now left).
    clear IH H. induction Hvs as [|v vs Hv Hnd IHv]; cbn; [constructor|].
    apply NoDup_app; [now apply NoDup_map_cons|exact IHv|].
    intros a Ha Hb. apply in_map_iff in Ha. destruct Ha as [a' [<- _]].
    apply in_flat_map in Hb. destruct Hb as [w [Hw Hb]].
    apply in_map_iff in Hb. destruct Hb as [a'' [E _]]. inversion E; subst. contradiction.
Qed.

Lemma bind_ok {A B} (r : res A) (f : A -> res B) y :
  bind r f = Ok y -> exists x, r = Ok x /\ f x = Ok y.
Proof. destruct r as [x|e]; [eauto|discriminate]. Qed.

Lemma collect_app {A} (a b : list (res (list A))) :
  collect (a ++ b) =
  bind (collect a) (fun x => bind (collect b) (fun y => Ok (x ++ y))).
Proof.
  induction a as [|r a IH]; cbn.
  - destruct (collect b); reflexivity.
  - destruct r as [x|e]; [|reflexivity]. rewrite IH.
    destruct (collect a) as [xa|e]; cbn; [|reflexivity].
    destruct (collect b) as [xb|e]; cbn; [|reflexivity].
    rewrite app_assoc. reflexivity.
Qed.

Lemma collect_flat_map {A B C} (f : B -> res (list C)) (g : A -> list B) l :
  collect (map f (flat_map g l)) = collect (map (fun x => collect (map f (g x))) l).
Proof.
  induction l as [|x l IH]; cbn; [reflexivity|].
  rewrite map_app, collect_app, IH.
  destruct (collect (map f (g x))); reflexivity.
Qed.

(* Both expanders end in leaves of the shape [bind (f a) (fun s => Ok (h a s))]:
   a rendering that may fail, then a list built from the rendered text. *)
Lemma collect_ok {A S B} (f : A -> res S) (h : A -> S -> list B) l r :
  collect (map (fun a => bind (f a) (fun s => Ok (h a s))) l) = Ok r ->
  (forall a, In a l -> exists s, f a = Ok s) /\
  (forall y, In y r <-> exists a s, In a l /\ f a = Ok s /\ In y (h a s)).
Proof.
  revert r; induction l as [|b l IH]; cbn [map collect In]; intros r.
  - intros [= <-]. split; [intros a []|]. intros y; split; [intros []|intros (a & s & [] & _)].
  - destruct (f b) as [sb|e] eqn:Eb; cbn [bind]; [|discriminate].
    intros H. apply bind_ok in H. destruct H as (xl & El & [= <-]).
    destruct (IH _ El) as [IH1 IH2]. split.
    + intros a [<-|Ha]; eauto.
    + intros y. rewrite in_app_iff, IH2. split.
      * intros [Hy|(a & s & Ha & Hf & Hy)]; [exists b, sb; auto|exists a, s; auto].
      * intros (a & s & [<-|Ha] & Hf & Hy); [|right; eauto].
        left. rewrite Eb in Hf. injection Hf as <-. exact Hy.
Qed.

Lemma collect_length {A S B} (f : A -> res S) (h : A -> S -> list B) l r :
  collect (map (fun a => bind (f a) (fun s => Ok (h a s))) l) = Ok r ->
  (forall a s, In a l -> f a = Ok s -> length (h a s) = 1%nat) ->
  length r = length l.
Proof.
  revert r; induction l as [|b l IH]; cbn [map collect]; intros r.
  - intros [= <-] _. reflexivity.
  - destruct (f b) as [sb|e] eqn:Eb; cbn [bind]; [|discriminate].
    intros H Hh. apply bind_ok in H. destruct H as (xl & El & [= <-]).
    rewrite app_length, (Hh b sb (or_introl eq_refl) Eb), (IH xl El); [reflexivity|].
    intros a s Ha. apply Hh. now right.
Qed.

Lemma map_ext_in' {A B} (f g : A -> B) l : (forall x, f x = g x) -> map f l = map g l.
Proof. intros H. apply map_ext. exact H. Qed.

Definition nonempty (s : text) : list text := match s with [] => [] | _ => [s] end.

Lemma In_nonempty s y : In y (nonempty s) <-> s <> [] /\ y = s.
Proof.
  destruct s; cbn; [tauto|]. split; [intros [<-|[]]; split; [discriminate|reflexivity]|intros [_ ->]; now left].
Qed.

Lemma expand_rec_combos c l ps env :
  expand_rec c l ps env =
  collect (map (fun a => bind (subst_line c (rev a ++ env) l) (fun s => Ok (nonempty s))) (combos ps)).
Proof.
  revert env; induction ps as [|[p vs] r IH]; intros env.
  - cbn. destruct (subst_line c env l) as [s|e]; cbn; [|reflexivity].
    now rewrite app_nil_r.
  - cbn [expand_rec combos]. rewrite collect_flat_map. f_equal.
    apply map_ext. intros v. rewrite IH, map_map. f_equal.
    apply map_ext. intros a. cbn [rev]. now rewrite <- app_assoc.
Qed.

Lemma graph_expand_combos c l :
  graph_expand c l =
  bind (check_line c l []) (fun used =>
    collect (map (fun a => bind (subst_line c (rev a) l) (fun s => Ok (nonempty s)))
                 (combos (used_params c used)))).
Proof.
  unfold graph_expand. destruct (check_line c l []) as [used|e]; cbn [bind]; [|reflexivity].
  rewrite expand_rec_combos. f_equal. apply map_ext. intros a. now rewrite app_nil_r.
Qed.

Definition add_used (p : pname) (u : list pname) : list pname :=
  if mem Nat.eqb p u then u else u ++ [p].

Lemma add_used_In p u q : In q (add_used p u) <-> In q u \/ p = q.
Proof.
  unfold add_used. destruct (mem Nat.eqb p u) eqn:E.
  - apply mem_nat_In in E. split; [auto|]. intros [H| <-]; auto.
  - rewrite In_snoc. split; intros [H|H]; auto.
Qed.

Lemma add_used_NoDup p u : NoDup u -> NoDup (add_used p u).
Proof.
  unfold add_used. destruct (mem Nat.eqb p u) eqn:E; [auto|]. intros H.
  apply NoDup_snoc; [exact H|apply mem_nat_false, E].
Qed.

(* what the checks establish for one item *)
Definition item_ok (c : cfg) (it : item) : Prop :=
  exists vs, vals_of c (fst it) = Some vs /\
    match snd it with
    | SEq raw => in_iter (nval raw) vs = Ok true
    | _ => True
    end.

Lemma check_items_cons c p s r u used :
  check_items c ((p, s) :: r) u = Ok used ->
  item_ok c (p, s) /\ check_items c r (add_used p u) = Ok used.
Proof.
  cbn [check_items]. fold (add_used p u). unfold item_ok. cbn [fst snd].
  destruct (vals_of c p) as [vs|]; [|discriminate].
  destruct s as [|raw|k]; intros H; try (split; [exists vs; auto|exact H]).
  apply bind_ok in H. destruct H as ([] & Hi & H); [eauto|discriminate].
Qed.

Lemma check_items_ok c its u used :
  check_items c its u = Ok used -> forall it, In it its -> item_ok c it.
Proof.
  revert u; induction its as [|[p s] r IH]; intros u H it; [intros []|].
  apply check_items_cons in H. destruct H as [Hok H].
  intros [<-|Hit]; [exact Hok|exact (IH _ H it Hit)].
Qed.

Lemma check_items_used c its u used :
  check_items c its u = Ok used -> NoDup u ->
  NoDup used /\ forall q, In q used <-> In q (u ++ map fst its).
Proof.
  revert u; induction its as [|[p s] r IH]; intros u H Hu.
  - injection H as <-. rewrite app_nil_r. split; [exact Hu|reflexivity].
  - apply check_items_cons in H. destruct H as [_ H].
    destruct (IH _ H (add_used_NoDup p u Hu)) as [H1 H2].
    split; [exact H1|]. intros q. rewrite H2, !in_app_iff, add_used_In. apply or_assoc.
Qed.

Definition line_items (l : line) : list item :=
  flat_map (fun t => match t with TGrp its => its | TLit _ => [] end) l.

Lemma check_items_app c a b u :
  check_items c (a ++ b) u = bind (check_items c a u) (check_items c b).
Proof.
  revert u; induction a as [|[p s] a IH]; intros u; cbn [app check_items]; [reflexivity|].
  destruct (vals_of c p) as [vs|]; [|reflexivity].
  destruct s as [|raw|k]; rewrite IH; try reflexivity.
  destruct (in_iter (nval raw) vs) as [[]|]; reflexivity.
Qed.

Lemma check_line_items c l u : check_line c l u = check_items c (line_items l) u.
Proof.
  revert u; induction l as [|[s|its] l IH]; intros u; cbn [check_line line_items flat_map app].
  - reflexivity.
  - apply IH.
  - rewrite check_items_app. destruct (check_items c its u); cbn [bind]; [apply IH|reflexivity].
Qed.

(* the parameters looped over all have a non-empty value list *)
Lemma used_params_defined c used :
  (forall p, In p used -> exists vs, vals_of c p = Some vs) ->
  forall pv, In pv (used_params c used) -> vals_of c (fst pv) = Some (snd pv).
Proof.
  intros H pv Hpv. unfold used_params in Hpv. apply in_map_iff in Hpv.
  destruct Hpv as [p [<- Hp]]. cbn. destruct (H p Hp) as [vs ->]. reflexivity.
Qed.

Lemma text_eqb_eq a b : text_eqb a b = true <-> a = b.
Proof. apply list_eqb_Z_eq. Qed.

Lemma value_eqb_eq a b : value_eqb a b = true <-> a = b.
Proof.
  destruct a as [x|x], b as [y|y]; cbn; try (split; [discriminate|intros E; inversion E]).
  - rewrite Z.eqb_eq. split; [intros ->; reflexivity|intros E; inversion E; auto].
  - rewrite text_eqb_eq. split; [intros ->; reflexivity|intros E; inversion E; auto].
Qed.

(* a value list is plain when none of its strings reads as an integer *)
Definition plain (vs : list value) : Prop :=
  forall s, In (VStr s) vs -> py_int s = None.

Lemma int_in_plain n vs : plain vs -> int_in n vs = Ok true -> In (VInt n) vs.
Proof.
  induction vs as [|v vs IH]; cbn; intros Hp; [discriminate|].
  destruct v as [k|s].
  - destruct (Z.eqb_spec k n) as [->|Hne]; [intros _; now left|].
    intros H. right. apply IH; [|exact H]. intros s Hs. apply Hp. now right.
  - rewrite (Hp s (or_introl eq_refl)). discriminate.
Qed.

Lemma in_iter_plain v vs : plain vs -> in_iter v vs = Ok true -> In v vs.
Proof.
  intros Hp. unfold in_iter. destruct (mem value_eqb v vs) eqn:Em.
  - intros _. apply (mem_In value_eqb value_eqb_eq). exact Em.
  - destruct v as [n|s]; [apply int_in_plain; exact Hp|discriminate].
Qed.

Lemma nthZ_none (l : list value) j : nthZ l j = None <-> j < 0 \/ lenZ l <= j.
Proof.
  unfold lenZ. revert j; induction l as [|x l IH]; intros j; cbn [nthZ length].
  - split; [intros _; lia|reflexivity].
  - destruct (Z.eqb_spec j 0) as [->|Hne].
    + split; [discriminate|]. rewrite Nat2Z.inj_succ. lia.
    + rewrite IH. rewrite Nat2Z.inj_succ. lia.
Qed.

Lemma index_of_nth v l i0 i :
  index_of v l i0 = Some i -> i0 <= i /\ nthZ l (i - i0) = Some v.
Proof.
  revert i0; induction l as [|x l IH]; intros i0; cbn; [discriminate|].
  destruct (value_eqb x v) eqn:E.
  - intros [= <-]. apply value_eqb_eq in E. subst. rewrite Z.sub_diag. cbn. split; [lia|reflexivity].
  - intros H. destruct (IH _ H) as [Hle Hn]. split; [lia|].
    destruct (Z.eqb_spec (i - i0) 0) as [E0|_]; [lia|].
    replace (i - i0 - 1) with (i - (i0 + 1)) by lia. exact Hn.
Qed.

Lemma nthZ_In (l : list value) j v : nthZ l j = Some v -> In v l.
Proof.
  revert j; induction l as [|y l IH]; intros j; cbn; [discriminate|].
  destruct (j =? 0); [intros [= ->]; now left|]. intros H. right. eauto.
Qed.

Lemma index_of_NoDup v l i0 j :
  NoDup l -> nthZ l j = Some v -> index_of v l i0 = Some (i0 + j).
Proof.
  intros Hnd. revert i0 j; induction Hnd as [|x l Hx Hnd IH]; intros i0 j; cbn; [discriminate|].
  destruct (Z.eqb_spec j 0) as [->|Hne].
  - intros [= ->]. assert (E : value_eqb v v = true) by now apply value_eqb_eq.
    rewrite E. f_equal. lia.
  - intros Hn. destruct (value_eqb x v) eqn:E.
    + apply value_eqb_eq in E. subst x. exfalso. apply Hx. eapply nthZ_In; eauto.
    + rewrite (IH (i0 + 1) (j - 1) Hn). f_equal. lia.
Qed.

Definition upd_all (spec a : dict) : dict :=
  fold_left (fun d pv => upd d (fst pv) (snd pv)) a spec.

Lemma expand_name_rec_combos tm ps spec :
  expand_name_rec tm ps spec =
  collect (map (fun a => bind (apply_tmpl tm (upd_all spec a)) (fun s => Ok [(s, upd_all spec a)]))
               (combos ps)).
Proof.
  revert spec; induction ps as [|[p vs] r IH]; intros spec.
  - cbn. destruct (apply_tmpl tm spec); reflexivity.
  - cbn [expand_name_rec combos]. rewrite collect_flat_map. f_equal.
    apply map_ext. intros v. rewrite IH, map_map. reflexivity.
Qed.

Lemma assoc_upd_same d p v : assoc Nat.eqb p (upd d p v) = Some v.
Proof.
  induction d as [|[q w] d IH]; cbn; [now rewrite Nat.eqb_refl|].
  destruct (Nat.eqb p q) eqn:E; cbn; rewrite E; [reflexivity|exact IH].
Qed.

Lemma assoc_upd_other d p q v : q <> p -> assoc Nat.eqb q (upd d p v) = assoc Nat.eqb q d.
Proof.
  intros Hne. induction d as [|[r w] d IH]; cbn.
  - destruct (Nat.eqb_spec q p); [congruence|reflexivity].
  - destruct (Nat.eqb_spec p r) as [->|Hpr]; cbn.
    + destruct (Nat.eqb_spec q r); [congruence|reflexivity].
    + destruct (Nat.eqb q r); [reflexivity|exact IH].
Qed.

(* a fixed parameter that is not looped over keeps its value in every instance *)
Lemma upd_all_other spec (a : dict) q :
  ~ In q (map fst a) -> assoc Nat.eqb q (upd_all spec a) = assoc Nat.eqb q spec.
Proof.
  revert spec; induction a as [|[p v] a IH]; intros spec Hq; cbn; [reflexivity|].
  unfold upd_all in IH. rewrite IH.
  - apply assoc_upd_other. intros ->. apply Hq. now left.
  - intros H. apply Hq. now right.
Qed.

(* a looped parameter has its loop value in the instance *)
Lemma upd_all_bound spec (a : dict) p v :
  NoDup (map fst a) -> In (p, v) a -> assoc Nat.eqb p (upd_all spec a) = Some v.
Proof.
  revert spec; induction a as [|[p0 v0] a IH]; intros spec Hnd Hin; [destruct Hin|].
  cbn in Hnd. inversion Hnd as [|? ? Hp0 Hnd']; subst.
  cbn. fold (upd_all (upd spec p0 v0) a). destruct Hin as [E|Hin].
  - inversion E; subst. rewrite upd_all_other; [apply assoc_upd_same|exact Hp0].
  - apply IH; assumption.
Qed.

Lemma assignment_names ps a : assignment ps a -> map fst a = map fst ps.
Proof. induction 1 as [|pv av ps a [E _] _ IH]; cbn; [reflexivity|]. now rewrite E, IH. Qed.

Definition two_leading_marked (e : expr) : Prop :=
  fst (fst e) = true /\
  match snd e with (_, n2) :: _ => fst n2 = true | [] => False end.

Lemma keep_rest_nodes r :
  map (fun on : Z * node => snd (snd on)) (keep_rest r) =
  map snd (filter (fun n : node => negb (fst n)) (map snd r)).
Proof.
  unfold keep_rest. induction r as [|[op [m t]] r IH]; cbn; [reflexivity|].
  destruct m; cbn; [exact IH|]. f_equal. exact IH.
Qed.
