(* Proofs/GraphStoreProofs.v — C14: what a sequence of _set_output_opt /
   _set_triggers calls (without families) leaves in the parser state.
   The two stores are read as a set of facts: a task is defined, a trigger is
   recorded, an output's optionality is set.  A call whose facts are consistent
   with those already there succeeds and adds exactly its facts, so a sequence
   of calls leaves the same facts in any order and with any repetitions. *)
From Coq Require Import List Bool Arith String.
From Cylc Require Import Base.Util Gen.FamTables Model.GraphBase Model.GraphExpr Model.FamTrig
  Model.GraphParse Model.GraphAst Proofs.FamTrigProofs.
Import ListNotations.

Lemma node_eqb_true a b : node_eqb a b = true <-> a = b.
Proof.
  destruct a as [n1 o1 q1 p1], b as [n2 o2 q2 p2]. unfold node_eqb. cbn.
  rewrite !andb_true_iff, !Nat.eqb_eq, Bool.eqb_true_iff, (option_eqb_spec _ String.eqb_eq).
  split; [intros [[[-> ->] ->] ->]; reflexivity|intros [= -> -> -> ->]; auto].
Qed.

Lemma tok_eqb_true a b : tok_eqb a b = true <-> a = b.
Proof.
  split.
  - destruct a, b; try discriminate; try reflexivity; cbn; intros H; f_equal;
      [now apply node_eqb_true|now apply Nat.eqb_eq|now apply Nat.eqb_eq].
  - intros <-. destruct a; cbn; [now apply node_eqb_true|reflexivity..|apply Nat.eqb_refl|apply Nat.eqb_refl|reflexivity].
Qed.

Lemma toks_eqb_true a b : toks_eqb a b = true <-> a = b.
Proof. apply list_eqb_spec. apply tok_eqb_true. Qed.

Lemma toks_eqb_refl a : toks_eqb a a = true.
Proof. now apply toks_eqb_true. Qed.

Lemma toks_eqb_false a b : a <> b -> toks_eqb a b = false.
Proof. intros H. destruct (toks_eqb a b) eqn:E; [apply toks_eqb_true in E; contradiction|reflexivity]. Qed.

(* _set_output_opt for an assertion written on a task itself (fam = False) *)
Definition apply_o (om : optmap) (a : oassert) : res optmap :=
  let '(n, o, b) := a in set_opt1 om n o b false.

(* every entry is (optional, default, fixed) = (b, b, true), what [apply_o] leaves *)
Definition om_inv (om : optmap) : Prop :=
  forall k v, assoc optkey_eqb k om = Some v -> exists b, v = (b, b, true).

Definition om_has (om : optmap) (a : oassert) : Prop :=
  let '(n, o, b) := a in assoc optkey_eqb (n, o) om = Some (b, b, true).

Definition om_nodup (om : optmap) : Prop := NoDup (map fst om).

Lemma ocompat_same n o b b' : ocompat (n, o, b) (n, o, b') = true -> b = b'.
Proof.
  unfold ocompat. rewrite Nat.eqb_refl, String.eqb_refl. cbn.
  intros H. apply andb_true_iff in H. destruct H as [H _]. now apply Bool.eqb_prop.
Qed.

Lemma ocompat_opp n o o' b b' :
  ocompat (n, o, b) (n, o', b') = true -> opposite o = Some o' -> b = true /\ b' = true.
Proof.
  unfold ocompat. rewrite Nat.eqb_refl. cbn. intros H Ho. rewrite Ho in H. cbn in H.
  rewrite String.eqb_refl in H. cbn in H.
  apply andb_true_iff in H. destruct H as [_ H]. now apply andb_true_iff in H.
Qed.

Lemma opposite_neq o p : opposite o = Some p -> String.eqb p o = false.
Proof.
  unfold opposite.
  destruct (String.eqb o TASK_OUTPUT_SUCCEEDED) eqn:E1;
    [apply String.eqb_eq in E1; subst; intros [= <-]; reflexivity|].
  destruct (String.eqb o TASK_OUTPUT_FAILED) eqn:E2;
    [apply String.eqb_eq in E2; subst; intros [= <-]; reflexivity|].
  destruct (String.eqb o TASK_OUTPUT_SUBMITTED) eqn:E3;
    [apply String.eqb_eq in E3; subst; intros [= <-]; reflexivity|].
  destruct (String.eqb o TASK_OUTPUT_SUBMIT_FAILED) eqn:E4;
    [apply String.eqb_eq in E4; subst; intros [= <-]; reflexivity|discriminate].
Qed.

Lemma opp_check_pass om om1 n o b :
  om_inv om1 ->
  (forall a', om_has om1 a' <-> (om_has om a' \/ a' = (n, o, b))) ->
  (forall a', om_has om a' -> ocompat (n, o, b) a' = true) ->
  opp_check n o false om1 = Ok om1.
Proof.
  intros Hinv Hres Hc. unfold opp_check.
  destruct (opposite o) as [opp|] eqn:Eo; [|reflexivity].
  destruct (assoc optkey_eqb (n, opp) om1) as [v|] eqn:Eopp; [|reflexivity].
  destruct (Hinv _ _ Eopp) as [b1 ->].
  rewrite (proj2 (Hres (n, o, b)) (or_intror eq_refl)).
  assert (Hb : ocompat (n, o, b) (n, opp, b1) = true).
  { destruct (proj1 (Hres (n, opp, b1)) Eopp) as [H|[= E _]]; [exact (Hc _ H)|].
    apply opposite_neq in Eo. rewrite E, String.eqb_refl in Eo. discriminate. }
  destruct (ocompat_opp n o opp b b1 Hb Eo) as [-> ->]. reflexivity.
Qed.

Lemma om_insert (om om1 : optmap) n o b :
  om_inv om -> (forall b', om_has om (n, o, b') -> b' = b) ->
  (forall k, assoc optkey_eqb k om1
             = if optkey_eqb k (n, o) then Some (b, b, true) else assoc optkey_eqb k om) ->
  om_inv om1 /\ (forall a', om_has om1 a' <-> (om_has om a' \/ a' = (n, o, b))).
Proof.
  intros Hinv Hsame Hlook. split.
  - intros k v. rewrite Hlook. destruct (optkey_eqb k (n, o)); [intros [= <-]; eauto|apply Hinv].
  - intros [[n' o'] b']. unfold om_has. rewrite Hlook. destruct (optkey_eqb (n', o') (n, o)) eqn:E.
    + apply optkey_eqb_true in E. injection E as -> ->. split.
      * intros [= ->]. now right.
      * intros [H|[= ->]]; [|reflexivity]. now rewrite (Hsame b' H).
    + split; [now left|]. intros [H|[= -> -> _]]; [exact H|].
      rewrite (proj2 (optkey_eqb_true _ _) eq_refl) in E. discriminate.
Qed.

Lemma set_opt1_ok om n o b :
  om_inv om -> oassert_guard (n, o, b) = true ->
  (forall a', om_has om a' -> ocompat (n, o, b) a' = true) ->
  exists om', set_opt1 om n o b false = Ok om' /\ om_inv om'
              /\ (om_nodup om -> om_nodup om')
              /\ (forall a', om_has om' a' <-> (om_has om a' \/ a' = (n, o, b))).
Proof.
  intros Hinv Hg Hc.
  assert (Hsame : forall b', om_has om (n, o, b') -> b' = b)
    by (intros b' H; symmetry; apply (ocompat_same n o), Hc, H).
  unfold set_opt1. unfold oassert_guard in Hg. apply negb_true_iff in Hg. rewrite Hg.
  destruct (assoc optkey_eqb (n, o) om) as [[[po pd] pf]|] eqn:Ek.
  - (* already set, to the same: the map stays *)
    destruct (Hinv _ _ Ek) as [b0 [= -> -> ->]]. assert (b0 = b) as -> by exact (Hsame b0 Ek).
    rewrite Bool.eqb_reflx.
    destruct (om_insert om om n o b Hinv Hsame) as [Hinv1 Hres].
    { intros k. destruct (optkey_eqb k (n, o)) eqn:E; [|reflexivity].
      apply optkey_eqb_true in E. subst k. exact Ek. }
    exists om. split; [exact (opp_check_pass om om n o b Hinv1 Hres Hc)|auto].
  - (* new entry *)
    destruct (om_insert om (om ++ [((n, o), (b, b, true))]) n o b Hinv Hsame) as [Hinv1 Hres].
    { intros k. rewrite assoc_app. cbn. destruct (optkey_eqb k (n, o)) eqn:E.
      - apply optkey_eqb_true in E. subst k. now rewrite Ek.
      - now destruct (assoc optkey_eqb k om). }
    eexists. split; [exact (opp_check_pass om _ n o b Hinv1 Hres Hc)|]. split; [exact Hinv1|]. split; [|exact Hres].
    intros Hnd. unfold om_nodup. rewrite map_app. apply NoDup_snoc; [exact Hnd|].
    now apply (assoc_None optkey_eqb optkey_eqb_true).
Qed.

Lemma opt_fold_ok : forall (l : list oassert) om,
  om_inv om -> forallb oassert_guard l = true ->
  (forall x y, (om_has om x \/ In x l) -> (om_has om y \/ In y l) -> ocompat x y = true) ->
  exists om', fold_res apply_o l om = Ok om' /\ om_inv om'
              /\ (forall a, om_has om' a <-> (om_has om a \/ In a l)).
Proof.
  induction l as [|[[n o] b] r IH]; intros om Hinv Hg Hc.
  - exists om. cbn. repeat split; auto; tauto.
  - cbn [forallb] in Hg. apply andb_true_iff in Hg. destruct Hg as [Hg1 Hg2].
    destruct (set_opt1_ok om n o b Hinv Hg1) as [om1 [E1 [Hinv1 [_ Hres1]]]].
    { intros a' Ha'. apply Hc; [right; now left|now left]. }
    assert (Hin : forall x, om_has om1 x \/ In x r -> om_has om x \/ In x ((n, o, b) :: r)).
    { intros x [Hx|Hx]; [|right; now right].
      apply Hres1 in Hx. destruct Hx as [Hx| ->]; [now left|right; now left]. }
    destruct (IH om1 Hinv1 Hg2) as [om2 [E2 [Hinv2 Hres2]]].
    { intros x y Hx Hy. apply Hc; now apply Hin. }
    exists om2. cbn [fold_res apply_o]. rewrite E1. split; [exact E2|]. split; [exact Hinv2|].
    intros a. rewrite Hres2, Hres1. cbn [In]. split; [intros [[H|H]|H]|intros [H|[H|H]]]; auto.
Qed.

(* _set_output_opt itself (with the suicide and ":finished" special cases) is a
   fold of [apply_o] over the expanded assertions *)
Lemma set_opt_as_fold om m o optional (suicide : bool) :
  (String.eqb o TASK_OUTPUT_FINISHED && optional && negb suicide) = false ->
  set_opt om m o optional suicide false
  = fold_res apply_o (if suicide then [] else expand_assert m o optional) om.
Proof.
  intros H. unfold set_opt, expand_assert. destruct suicide; [reflexivity|].
  destruct (String.eqb o TASK_OUTPUT_FINISHED); cbn in H.
  - rewrite andb_true_r in H. subst optional. cbn [fold_res apply_o].
    destruct (set_opt1 om m TASK_OUTPUT_SUCCEEDED true false); cbn [bind]; try reflexivity.
    destruct (set_opt1 a m TASK_OUTPUT_FAILED true false); reflexivity.
  - cbn [fold_res apply_o]. destruct (set_opt1 om m o optional false); reflexivity.
Qed.

(* facts about [upd] and [assoc] for any key type with a correct equality test *)
Section Upd.
  Context {K V : Type} (eqb : K -> K -> bool) (eqb_spec : forall x y, eqb x y = true <-> x = y).

  Lemma assoc_upd k k2 (v : V) l :
    assoc eqb k2 (upd eqb k v l) = if eqb k2 k then Some v else assoc eqb k2 l.
  Proof.
    induction l as [|[k' w] r IH]; cbn; [reflexivity|].
    destruct (eqb k k') eqn:E; cbn.
    - apply eqb_spec in E. subst k'. destruct (eqb k2 k); reflexivity.
    - rewrite IH. destruct (eqb k2 k') eqn:E2; [|reflexivity].
      apply eqb_spec in E2. subst k'. destruct (eqb k2 k) eqn:E3; [|reflexivity].
      apply eqb_spec in E3. subst k2. rewrite (proj2 (eqb_spec k k) eq_refl) in E. discriminate.
  Qed.

  (* an update keeps the keys in place; a new key goes to the end *)
  Lemma upd_keys k (v : V) l :
    map fst (upd eqb k v l) = if mem eqb k (map fst l) then map fst l else map fst l ++ [k].
  Proof.
    induction l as [|[k' w] r IH]; cbn; [reflexivity|].
    destruct (eqb k k') eqn:E; cbn.
    - apply eqb_spec in E. now subst k'.
    - rewrite IH. now destruct (mem eqb k (map fst r)).
  Qed.

  Lemma upd_nodup k (v : V) l : NoDup (map fst l) -> NoDup (map fst (upd eqb k v l)).
  Proof.
    intros H. rewrite upd_keys. destruct (mem eqb k (map fst l)) eqn:E; [exact H|].
    apply NoDup_snoc; [exact H|]. now apply (mem_false eqb eqb_spec).
  Qed.

  Lemma upd_in k (v : V) l k' x : In (k', x) (upd eqb k v l) -> x = v \/ In (k', x) l.
  Proof.
    induction l as [|[k1 v1] r IH]; cbn.
    - intros [[= _ <-]|[]]. now left.
    - destruct (eqb k k1); cbn.
      + intros [[= _ <-]|H]; [now left|right; now right].
      + intros [H|H]; [right; now left|]. destruct (IH H); [now left|right; now right].
  Qed.
End Upd.

(* self.triggers[n] is a map keyed by expression: [find_trig] is its lookup and
   [put_trig] its update *)
Definition keyed (l : list trig) : list (list tok * trig) := map (fun t => (tg_expr t, t)) l.

Lemma keyed_keys l : map fst (keyed l) = map tg_expr l.
Proof. apply map_map. Qed.

Lemma find_trig_keyed e l : find_trig e l = assoc toks_eqb e (keyed l).
Proof. induction l as [|t r IH]; cbn; [reflexivity|]. now rewrite IH. Qed.

Lemma put_trig_keyed t l : keyed (put_trig t l) = upd toks_eqb (tg_expr t) t (keyed l).
Proof.
  unfold keyed. induction l as [|t' r IH]; cbn [put_trig map upd]; [reflexivity|].
  destruct (toks_eqb (tg_expr t) (tg_expr t')); cbn [map]; [reflexivity|]. now rewrite IH.
Qed.

Lemma find_put t l e :
  find_trig e (put_trig t l) = if toks_eqb e (tg_expr t) then Some t else find_trig e l.
Proof. rewrite !find_trig_keyed, put_trig_keyed. apply assoc_upd, toks_eqb_true. Qed.

Lemma put_trig_nodup t l : NoDup (map tg_expr l) -> NoDup (map tg_expr (put_trig t l)).
Proof. rewrite <- !keyed_keys, put_trig_keyed. apply upd_nodup, toks_eqb_true. Qed.

Lemma find_trig_in_nodup t l : NoDup (map tg_expr l) -> In t l -> find_trig (tg_expr t) l = Some t.
Proof.
  intros Hnd Hin. rewrite find_trig_keyed. apply (assoc_NoDup toks_eqb toks_eqb_true).
  - now rewrite keyed_keys.
  - now apply (in_map (fun t => (tg_expr t, t))).
Qed.

Lemma find_trig_some e l t : find_trig e l = Some t -> In t l /\ tg_expr t = e.
Proof.
  rewrite find_trig_keyed. intros H. apply (assoc_In toks_eqb toks_eqb_true), in_map_iff in H.
  destruct H as [t' [[= <- <-] H]]. auto.
Qed.

(* both levels of self.triggers are maps: no task twice, no expression twice under a task *)
Definition tm_inv (tm : trigmap) : Prop :=
  NoDup (map fst tm) /\ forall n l, In (n, l) tm -> NoDup (map tg_expr l).

(* self.triggers.get(n, {}), the list that set_trig updates *)
Definition trigs_of (tm : trigmap) (n : name) : list trig :=
  match assoc Nat.eqb n tm with Some l => l | None => [] end.

(* task n has a trigger with expression e and suicide flag s *)
Definition tm_has (tm : trigmap) (a : tassert) : Prop :=
  let '(n, e, s) := a in exists t, find_trig e (trigs_of tm n) = Some t /\ tg_suicide t = s.

Definition tm_task (tm : trigmap) (n : name) : Prop := assoc Nat.eqb n tm <> None.

Lemma trigs_of_set tm n t n' e :
  find_trig e (trigs_of (upd Nat.eqb n (put_trig t (trigs_of tm n)) tm) n')
  = if Nat.eqb n' n && toks_eqb e (tg_expr t) then Some t else find_trig e (trigs_of tm n').
Proof.
  unfold trigs_of at 1. rewrite (assoc_upd Nat.eqb Nat.eqb_eq). destruct (Nat.eqb n' n) eqn:E; [|reflexivity].
  apply Nat.eqb_eq in E. subst n'. apply find_put.
Qed.

Lemma tcompat_same n e s s' : tcompat (n, e, s) (n, e, s') = true -> s = s'.
Proof. unfold tcompat. rewrite Nat.eqb_refl, toks_eqb_refl. cbn. apply Bool.eqb_prop. Qed.

(* What the two stores hold, as facts.  Only triggers with a non-empty
   expression are looked at: an auto-trigger pair records the empty expression,
   which only defines the task. *)
Inductive fact := FTask (n : name) | FTrig (t : tassert) | FOpt (a : oassert).

Definition core_has (c : trigmap * optmap) (x : fact) : Prop :=
  match x with
  | FTask n => tm_task (fst c) n
  | FTrig (n, e, s) => e <> [] /\ tm_has (fst c) (n, e, s)
  | FOpt a => om_has (snd c) a
  end.

Definition core_inv (c : trigmap * optmap) : Prop := tm_inv (fst c) /\ om_inv (snd c) /\ om_nodup (snd c).

Definition fguard (x : fact) : Prop :=
  match x with FOpt a => oassert_guard a = true | _ => True end.
Definition fcompat (x y : fact) : Prop :=
  match x, y with
  | FOpt a, FOpt b => ocompat a b = true
  | FTrig a, FTrig b => tcompat a b = true
  | _, _ => True
  end.
Definition consistent (F : fact -> Prop) : Prop :=
  (forall x, F x -> fguard x) /\ (forall x y, F x -> F y -> fcompat x y).

Lemma consistent_sub (F G : fact -> Prop) : (forall x, G x -> F x) -> consistent F -> consistent G.
Proof. intros H [H1 H2]. split; [intros x Hx; apply H1, H, Hx|intros x y Hx Hy; apply H2; apply H; assumption]. Qed.

Lemma core_has_empty x : ~ core_has ([], []) x.
Proof.
  destruct x as [n|[[n e] s]|[[n o] b]]; cbn.
  - intros H. now apply H.
  - intros [_ [t [H _]]]. discriminate.
  - discriminate.
Qed.

Inductive action := ATrig (m : name) (t : trig) | AOpt (a : oassert).

Definition apply_core (c : trigmap * optmap) (a : action) : res (trigmap * optmap) :=
  match a with
  | ATrig m t => bind (set_trig (fst c) m t) (fun tm => Ok (tm, snd c))
  | AOpt o => bind (apply_o (snd c) o) (fun om => Ok (fst c, om))
  end.

Definition act_facts (a : action) : list fact :=
  match a with
  | ATrig m t => FTask m :: (if is_nil (tg_expr t) then [] else [FTrig (m, tg_expr t, tg_suicide t)])
  | AOpt o => [FOpt o]
  end.

Definition facts (acts : list action) : list fact := flat_map act_facts acts.

Lemma in_trig_facts m t x : In x (act_facts (ATrig m t))
  <-> x = FTask m \/ (tg_expr t <> [] /\ x = FTrig (m, tg_expr t, tg_suicide t)).
Proof.
  cbn [act_facts]. destruct (tg_expr t); cbn [is_nil In]; split.
  - intros [<-|[]]. now left.
  - intros [->|[H _]]; [now left|congruence].
  - intros [<-|[<-|[]]]; [now left|right]. split; [discriminate|reflexivity].
  - intros [->|[_ ->]]; auto.
Qed.

(* one action: it succeeds when what it says is consistent with the stores,
   and adds exactly that *)
Lemma apply_core_ok c a :
  core_inv c -> consistent (fun x => core_has c x \/ In x (act_facts a)) ->
  exists c', apply_core c a = Ok c' /\ core_inv c'
             /\ forall x, core_has c' x <-> core_has c x \/ In x (act_facts a).
Proof.
  destruct c as [tm om]. intros [Htm [Hom Hnd]] [Hg Hc]. cbn [fst snd] in *.
  destruct a as [m t|[[n o] b]]; cbn [apply_core fst snd].
  - (* _set_triggers: a trigger already recorded for the same non-empty
       expression has, by consistency, the same suicide flag: no clash *)
    assert (Hsame : forall s', tg_expr t <> [] -> tm_has tm (m, tg_expr t, s') -> s' = tg_suicide t).
    { intros s' He Hs'. apply (tcompat_same m (tg_expr t)).
      apply (Hc (FTrig (m, tg_expr t, s')) (FTrig (m, tg_expr t, tg_suicide t))).
      - left. now split.
      - right. apply in_trig_facts. right. now split. }
    unfold set_trig. fold (trigs_of tm m).
    assert (Hclash : match find_trig (tg_expr t) (trigs_of tm m) with
                     | Some t0 => negb (is_nil (tg_expr t)) && xorb (tg_suicide t) (tg_suicide t0)
                     | None => false end = false).
    { destruct (find_trig (tg_expr t) (trigs_of tm m)) as [t0|] eqn:Ef; [|reflexivity].
      destruct (tg_expr t) as [|x r] eqn:Ee; [reflexivity|].
      assert (tg_suicide t0 = tg_suicide t) as -> by (apply Hsame; [discriminate|exists t0; auto]).
      apply xorb_nilpotent. }
    rewrite Hclash. eexists. split; [reflexivity|]. split.
    + split; [|split; assumption]. destruct Htm as [Hk Hl]. split; [exact (upd_nodup Nat.eqb Nat.eqb_eq _ _ _ Hk)|].
      intros k l Hin. apply upd_in in Hin. destruct Hin as [->|Hin]; [|eapply Hl; eauto].
      apply put_trig_nodup. unfold trigs_of. destruct (assoc Nat.eqb m tm) as [l|] eqn:E; [|constructor].
      apply (Hl m). now apply (assoc_In Nat.eqb Nat.eqb_eq).
    + intros x. rewrite in_trig_facts. destruct x as [n|[[n e] s]|a]; cbn [core_has fst snd].
      * unfold tm_task. rewrite (assoc_upd Nat.eqb Nat.eqb_eq). destruct (Nat.eqb_spec n m) as [->|Hne].
        -- split; [intros _; right; now left|discriminate].
        -- split; [now left|]. intros [H|[[= E]|[_ [=]]]]; [exact H|contradiction].
      * unfold tm_has. rewrite trigs_of_set.
        destruct (Nat.eqb n m && toks_eqb e (tg_expr t)) eqn:E.
        -- apply andb_true_iff in E. destruct E as [E1 E2].
           apply Nat.eqb_eq in E1. apply toks_eqb_true in E2. subst n e. split.
           ++ intros [He [t1 [[= <-] <-]]]. right. right. now split.
           ++ intros [[He H]|[[=]|[He [= ->]]]]; (split; [exact He|]); exists t; split; try reflexivity.
              symmetry. now apply Hsame.
        -- split; [now left|]. intros [H|[[=]|[_ [= -> -> _]]]]; [exact H|].
           rewrite Nat.eqb_refl, toks_eqb_refl in E. discriminate.
      * split; [now left|]. intros [H|[[=]|[_ [=]]]]. exact H.
  - (* _set_output_opt *)
    destruct (set_opt1_ok om n o b Hom) as [om' [E [Hom' [Hnd' Hr]]]].
    { apply (Hg (FOpt (n, o, b))). right. now left. }
    { intros a' Ha'. apply (Hc (FOpt (n, o, b)) (FOpt a')); [right; now left|now left]. }
    exists (tm, om'). cbn [apply_o]. rewrite E. split; [reflexivity|]. split.
    + exact (conj Htm (conj Hom' (Hnd' Hnd))).
    + intros x. destruct x as [n'|[[n' e] s]|a]; cbn [core_has fst snd act_facts In].
      * split; [now left|]. intros [H|[[=]|[]]]. exact H.
      * split; [now left|]. intros [H|[[=]|[]]]. exact H.
      * rewrite Hr. split; [intros [H| ->]; auto|]. intros [H|[[= ->]|[]]]; auto.
Qed.

Lemma core_fold_ok : forall (acts : list action) c,
  core_inv c -> consistent (fun x => core_has c x \/ In x (facts acts)) ->
  exists c', fold_res apply_core acts c = Ok c' /\ core_inv c'
             /\ forall x, core_has c' x <-> core_has c x \/ In x (facts acts).
Proof.
  induction acts as [|a rest IH]; intros c Hinv Hc.
  - exists c. cbn. split; [reflexivity|]. split; [exact Hinv|]. tauto.
  - change (facts (a :: rest)) with (act_facts a ++ facts rest) in *.
    destruct (apply_core_ok c a Hinv) as [c1 [E1 [Hinv1 H1]]].
    { apply (consistent_sub _ _) with (2 := Hc). intros x [H|H]; [now left|right; apply in_or_app; now left]. }
    destruct (IH c1 Hinv1) as [c2 [E2 [Hinv2 H2]]].
    { apply (consistent_sub _ _) with (2 := Hc). intros x [H|H]; [|right; apply in_or_app; now right].
      apply H1 in H. destruct H as [H|H]; [now left|right; apply in_or_app; now left]. }
    exists c2. cbn [fold_res]. rewrite E1. split; [exact E2|]. split; [exact Hinv2|].
    intros x. rewrite H2, H1, in_app_iff. apply or_assoc.
Qed.
