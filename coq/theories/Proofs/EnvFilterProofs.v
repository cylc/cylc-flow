(* Proofs/EnvFilterProofs.v — list facts behind the C41 theorems over Model/EnvFilter.v:
   [sublist], and that [set_key] only appends keys. *)
From Coq Require Import List.
From Cylc Require Import Base.Util Model.Shell Model.EnvFilter.
Import ListNotations.

(* order-preserving sub-sequence *)
Inductive sublist {A} : list A -> list A -> Prop :=
| sl_nil : sublist [] []
| sl_keep : forall x s l, sublist s l -> sublist (x :: s) (x :: l)
| sl_drop : forall x s l, sublist s l -> sublist s (x :: l).

Lemma filter_sublist {A} (f : A -> bool) l : sublist (filter f l) l.
Proof. induction l as [|x l IH]; cbn; [constructor|]. destruct (f x); now constructor. Qed.

Lemma set_key_keys e k v : exists extra, map fst (set_key e k v) = map fst e ++ extra.
Proof.
  induction e as [|[k' v'] r [extra IH]]; cbn.
  - now exists [k].
  - destruct (str_eqb k' k); cbn.
    + exists []. now rewrite app_nil_r.
    + exists extra. now rewrite IH.
Qed.
