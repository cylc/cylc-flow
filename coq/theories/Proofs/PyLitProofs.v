(* Proofs/PyLitProofs.v — lemmas about Model/PyLit.v (C37): printing a literal
   value with repr and reading the text back with the literal_eval model gives
   the value back ([reads_repr], by induction through the parsers with [reads]);
   hence a value eval_var [accepted] is stored and restored unchanged
   ([accepted_roundtrip], [restart_store]). *)
From Coq Require Import Decimal DecimalZ DecimalPos.
From Coq Require Import List Bool Arith ZArith Lia.
From Cylc Require Import Base.Util Model.PyLit.
Import ListNotations.

Lemma text_eqb_refl t : text_eqb t t = true.
Proof. unfold text_eqb. apply list_eqb_spec; [|reflexivity]. intros x y. apply Z.eqb_eq. Qed.

Lemma text_uint_uint_text u : text_uint (uint_text u) = Some u.
Proof. induction u; cbn [uint_text text_uint]; try rewrite IHu; reflexivity. Qed.

Lemma uint_text_digits u : forallb isdigit (uint_text u) = true.
Proof. induction u; cbn [uint_text forallb]; try rewrite IHu; reflexivity. Qed.

Lemma isdigit_numch c : isdigit c = true -> numch c = true.
Proof. unfold numch. intros ->. reflexivity. Qed.

Lemma uint_text_numch u : forallb numch (uint_text u) = true.
Proof. exact (forallb_impl isdigit numch _ isdigit_numch (uint_text_digits u)). Qed.

Lemma uint_text_cons u : u <> Nil ->
  exists c r, uint_text u = c :: r /\ isdigit c = true /\ Z.eqb c cMINUS = false.
Proof.
  intros Hn. pose proof (uint_text_digits u) as D.
  destruct (uint_text u) as [|c r] eqn:E; [destruct u; try discriminate; congruence|].
  apply andb_true_iff in D as [Hc _]. exists c, r. repeat split; trivial.
  revert Hc. unfold isdigit, cMINUS. lia.
Qed.

Lemma to_int_cases z :
  (exists u, Z.to_int z = Decimal.Pos u /\ u <> Nil) \/ (exists u, Z.to_int z = Decimal.Neg u /\ u <> Nil).
Proof.
  destruct z as [|p|p]; cbn.
  - left. exists zero. split; [reflexivity|discriminate].
  - left. eexists. split; [reflexivity|]. apply Unsigned.to_uint_nonnil.
  - right. eexists. split; [reflexivity|]. apply Unsigned.to_uint_nonnil.
Qed.

Lemma text_int_repr_int z : text_int (repr_int z) = Some z.
Proof.
  unfold repr_int. pose proof (DecimalZ.of_to z) as Hz.
  destruct (to_int_cases z) as [[u [E Hn]]|[u [E Hn]]]; rewrite E in *; unfold text_int.
  - destruct (uint_text_cons u Hn) as (c & r & Eu & _ & Hm).
    rewrite Eu, Hm, <- Eu, text_uint_uint_text. now rewrite Hz.
  - rewrite Z.eqb_refl, text_uint_uint_text. now rewrite Hz.
Qed.

Lemma parse_int_repr_int z : parse_int (repr_int z) = Some z.
Proof. unfold parse_int. rewrite text_int_repr_int, text_eqb_refl. reflexivity. Qed.

Definition number_token (t : text) : bool :=
  match t with c :: _ => isdigit c || Z.eqb c cMINUS | [] => false end && forallb numch t.

Lemma repr_int_shape z : number_token (repr_int z) = true /\ int_like (repr_int z) = true.
Proof.
  unfold repr_int. destruct (to_int_cases z) as [[u [E Hn]]|[u [E Hn]]]; rewrite E;
    destruct (uint_text_cons u Hn) as (c & r & Eu & Hc & Hm); unfold number_token, int_like.
  - rewrite Eu, Hc, Hm, <- Eu, uint_text_numch. split; [reflexivity|apply uint_text_digits].
  - rewrite Z.eqb_refl, orb_true_r. cbn [forallb]. rewrite uint_text_numch, Eu, <- Eu.
    split; [reflexivity|apply uint_text_digits].
Qed.

Fixpoint p16 (w : nat) : Z := match w with 0 => 1%Z | S w' => (16 * p16 w')%Z end.
Lemma p16_pos w : (0 < p16 w)%Z.
Proof. induction w; cbn [p16]; lia. Qed.

Lemma hex_length w : forall c, length (hex w c) = w.
Proof. induction w; intros c; cbn [hex]; [reflexivity|]. rewrite app_length, IHw. cbn. lia. Qed.

Lemma hexval_hexdigit d : (0 <= d < 16)%Z -> hexval (hexdigit d) = Some d.
Proof.
  intros H. unfold hexdigit, hexval. destruct (Z.ltb_spec d 10).
  - replace (Z.leb 48 (48 + d) && Z.leb (48 + d) 57) with true by (symmetry; apply andb_true_iff; lia).
    f_equal. lia.
  - replace (Z.leb 48 (87 + d) && Z.leb (87 + d) 57) with false by (symmetry; apply andb_false_iff; lia).
    replace (Z.leb 97 (87 + d) && Z.leb (87 + d) 102) with true by (symmetry; apply andb_true_iff; lia).
    f_equal. lia.
Qed.

Lemma unhex_app a : forall acc b,
  unhex acc (a ++ b) = match unhex acc a with Some x => unhex x b | None => None end.
Proof.
  induction a as [|c r IH]; intros acc b; [reflexivity|].
  rewrite <- app_comm_cons. cbn [unhex]. destruct (hexval c); [apply IH|reflexivity].
Qed.

Lemma unhex_hex w : forall acc c, (0 <= c)%Z ->
  unhex acc (hex w c) = Some (acc * p16 w + c mod p16 w)%Z.
Proof.
  induction w as [|w IH]; intros acc c Hc; cbn [hex p16 unhex].
  - rewrite Z.mod_1_r. f_equal. lia.
  - rewrite unhex_app, IH by (apply Z.div_pos; lia). cbn [unhex].
    rewrite hexval_hexdigit by (apply Z.mod_pos_bound; lia). f_equal.
    pose proof (p16_pos w).
    rewrite (Z.rem_mul_r c 16 (p16 w)) by lia. lia.
Qed.

Lemma hexesc_app h tl :
  hexesc (length h) (h ++ tl) =
  match unhex 0 h with Some x => if Z.leb x 1114111 then Some (x, tl) else None | None => None end.
Proof.
  unfold hexesc.
  now rewrite firstn_app, skipn_app, Nat.sub_diag, firstn_all, skipn_all, app_nil_r, Nat.eqb_refl.
Qed.

Lemma hexesc_hex w c tl : (0 <= c < p16 w)%Z -> (c <= 1114111)%Z ->
  hexesc w (hex w c ++ tl) = Some (c, tl).
Proof.
  intros H1 H2. rewrite <- (hex_length w c) at 1. rewrite hexesc_app, unhex_hex by lia.
  rewrite Z.mod_small by lia. cbn [Z.mul Z.add]. now apply Z.leb_le in H2 as ->.
Qed.

(* the three hexadecimal escapes: \xhh, \uhhhh, \Uhhhhhhhh *)
Lemma unescape_hex tag w c tl : In (tag, w) [(120%Z, 2); (117%Z, 4); (85%Z, 8)] ->
  (0 <= c < p16 w)%Z -> (c <= 1114111)%Z -> unescape (tag :: hex w c ++ tl) = Some (c, tl).
Proof.
  intros H H1 H2. rewrite <- (hexesc_hex w c tl H1 H2).
  repeat destruct H as [[= <- <-]|H]; try destruct H; reflexivity.
Qed.

Lemma span_app p a : forall rest,
  forallb p a = true -> match rest with [] => True | c :: _ => p c = false end ->
  span p (a ++ rest) = (a, rest).
Proof.
  induction a as [|c r IH]; intros rest Ha Hr.
  - destruct rest as [|c r]; [reflexivity|]. simpl. simpl in Hr. now rewrite Hr.
  - simpl in Ha. apply andb_true_iff in Ha. destruct Ha as [Hc Ha]. simpl. rewrite Hc, IH; auto.
Qed.

Lemma delim_ok_not_numch rest : delim_ok rest = true ->
  match rest with [] => True | c :: _ => numch c = false end.
Proof.
  destruct rest as [|c r]; [auto|]. unfold delim_ok, numch, isdigit, cCOMMA, cRB, cRP, cRC, cCOLON.
  intros H. repeat (apply orb_true_iff in H; destruct H as [H|H]); apply Z.eqb_eq in H; subst; reflexivity.
Qed.

Definition char_ok (c : Z) : bool := Z.leb 0 c && Z.leb c 1114111.
Definition is_quote (q : Z) : Prop := q = cQ1 \/ q = cQ2.

Section Str.
  Variable printable : Z -> bool.

  Lemma unescape_cons e r : unescape (e :: r) =
        if Z.eqb e cBS then Some (cBS, r)
        else if Z.eqb e cQ1 then Some (cQ1, r)
        else if Z.eqb e cQ2 then Some (cQ2, r)
        else if Z.eqb e 110 then Some (10%Z, r)
        else if Z.eqb e 116 then Some (9%Z, r)
        else if Z.eqb e 114 then Some (13%Z, r)
        else if Z.eqb e 120 then hexesc 2 r
        else if Z.eqb e 117 then hexesc 4 r
        else if Z.eqb e 85 then hexesc 8 r
        else None.
  Proof. reflexivity. Qed.

  Lemma parse_chars_S f q c r : parse_chars (S f) q (c :: r) =
            if Z.eqb c q then Some ([], r)
            else if Z.eqb c cBS then
              match unescape r with
              | Some (x, r') =>
                  match parse_chars f q r' with Some (t, r2) => Some (x :: t, r2) | None => None end
              | None => None
              end
            else if Z.ltb c 32 then None
            else match parse_chars f q r with Some (t, r2) => Some (c :: t, r2) | None => None end.
  Proof. reflexivity. Qed.

  (* a character is printed raw, where the parser takes it as it stands, or
     as a backslash and an escape that [unescape] decodes to it *)
  Inductive char_text (q c : Z) : text -> Prop :=
  | ct_raw : Z.eqb c q = false -> Z.eqb c cBS = false -> Z.ltb c 32 = false -> char_text q c [c]
  | ct_esc e : (forall tl, unescape (e ++ tl) = Some (c, tl)) -> char_text q c (cBS :: e).

  Lemma char_text_if q c (b : bool) t1 t2 :
    (b = true -> char_text q c t1) -> (b = false -> char_text q c t2) ->
    char_text q c (if b then t1 else t2).
  Proof. destruct b; auto. Qed.

  Lemma repr_char_spec q c : char_ok c = true -> is_quote q -> char_text q c (repr_char printable q c).
  Proof.
    intros Hc Hq. apply andb_true_iff in Hc as [Hc0 Hc1]. apply Z.leb_le in Hc0, Hc1.
    assert (Hx : forall tag w, In (tag, w) [(120%Z, 2); (117%Z, 4); (85%Z, 8)] -> (c < p16 w)%Z ->
                 char_text q c (cBS :: tag :: hex w c)).
    { intros tag w Hin Hw. apply ct_esc. intros tl. apply unescape_hex; [exact Hin|lia|lia]. }
    unfold repr_char.
    apply char_text_if; intros E1.
    { apply ct_esc. intros tl.
      apply orb_true_iff in E1 as [E|E]; apply Z.eqb_eq in E; subst c; [destruct Hq as [-> | ->]|]; reflexivity. }
    apply orb_false_iff in E1 as [Eq Eb].
    apply char_text_if; intros E9; [apply Z.eqb_eq in E9 as ->; now apply ct_esc|].
    apply char_text_if; intros E10; [apply Z.eqb_eq in E10 as ->; now apply ct_esc|].
    apply char_text_if; intros E13; [apply Z.eqb_eq in E13 as ->; now apply ct_esc|].
    apply char_text_if; intros E5.
    { apply Hx; [cbn; auto|]. apply orb_true_iff in E5. cbn [p16]. lia. }
    apply orb_false_iff in E5 as [E32 _].
    apply char_text_if; intros _; [now apply ct_raw|].
    apply char_text_if; intros _; [now apply ct_raw|].
    apply char_text_if; intros E255; [apply Hx; [cbn; auto|cbn [p16]; lia]|].
    apply char_text_if; intros E65535; apply Hx; cbn [p16 In]; auto; lia.
  Qed.

  Lemma parse_chars_body q s : is_quote q -> forallb char_ok s = true ->
    forall rest fuel, length (flat_map (repr_char printable q) s) < fuel ->
    parse_chars fuel q (flat_map (repr_char printable q) s ++ q :: rest) = Some (s, rest).
  Proof.
    intros Hq. assert (Hbq : Z.eqb cBS q = false) by (destruct Hq as [-> | ->]; reflexivity).
    induction s as [|c s IH]; intros Hs rest fuel Hf; (destruct fuel; [lia|]).
    - cbn [flat_map app]. now rewrite parse_chars_S, Z.eqb_refl.
    - cbn [forallb] in Hs. apply andb_true_iff in Hs as [Hc Hs].
      cbn [flat_map] in *. rewrite app_length in Hf. rewrite <- app_assoc.
      destruct (repr_char_spec q c Hc Hq) as [Eq Eb E32 | e He]; cbn [app length] in *.
      + rewrite parse_chars_S, Eq, Eb, E32, IH by (trivial; lia). reflexivity.
      + rewrite parse_chars_S, Hbq, Z.eqb_refl, He, IH by (trivial; lia). reflexivity.
  Qed.

  Lemma quote_for_quote s : is_quote (quote_for s).
  Proof. unfold quote_for, is_quote. destruct (_ && _); auto. Qed.
End Str.

(* a number token that is not an integer literal: what a finite float prints as *)
Definition float_token (t : text) : bool :=
  match t with c :: _ => isdigit c || Z.eqb c cMINUS | [] => false end
  && forallb numch t && negb (int_like t).

(* what CPython prints for the other floats *)
Definition t_inf : text := [105; 110; 102]%Z.
Definition t_ninf : text := [45; 105; 110; 102]%Z.
Definition t_nan : text := [110; 97; 110]%Z.
Definition nonfinite_text (t : text) : bool :=
  text_eqb t t_inf || text_eqb t t_ninf || text_eqb t t_nan.

Lemma text_eqb_eq a b : text_eqb a b = true -> a = b.
Proof. unfold text_eqb. apply list_eqb_spec. intros x y. apply Z.eqb_eq. Qed.

Lemma nonfinite_cases t : nonfinite_text t = true -> t = t_inf \/ t = t_ninf \/ t = t_nan.
Proof.
  unfold nonfinite_text. intros H. apply orb_true_iff in H. destruct H as [H|H].
  - apply orb_true_iff in H. destruct H as [H|H]; apply text_eqb_eq in H; auto.
  - apply text_eqb_eq in H. auto.
Qed.

Lemma starts_with_app p : forall s, starts_with p (p ++ s) = Some s.
Proof. induction p as [|a p IH]; intros s; cbn; [reflexivity|]. now rewrite Z.eqb_refl. Qed.

Lemma join_cons sep x l : join sep (x :: l) = x ++ flat_map (fun y => sep ++ y) l.
Proof.
  revert x. induction l as [|y r IH]; intros x.
  - cbn. now rewrite app_nil_r.
  - change (join sep (x :: y :: r)) with (x ++ sep ++ join sep (y :: r)).
    rewrite IH. cbn [flat_map]. now rewrite <- !app_assoc.
Qed.

(* What a parser makes of a printed value [x]: it reads [x] back, or it
   fails, and it may fail only when [c] does not hold.  The first disjunct
   alone is completeness, the disjunction is soundness; the statements below
   carry both through one induction. *)
Definition reads {A} (o : option A) (x : A) (c : Prop) : Prop :=
  o = Some x \/ (o = None /\ ~ c).

Lemma reads_ret {A} (x : A) : reads (Some x) x True.
Proof. now left. Qed.

(* without fuel a parser fails, and nothing was promised *)
Lemma reads_no_fuel {A} (x : A) (c : Prop) n : reads None x (c /\ n < 0).
Proof. right. split; [reflexivity|lia]. Qed.

Lemma reads_bind {A B} (o : option A) x c1 (k : A -> option B) y c2 :
  reads o x c1 -> reads (k x) y c2 ->
  reads (match o with Some a => k a | None => None end) y (c1 /\ c2).
Proof.
  intros [-> | [-> N1]] H; [|right; tauto].
  destruct H as [-> | [-> N2]]; [now left|right; tauto].
Qed.

Lemma reads_weaken {A} (o : option A) x (c c' : Prop) : (c' -> c) -> reads o x c -> reads o x c'.
Proof. unfold reads. tauto. Qed.

Lemma forallb_Forall_impl {A} (p q : A -> bool) l :
  Forall (fun x => p x = true -> q x = true) l -> forallb p l = true -> forallb q l = true.
Proof.
  induction 1 as [|x r Hx _ IH]; cbn [forallb]; [reflexivity|].
  intros H. apply andb_true_iff in H as [Hp Hr]. now rewrite Hx, IH.
Qed.

Lemma if3_false {A} (b1 b2 b3 : bool) (x y z w : A) :
  b1 = false -> b2 = false -> b3 = false ->
  (if b1 then x else if b2 then y else if b3 then z else w) = w.
Proof. now intros -> -> ->. Qed.

Section Main.
  Variable F : Type.
  Variable frepr : F -> text.
  Variable fparse : text -> option F.
  Variable printable : Z -> bool.
  Variable ffinite : F -> bool.
  (* CPython: a finite float prints as a number token that is not an integer
     literal and that float() maps back to the same float; the other floats
     print as inf, -inf or nan *)
  Hypothesis H_float : forall f,
    if ffinite f then float_token (frepr f) = true /\ fparse (frepr f) = Some f
    else nonfinite_text (frepr f) = true.

  Local Notation pv := (pyval F).
  Local Notation rp := (repr F frepr printable).
  Local Notation pval := (parse_val F fparse).
  Local Notation ptail := (parse_tail F fparse).
  Local Notation ppairs := (parse_pairs F fparse).
  Local Notation patom := (parse_atom F fparse).

  Section Ind.
    Variable P : pv -> Prop.
    Hypothesis HNone : P VNone.
    Hypothesis HBool : forall b, P (VBool b).
    Hypothesis HInt : forall z, P (VInt z).
    Hypothesis HFloat : forall f, P (VFloat f).
    Hypothesis HStr : forall s, P (VStr s).
    Hypothesis HList : forall l, Forall P l -> P (VList l).
    Hypothesis HTuple : forall l, Forall P l -> P (VTuple l).
    Hypothesis HSet : forall l, Forall P l -> P (VSet l).
    Hypothesis HDict : forall l, Forall (fun kv => P (fst kv) /\ P (snd kv)) l -> P (VDict l).
    Fixpoint pyval_ind' (v : pv) : P v :=
      match v with
      | VNone => HNone
      | VBool b => HBool b
      | VInt z => HInt z
      | VFloat f => HFloat f
      | VStr s => HStr s
      | VList l => HList l ((fix go (l : list pv) : Forall P l :=
                               match l with [] => Forall_nil _ | x :: r => Forall_cons x (pyval_ind' x) (go r) end) l)
      | VTuple l => HTuple l ((fix go (l : list pv) : Forall P l :=
                               match l with [] => Forall_nil _ | x :: r => Forall_cons x (pyval_ind' x) (go r) end) l)
      | VSet l => HSet l ((fix go (l : list pv) : Forall P l :=
                               match l with [] => Forall_nil _ | x :: r => Forall_cons x (pyval_ind' x) (go r) end) l)
      | VDict l => HDict l ((fix go (l : list (pv * pv)) : Forall (fun kv => P (fst kv) /\ P (snd kv)) l :=
                               match l with
                               | [] => Forall_nil _
                               | (k, x) :: r => Forall_cons (k, x) (conj (pyval_ind' k) (pyval_ind' x)) (go r)
                               end) l)
      end.
  End Ind.

  (* code points in range, floats finite *)
  Fixpoint vwf (v : pv) : bool :=
    match v with
    | VFloat f => ffinite f
    | VStr s => forallb char_ok s
    | VList l => forallb vwf l
    | VTuple l => forallb vwf l
    | VSet l => forallb vwf l
    | VDict l => forallb (fun kv => let '(k, x) := kv in vwf k && vwf x) l
    | _ => true
    end.

  (* strings over code points in range; floats unrestricted *)
  Fixpoint swf (v : pv) : bool :=
    match v with
    | VStr s => forallb char_ok s
    | VList l => forallb swf l
    | VTuple l => forallb swf l
    | VSet l => forallb swf l
    | VDict l => forallb (fun kv => let '(k, x) := kv in swf k && swf x) l
    | _ => true
    end.

  Lemma vwf_swf v : vwf v = true -> swf v = true.
  Proof.
    induction v as [| | | | |l IH|l IH|l IH|l IH] using pyval_ind'; cbn [vwf swf]; trivial;
      try exact (forallb_Forall_impl _ _ l IH).
    apply forallb_Forall_impl. eapply Forall_impl; [|exact IH].
    intros [k x] [Hk Hx] H. apply andb_true_iff in H as [Hwk Hwx]. apply andb_true_iff. auto.
  Qed.

  Definition pair_text (kv : pv * pv) : text := let '(k, x) := kv in rp k ++ tKV ++ rp x.
  Definition tail_text (l : list pv) : text := flat_map (fun x => tSep ++ rp x) l.
  Definition pairs_text (l : list (pv * pv)) : text := flat_map (fun kv => tSep ++ pair_text kv) l.

  Lemma repr_VList l : rp (VList l) = cLB :: join tSep (map rp l) ++ [cRB].
  Proof. reflexivity. Qed.
  Lemma repr_VTuple l : rp (VTuple l) =
    match l with [x] => cLP :: rp x ++ [cCOMMA; cRP] | _ => cLP :: join tSep (map rp l) ++ [cRP] end.
  Proof. reflexivity. Qed.
  Lemma repr_VSet l : rp (VSet l) =
    match l with [] => tSet0 | _ => cLC :: join tSep (map rp l) ++ [cRC] end.
  Proof. reflexivity. Qed.
  Lemma repr_VDict l : rp (VDict l) = cLC :: join tSep (map pair_text l) ++ [cRC].
  Proof. reflexivity. Qed.

  Lemma join_reprs a r : join tSep (map rp (a :: r)) = rp a ++ tail_text r.
  Proof. cbn [map]. rewrite join_cons, flat_map_map. reflexivity. Qed.

  (* first element, the `, x` tail, the closing text *)
  Lemma repr_list_cons a r : rp (VList (a :: r)) = cLB :: rp a ++ tail_text r ++ [cRB].
  Proof. now rewrite repr_VList, join_reprs, <- app_assoc. Qed.
  Lemma repr_set_cons a r : rp (VSet (a :: r)) = cLC :: rp a ++ tail_text r ++ [cRC].
  Proof. now rewrite repr_VSet, join_reprs, <- app_assoc. Qed.
  Lemma repr_tuple_cons a r : rp (VTuple (a :: r)) =
    cLP :: rp a ++ tail_text r ++ match r with [] => [cCOMMA; cRP] | _ => [cRP] end.
  Proof.
    rewrite repr_VTuple. destruct r as [|b r]; [reflexivity|]. now rewrite join_reprs, <- app_assoc.
  Qed.
  Lemma repr_dict_cons k x r :
    rp (VDict ((k, x) :: r)) = cLC :: rp k ++ tKV ++ rp x ++ pairs_text r ++ [cRC].
  Proof.
    rewrite repr_VDict. cbn [map]. rewrite join_cons, flat_map_map. cbn [pair_text].
    now rewrite <- !app_assoc.
  Qed.

  Lemma pval_0 s : pval 0 s = None.
  Proof. reflexivity. Qed.

  Lemma pval_atom f c t : Z.eqb c cLB = false -> Z.eqb c cLP = false -> Z.eqb c cLC = false ->
    pval (S f) (c :: t) = patom (c :: t).
  Proof.
    intros H1 H2 H3.
    (* the three container branches are named in folded form: inferred, they
       would be copies of the whole unfolded fixpoint, and dear to check *)
    exact (if3_false _ _ _ (pval (S f) (cLB :: t)) (pval (S f) (cLP :: t)) (pval (S f) (cLC :: t)) _ H1 H2 H3).
  Qed.

  Lemma pval_list f r : pval (S f) (cLB :: r) =
    match expect cRB r with
    | Some r2 => Some (VList [], r2)
    | None =>
        match pval f r with
        | Some (v, s1) =>
            match ptail f s1 with
            | Some (vs, s2) =>
                match expect cRB s2 with Some s3 => Some (VList (v :: vs), s3) | None => None end
            | None => None
            end
        | None => None
        end
    end.
  Proof. reflexivity. Qed.

  Lemma pval_tuple f r : pval (S f) (cLP :: r) =
    match expect cRP r with
    | Some r2 => Some (VTuple [], r2)
    | None =>
        match pval f r with
        | Some (v, s1) =>
            match ptail f s1 with
            | Some ([], s2) =>
                match starts_with [cCOMMA; cRP] s2 with Some s3 => Some (VTuple [v], s3) | None => None end
            | Some (vs, s2) =>
                match expect cRP s2 with Some s3 => Some (VTuple (v :: vs), s3) | None => None end
            | None => None
            end
        | None => None
        end
    end.
  Proof. reflexivity. Qed.

  Lemma pval_brace f r : pval (S f) (cLC :: r) =
    match expect cRC r with
    | Some r2 => Some (VDict [], r2)
    | None =>
        match pval f r with
        | Some (k, s1) =>
            match starts_with tKV s1 with
            | Some s2 =>
                match pval f s2 with
                | Some (x, s3) =>
                    match ppairs f s3 with
                    | Some (kvs, s4) =>
                        match expect cRC s4 with Some s5 => Some (VDict ((k, x) :: kvs), s5) | None => None end
                    | None => None
                    end
                | None => None
                end
            | None =>
                match ptail f s1 with
                | Some (vs, s2) =>
                    match expect cRC s2 with Some s3 => Some (VSet (k :: vs), s3) | None => None end
                | None => None
                end
            end
        | None => None
        end
    end.
  Proof. reflexivity. Qed.

  Lemma ptail_S f s : ptail (S f) s =
    match starts_with tSep s with
    | Some s1 =>
        match pval f s1 with
        | Some (v, s2) => match ptail f s2 with Some (vs, s3) => Some (v :: vs, s3) | None => None end
        | None => None
        end
    | None => Some ([], s)
    end.
  Proof. reflexivity. Qed.

  Lemma ppairs_S f s : ppairs (S f) s =
    match starts_with tSep s with
    | Some s1 =>
        match pval f s1 with
        | Some (k, s2) =>
            match starts_with tKV s2 with
            | Some s3 =>
                match pval f s3 with
                | Some (x, s4) =>
                    match ppairs f s4 with Some (kvs, s5) => Some ((k, x) :: kvs, s5) | None => None end
                | None => None
                end
            | None => None
            end
        | None => None
        end
    | None => Some ([], s)
    end.
  Proof. reflexivity. Qed.

  Lemma expect_refl c s : expect c (c :: s) = Some s.
  Proof. unfold expect. now rewrite Z.eqb_refl. Qed.

  Lemma delim_sep s : delim_ok (tSep ++ s) = true.
  Proof. reflexivity. Qed.

  Lemma delim_tail l rest : delim_ok rest = true -> delim_ok (tail_text l ++ rest) = true.
  Proof. destruct l; [auto|]. intros _. reflexivity. Qed.

  Lemma delim_pairs l rest : delim_ok rest = true -> delim_ok (pairs_text l ++ rest) = true.
  Proof. destruct l; [auto|]. intros _. reflexivity. Qed.

  (* the head character of a printed atom opens no container, and that of any
     printed value closes none *)
  Definition nonbracket (c : Z) : Prop :=
    Z.eqb c cLB = false /\ Z.eqb c cLP = false /\ Z.eqb c cLC = false.
  Definition head_ok (c : Z) : Prop :=
    Z.eqb c cRB = false /\ Z.eqb c cRP = false /\ Z.eqb c cRC = false.
  Definition atom_head (t : text) : Prop :=
    exists c r, t = c :: r /\ nonbracket c /\ head_ok c.

  Lemma quote_head q r : is_quote q -> atom_head (q :: r).
  Proof. intros Hq. exists q, r. destruct Hq as [-> | ->]; repeat split. Qed.

  Lemma number_head t : number_token t = true -> atom_head t.
  Proof.
    destruct t as [|c r]; [discriminate|]. intros H. apply andb_true_iff in H as [H _].
    exists c, r. split; [reflexivity|]. revert H.
    unfold isdigit, nonbracket, head_ok, cMINUS, cLB, cLP, cLC, cRB, cRP, cRC. lia.
  Qed.

  Lemma float_head f : atom_head (frepr f).
  Proof.
    pose proof (H_float f) as Hf. destruct (ffinite f).
    - destruct Hf as [Ht _]. apply andb_true_iff in Ht as [Ht _]. now apply number_head.
    - destruct (nonfinite_cases _ Hf) as [-> | [-> | ->]]; do 2 eexists; repeat split.
  Qed.

  Lemma repr_head v : exists c r, rp v = c :: r /\ head_ok c.
  Proof.
    assert (A : forall t, atom_head t -> exists c r, t = c :: r /\ head_ok c).
    { intros t (c & r & E & _ & H). eauto. }
    destruct v as [|b|z|f|s|l|l|l|l].
    - do 2 eexists. repeat split.
    - destruct b; do 2 eexists; repeat split.
    - apply A, number_head, repr_int_shape.
    - apply A, float_head.
    - apply A, quote_head, quote_for_quote.
    - do 2 eexists. split; [apply repr_VList|repeat split].
    - rewrite repr_VTuple. destruct l as [|a [|b r]]; do 2 eexists; repeat split.
    - rewrite repr_VSet. destruct l; do 2 eexists; repeat split.
    - do 2 eexists. split; [apply repr_VDict|repeat split].
  Qed.

  Lemma expect_head_none close v Y :
    close = cRB \/ close = cRP \/ close = cRC -> expect close (rp v ++ Y) = None.
  Proof.
    intros Hc. destruct (repr_head v) as (c & t & E & H1 & H2 & H3). rewrite E. cbn [app expect].
    destruct Hc as [-> | [-> | ->]]; [rewrite H1|rewrite H2|rewrite H3]; reflexivity.
  Qed.

  Lemma patom_number tok rest : number_token tok = true -> delim_ok rest = true ->
    patom (tok ++ rest) =
    if int_like tok then match parse_int tok with Some z => Some (VInt z, rest) | None => None end
    else match fparse tok with Some f => Some (VFloat f, rest) | None => None end.
  Proof.
    intros Ht Hd. destruct tok as [|c r]; [discriminate|].
    apply andb_true_iff in Ht as [Hc Hn].
    assert (Hq : Z.eqb c cQ1 || Z.eqb c cQ2 = false).
    { revert Hc. unfold isdigit, cMINUS, cQ1, cQ2. lia. }
    cbn [app]. unfold parse_atom. rewrite Hq, Hc. unfold parse_number.
    change (c :: r ++ rest) with ((c :: r) ++ rest).
    now rewrite (span_app numch _ rest Hn (delim_ok_not_numch rest Hd)), Hd.
  Qed.

  Definition keywords : list (text * pv) :=
    [(tNone, VNone); (tTrue, VBool true); (tFalse, VBool false); (tSet0, VSet [])].

  Lemma patom_keyword kw v rest : In (kw, v) keywords ->
    delim_ok rest = true -> patom (kw ++ rest) = Some (v, rest).
  Proof.
    intros H Hd. repeat destruct H as [[= <- <-]|H]; try destruct H; cbv -[delim_ok]; now rewrite Hd.
  Qed.

  Lemma patom_str s rest : forallb char_ok s = true ->
    patom (repr_str printable s ++ rest) = Some (VStr s, rest).
  Proof.
    intros Hs. unfold repr_str. pose proof (quote_for_quote s) as Hq.
    set (q := quote_for s) in *. clearbody q.
    cbn [app]. unfold parse_atom.
    replace (Z.eqb q cQ1 || Z.eqb q cQ2) with true by (destruct Hq as [-> | ->]; reflexivity).
    unfold parse_string. rewrite <- app_assoc. cbn [app].
    rewrite (parse_chars_body printable); [reflexivity|exact Hq|exact Hs|].
    rewrite app_length. lia.
  Qed.

  (* inf, -inf, nan are not literals *)
  Lemma nonfinite_unreadable t rest fuel : nonfinite_text t = true -> pval fuel (t ++ rest) = None.
  Proof.
    intros H. destruct fuel; [reflexivity|].
    destruct (nonfinite_cases t H) as [-> | [-> | ->]]; reflexivity.
  Qed.

  (* [rp v] followed by a delimiter is read back as [v], with the delimiter
     left over, as soon as the floats in [v] are finite and the fuel exceeds the
     length of [rp v]; with other floats or less fuel the parser may fail, but it
     never reads anything else. *)
  Definition reads_repr (v : pv) : Prop :=
    swf v = true -> forall fuel rest, delim_ok rest = true ->
      reads (pval fuel (rp v ++ rest)) (v, rest) (vwf v = true /\ length (rp v) < fuel).

  Lemma reads_atom v : atom_head (rp v) ->
    (swf v = true -> forall rest, delim_ok rest = true -> patom (rp v ++ rest) = Some (v, rest)) ->
    reads_repr v.
  Proof.
    intros (c & t & E & (B1 & B2 & B3) & _) Ha Hw fuel rest Hd.
    destruct fuel; [apply reads_no_fuel|].
    left. rewrite <- (Ha Hw rest Hd), E, <- app_comm_cons. now apply pval_atom.
  Qed.

  Lemma reads_keyword kw v : rp v = kw -> In (kw, v) keywords -> reads_repr v.
  Proof.
    intros E H. apply reads_atom; rewrite E.
    - repeat destruct H as [[= <- <-]|H]; try destruct H; do 2 eexists; repeat split.
    - intros _ rest. now apply patom_keyword.
  Qed.

  Lemma reads_int z : reads_repr (VInt z).
  Proof.
    destruct (repr_int_shape z) as [Hn Hi]. apply reads_atom; [now apply number_head|].
    intros _ rest Hd. cbn [repr]. now rewrite patom_number, Hi, parse_int_repr_int.
  Qed.

  Lemma reads_float f : reads_repr (VFloat f).
  Proof.
    pose proof (H_float f) as Hf. destruct (ffinite f) eqn:Ef.
    - destruct Hf as [Ht Hp]. apply andb_true_iff in Ht as [Hn Hi]. apply negb_true_iff in Hi.
      apply reads_atom; [now apply number_head|].
      intros _ rest Hd. cbn [repr]. now rewrite patom_number, Hi, Hp.
    - intros _ fuel rest _. right. split; [now apply nonfinite_unreadable|].
      cbn [vwf]. rewrite Ef. intros [[=] _].
  Qed.

  Lemma reads_str s : reads_repr (VStr s).
  Proof. apply reads_atom; [apply quote_head, quote_for_quote|]. intros Hw rest _. now apply patom_str. Qed.

  (* the `, x` tail of a sequence, up to text that does not go on with `, ` *)
  Lemma reads_tail l : Forall reads_repr l -> forallb swf l = true ->
    forall fuel rest, starts_with tSep rest = None -> delim_ok rest = true ->
      reads (ptail fuel (tail_text l ++ rest)) (l, rest)
            (forallb vwf l = true /\ length (tail_text l) < fuel).
  Proof.
    induction 1 as [|x r Hx _ IH]; intros Hw fuel rest Hs Hd;
      (destruct fuel; [apply reads_no_fuel|]).
    - cbn [tail_text flat_map app]. rewrite ptail_S, Hs. now left.
    - cbn [forallb] in Hw. apply andb_true_iff in Hw as [Hwx Hwr].
      cbn [tail_text flat_map]. fold (tail_text r). rewrite <- !app_assoc. rewrite ptail_S, starts_with_app.
      (* one [reads_bind] for each parser called in the unfolded step; the
         promises they collect follow from the promise for the whole (last goal) *)
      eapply reads_weaken; [|eapply reads_bind; [apply (Hx Hwx), delim_tail, Hd|]].
      2: { eapply reads_bind; [now apply (IH Hwr)|apply reads_ret]. }
      cbn [forallb]. rewrite !app_length. cbn [length tSep]. intros [Hv Hl].
      apply andb_true_iff in Hv as [Hvx Hvr]. repeat split; trivial; lia.
  Qed.

  (* the promise made for a sequence covers its first element and its tail;
     the final [True] is the promise of the [reads_ret] that ends the parser *)
  Lemma seq_promise a r (open : Z) (close : text) fuel :
    vwf a && forallb vwf r = true /\ length (open :: rp a ++ tail_text r ++ close) < S fuel ->
    (vwf a = true /\ length (rp a) < fuel) /\ (forallb vwf r = true /\ length (tail_text r) < fuel) /\ True.
  Proof.
    cbn [length]. rewrite !app_length. intros [Hv Hl].
    apply andb_true_iff in Hv as [Hva Hvr]. repeat split; trivial; lia.
  Qed.

  (* the `, k: x` tail of a dict *)
  Lemma reads_pairs l : Forall (fun kv => reads_repr (fst kv) /\ reads_repr (snd kv)) l ->
    forallb (fun kv => let '(k, x) := kv in swf k && swf x) l = true ->
    forall fuel rest, starts_with tSep rest = None -> delim_ok rest = true ->
      reads (ppairs fuel (pairs_text l ++ rest)) (l, rest)
            (forallb (fun kv => let '(k, x) := kv in vwf k && vwf x) l = true /\
             length (pairs_text l) < fuel).
  Proof.
    induction 1 as [|[k x] r [Hk Hx] _ IH]; intros Hw fuel rest Hs Hd;
      (destruct fuel; [apply reads_no_fuel|]).
    - cbn [pairs_text flat_map app]. rewrite ppairs_S, Hs. now left.
    - cbn [forallb] in Hw. apply andb_true_iff in Hw as [Hw Hwr]. apply andb_true_iff in Hw as [Hwk Hwx].
      cbn [pairs_text flat_map pair_text fst snd] in *. fold (pairs_text r).
      rewrite <- !app_assoc. rewrite ppairs_S, starts_with_app.
      eapply reads_weaken; [|eapply reads_bind; [now apply (Hk Hwk)|]].
      2: { cbv beta iota. rewrite starts_with_app.
           eapply reads_bind; [apply (Hx Hwx), delim_pairs, Hd|].
           eapply reads_bind; [now apply (IH Hwr)|apply reads_ret]. }
      cbn [forallb]. rewrite !app_length. cbn [length tSep tKV]. intros [Hv Hl].
      apply andb_true_iff in Hv as [Hv Hvr]. apply andb_true_iff in Hv as [Hvk Hvx].
      repeat split; trivial; lia.
  Qed.

  Lemma reads_list l : Forall reads_repr l -> reads_repr (VList l).
  Proof.
    intros HF Hw fuel rest Hd. destruct fuel; [apply reads_no_fuel|].
    destruct l as [|a r]; [now left|].
    cbn [swf forallb] in Hw. apply andb_true_iff in Hw as [Hwa Hwr].
    apply Forall_cons_iff in HF as [Ha Hr].
    rewrite repr_list_cons, <- app_comm_cons, <- !app_assoc. cbn [app].
    rewrite pval_list, expect_head_none by auto.
    eapply reads_weaken; [|eapply reads_bind; [apply (Ha Hwa), delim_tail; reflexivity|]].
    2: { eapply reads_bind; [now apply (reads_tail r Hr Hwr)|]. cbv beta iota.
         rewrite expect_refl. apply reads_ret. }
    cbn [vwf forallb]. apply seq_promise.
  Qed.

  Lemma reads_set l : Forall reads_repr l -> reads_repr (VSet l).
  Proof.
    intros HF. destruct l as [|a r]; [apply (reads_keyword tSet0); cbn; auto|].
    intros Hw fuel rest Hd. destruct fuel; [apply reads_no_fuel|].
    cbn [swf forallb] in Hw. apply andb_true_iff in Hw as [Hwa Hwr].
    apply Forall_cons_iff in HF as [Ha Hr].
    rewrite repr_set_cons, <- app_comm_cons, <- !app_assoc. cbn [app].
    rewrite pval_brace, expect_head_none by auto.
    eapply reads_weaken; [|eapply reads_bind; [apply (Ha Hwa), delim_tail; reflexivity|]].
    2: { cbv beta iota.
         replace (starts_with tKV (tail_text r ++ cRC :: rest)) with (@None text)
           by (destruct r; reflexivity).
         eapply reads_bind; [now apply (reads_tail r Hr Hwr)|]. cbv beta iota.
         rewrite expect_refl. apply reads_ret. }
    cbn [vwf forallb]. apply seq_promise.
  Qed.

  Lemma reads_tuple l : Forall reads_repr l -> reads_repr (VTuple l).
  Proof.
    intros HF Hw fuel rest Hd. destruct fuel; [apply reads_no_fuel|].
    destruct l as [|a r]; [now left|].
    cbn [swf forallb] in Hw. apply andb_true_iff in Hw as [Hwa Hwr].
    apply Forall_cons_iff in HF as [Ha Hr].
    rewrite repr_tuple_cons, <- app_comm_cons, <- !app_assoc.
    set (close := match r with [] => [cCOMMA; cRP] | _ => [cRP] end).
    assert (Hc : delim_ok (close ++ rest) = true /\ starts_with tSep (close ++ rest) = None)
      by (destruct r; split; reflexivity).
    rewrite pval_tuple, expect_head_none by auto.
    eapply reads_weaken; [|eapply reads_bind; [apply (Ha Hwa), delim_tail, Hc|]].
    2: { eapply reads_bind; [apply (reads_tail r Hr Hwr); apply Hc|]. cbv beta iota.
         subst close. destruct r; cbn [app starts_with]; rewrite ?expect_refl, ?Z.eqb_refl; apply reads_ret. }
    cbn [vwf forallb]. apply seq_promise.
  Qed.

  Lemma reads_dict l : Forall (fun kv => reads_repr (fst kv) /\ reads_repr (snd kv)) l -> reads_repr (VDict l).
  Proof.
    intros HF Hw fuel rest Hd. destruct fuel; [apply reads_no_fuel|].
    destruct l as [|[k x] r]; [now left|].
    cbn [swf forallb] in Hw. apply andb_true_iff in Hw as [Hw Hwr]. apply andb_true_iff in Hw as [Hwk Hwx].
    apply Forall_cons_iff in HF as [[Hk Hx] Hr]. cbn [fst snd] in Hk, Hx.
    rewrite repr_dict_cons, <- app_comm_cons, <- !app_assoc. cbn [app].
    rewrite pval_brace, expect_head_none by auto.
    eapply reads_weaken; [|eapply reads_bind; [now apply (Hk Hwk)|]].
    2: { cbv beta iota. rewrite starts_with_app.
         eapply reads_bind; [apply (Hx Hwx), delim_pairs; reflexivity|].
         eapply reads_bind; [now apply (reads_pairs r Hr Hwr)|]. cbv beta iota.
         rewrite expect_refl. apply reads_ret. }
    cbn [vwf forallb length]. rewrite !app_length. cbn [length tKV]. intros [Hv Hl].
    apply andb_true_iff in Hv as [Hv Hvr]. apply andb_true_iff in Hv as [Hvk Hvx].
    repeat split; trivial; lia.
  Qed.

  Theorem reads_all v : reads_repr v.
  Proof.
    induction v using pyval_ind'.
    - apply (reads_keyword tNone); cbn; auto.
    - destruct b; [apply (reads_keyword tTrue)|apply (reads_keyword tFalse)]; cbn; auto.
    - apply reads_int.
    - apply reads_float.
    - apply reads_str.
    - now apply reads_list.
    - now apply reads_tuple.
    - now apply reads_set.
    - now apply reads_dict.
  Qed.

  Theorem parse_reads v : swf v = true -> reads (parse F fparse (rp v)) v (vwf v = true).
  Proof.
    intros Hw. unfold parse.
    destruct (reads_all v Hw (S (length (rp v))) [] eq_refl) as [E | [E N]];
      rewrite app_nil_r in E; rewrite E; [now left|].
    right. split; [reflexivity|]. intros Hv. apply N. split; [exact Hv|lia].
  Qed.

  Theorem parse_repr v : vwf v = true -> parse F fparse (rp v) = Some v.
  Proof. intros Hw. destruct (parse_reads v (vwf_swf v Hw)) as [E | [_ N]]; [exact E|now destruct N]. Qed.

  (* whatever the printed text of a value is read back as, it is that value *)
  Theorem parse_repr_inv v v' : swf v = true -> parse F fparse (rp v) = Some v' -> v' = v.
  Proof. intros Hw. destruct (parse_reads v Hw) as [-> | [-> _]]; [now intros [= <-]|discriminate]. Qed.

  Local Notation ev := (eval_var F frepr fparse printable).

  (* [v] is what eval_var returned for some text: the values stored at first start *)
  Definition accepted (v : pv) : Prop := exists s, ev s = Some v.

  Lemma eval_var_inv s v : ev s = Some v ->
    parse F fparse s = Some v /\ exists v', parse F fparse (rp v) = Some v'.
  Proof.
    unfold eval_var. destruct (parse F fparse s) as [v0|]; [|discriminate].
    destruct (parse F fparse (rp v0)) eqn:E; [|discriminate]. intros [= <-]. eauto.
  Qed.

  Theorem accepted_roundtrip v : accepted v -> swf v = true ->
    parse F fparse (rp v) = Some v /\ ev (rp v) = Some v.
  Proof.
    intros [s Hs] Hw. destruct (eval_var_inv s v Hs) as [_ [v' E]].
    rewrite (parse_repr_inv v v' Hw E) in E. split; [exact E|]. unfold eval_var. now rewrite E, E.
  Qed.

  Local Notation rst := (restart F frepr fparse printable).
  Local Notation sto := (store F frepr printable).

  Definition vars_ok (vs : vars F) : Prop :=
    Forall (fun kv => accepted (snd kv) /\ swf (snd kv) = true) vs.

  (* restart after a first start that accepted and stored [vs], with [tv]
     given on the command line: succeeds, and every name has the command-line
     value if there is one, else the original value *)
  Theorem restart_store vs : vars_ok vs -> forall tv,
    exists tv', rst tv (sto vs) = Some tv' /\
      forall k, assoc Nat.eqb k tv' =
                match assoc Nat.eqb k tv with Some v => Some v | None => assoc Nat.eqb k vs end.
  Proof.
    induction 1 as [|[k0 v0] vs [Ha Hw0] Hvs IH]; intros tv.
    - exists tv. split; [reflexivity|]. intros k. cbn [assoc]. destruct (assoc Nat.eqb k tv); reflexivity.
    - cbn [store map fst snd restart] in *. fold (sto vs).
      destruct (assoc Nat.eqb k0 tv) as [v1|] eqn:E0.
      + destruct (IH tv) as (tv' & R & A). exists tv'. split; [exact R|].
        intros k. rewrite A. cbn [assoc].
        destruct (assoc Nat.eqb k tv) eqn:Ek; [reflexivity|].
        destruct (Nat.eqb_spec k k0) as [->|_]; [congruence|reflexivity].
      + destruct (accepted_roundtrip v0 Ha Hw0) as [_ Hev]. rewrite Hev.
        destruct (IH (tv ++ [(k0, v0)])) as (tv' & R & A). exists tv'. split; [exact R|].
        intros k. rewrite A, assoc_app. cbn [assoc].
        destruct (assoc Nat.eqb k tv); [reflexivity|].
        destruct (Nat.eqb k k0); reflexivity.
  Qed.
End Main.
