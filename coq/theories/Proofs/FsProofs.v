(* Proofs/FsProofs.v — lemmas for C38 over Model/Fs.v.
   Every intermediate state of clean() is the initial tree minus an
   extension-closed set of physical paths ([restrict], [Shrinks]).  Containment:
   that set stays inside the allowed region ([Inv], kept by every loop: [Post]).
   Completeness: a removed path exists in no later state ([gone]).
   Before that: normpath stays lexical ([norm_lex]); after the glob filter every match is
   [blocked] or [covered] (Section Filter); Section FromGsd discharges, from a successful
   get_symlink_dirs, the non-root hypotheses that Section Contain assumes. *)
From Coq Require Import List Bool Arith.
From Cylc Require Import Base.Util Model.Fs.
Import ListNotations.

Definition is_cname (c : comp) : Prop := exists n, c = CName n.

(* shape of normpath's work list (reversed): names on top of a block of '..' *)
Inductive okacc : list comp -> Prop :=
  | ok_pars : forall k, okacc (repeat CPar k)
  | ok_name : forall n acc, okacc acc -> okacc (CName n :: acc).

(* lexical meaning of the raw part: a stack machine; None = climbs above the start *)
Fixpoint lex (cs : list comp) (st : list comp) : option (list comp) :=
  match cs with
  | [] => Some st
  | CEmpty :: r | CCur :: r => lex r st
  | CPar :: r => match st with [] => None | _ :: st' => lex r st' end
  | CName n :: r => lex r (CName n :: st)
  end.

Definition all_names (l : list comp) : Prop := forall c, In c l -> is_cname c.

Lemma all_names_okacc : forall acc, all_names acc -> okacc acc.
Proof.
  induction acc as [|a acc IH]; intros H; [apply (ok_pars 0)|].
  destruct (H a (or_introl eq_refl)) as [n ->]. constructor. apply IH.
  intros c Hc. apply H. right. exact Hc.
Qed.

(* only the entry above it can pop an entry of the work list, and '..' pops
   no '..': one at the bottom stays, and comes out in front *)
Lemma norm_go_bottom_par : forall sl cs acc, exists l, norm_go sl cs (acc ++ [CPar]) = CPar :: l.
Proof.
  intros sl. induction cs as [|c r IH]; intros acc; cbn [norm_go].
  - rewrite rev_unit. eauto.
  - destruct c; try apply IH.
    + destruct acc as [|a acc']; [apply (IH [CPar])|].
      destruct a; first [apply (IH (CPar :: CPar :: acc'))|apply IH].
    + apply (IH (CName n :: acc)).
Qed.

(* on a work list of names normpath is the stack machine, until that climbs
   above the start; from then on a '..' sits at the bottom *)
Lemma norm_lex : forall cs acc, all_names acc ->
  match lex cs acc with
  | Some st => norm_go 0 cs acc = rev st /\ all_names st
  | None => exists l, norm_go 0 cs acc = CPar :: l
  end.
Proof.
  induction cs as [|c r IH]; intros acc H; cbn [norm_go lex]; [auto|].
  destruct c; try (apply IH; exact H).
  - destruct acc as [|a acc']; [apply (norm_go_bottom_par 0 r [])|].
    destruct (H a (or_introl eq_refl)) as [n ->]. apply IH.
    intros c Hc. apply H. right. exact Hc.
  - apply IH. intros c [<-|Hc]; [eexists; reflexivity|apply H; exact Hc].
Qed.

Lemma parse_accept_norm : forall cs n tr, parse_part cs = PAccept n tr ->
  norm_go 0 cs [] = n /\ n <> [] /\ forall l, n <> CPar :: l.
Proof.
  intros cs n tr. unfold parse_part, normpath.
  destruct (Nat.eqb (initial_slashes cs) 0) eqn:E0; cbn [negb]; [|discriminate].
  apply Nat.eqb_eq in E0. rewrite E0.
  destruct (norm_go 0 cs []) as [|c l]; [discriminate|].
  destruct c; try discriminate; intros H; injection H as <- _; repeat split; discriminate.
Qed.

(* an accepted part, read lexically from the run dir, never climbs above it and
   ends exactly at the normalised list, which is non-empty and made of names *)
Theorem parse_accept_lexical : forall cs n tr, parse_part cs = PAccept n tr ->
  lex cs [] = Some (rev n) /\ n <> [] /\ all_names n.
Proof.
  intros cs n tr Hp. destruct (parse_accept_norm cs n tr Hp) as (N & Hne & Hpar).
  pose proof (norm_lex cs [] (fun c (F : In c []) => match F with end)) as L. rewrite N in L.
  destruct (lex cs []) as [st|].
  - destruct L as [-> A]. rewrite rev_involutive. repeat split; [exact Hne|].
    intros c Hc. apply A. apply in_rev. exact Hc.
  - destruct L as [l E]. destruct (Hpar l E).
Qed.

Lemma path_eqb_eq : forall a b, path_eqb a b = true <-> a = b.
Proof. intros. unfold path_eqb. apply list_eqb_spec. intros x y. apply Nat.eqb_eq. Qed.

Lemma mem_path_In : forall p l, mem_path p l = true <-> In p l.
Proof. intros. unfold mem_path. apply mem_In. apply path_eqb_eq. Qed.

Lemma is_prefix_spec : forall p q, is_prefix p q = true <-> exists r, q = p ++ r.
Proof.
  induction p as [|x p IH]; intros q; cbn.
  - split; [eauto|reflexivity].
  - destruct q as [|y q]; [split; [discriminate|intros [r E]; discriminate]|].
    rewrite andb_true_iff, Nat.eqb_eq, IH. split.
    + intros [-> [r ->]]. eauto.
    + intros [r E]. inversion E. eauto.
Qed.

Lemma is_prefix_app : forall p r, is_prefix p (p ++ r) = true.
Proof. intros p r. apply is_prefix_spec. eauto. Qed.

Lemma is_prefix_refl : forall p, is_prefix p p = true.
Proof. intros p. apply is_prefix_spec. exists []. symmetry. apply app_nil_r. Qed.

Lemma is_prefix_trans : forall a b c, is_prefix a b = true -> is_prefix b c = true -> is_prefix a c = true.
Proof.
  intros a b c H1 H2. apply is_prefix_spec in H1. apply is_prefix_spec in H2.
  destruct H1 as [r ->]. destruct H2 as [r' ->]. rewrite <- app_assoc. apply is_prefix_app.
Qed.

Lemma is_prefix_nil_r : forall p, is_prefix p [] = true -> p = [].
Proof. destruct p; cbn; [reflexivity|discriminate]. Qed.

Lemma app_nonnil : forall a b : path, a <> [] -> a ++ b <> [].
Proof. intros a b Ha E. apply app_eq_nil in E. exact (Ha (proj1 E)). Qed.

Lemma split_last_snoc : forall p c, split_last (p ++ [c]) = Some (p, c).
Proof.
  induction p as [|x p IH]; intros c; [reflexivity|].
  cbn [app split_last]. rewrite IH. destruct (p ++ [c]) eqn:E; [destruct p; discriminate|reflexivity].
Qed.

Lemma proper_prefixes_snoc : forall rel c,
  proper_prefixes (rel ++ [c]) = proper_prefixes rel ++ [rel].
Proof.
  induction rel as [|x rel IH]; intros c; [reflexivity|].
  cbn. rewrite IH, map_app. reflexivity.
Qed.

Definition restrict (s : fs) (D : path -> bool) : fs := filter (fun e => negb (D (fst e))) s.

Definition ext_closed (D : path -> bool) : Prop :=
  forall p q, D p = true -> is_prefix p q = true -> D q = true.

Lemma ext_closed_prefix : forall p, ext_closed (is_prefix p).
Proof. intros p a b H1 H2. eapply is_prefix_trans; eauto. Qed.

Lemma ext_closed_or : forall D1 D2, ext_closed D1 -> ext_closed D2 -> ext_closed (fun k => D1 k || D2 k).
Proof.
  intros D1 D2 H1 H2 p q H Hp. apply orb_true_iff in H. apply orb_true_iff.
  destruct H as [H|H]; [left; exact (H1 p q H Hp)|right; exact (H2 p q H Hp)].
Qed.

Lemma restrict_none : forall s, restrict s (fun _ => false) = s.
Proof. intros s. unfold restrict. induction s as [|e l IH]; [reflexivity|]. exact (f_equal (cons e) IH). Qed.

Lemma restrict_restrict : forall s D1 D2,
  restrict (restrict s D1) D2 = restrict s (fun k => D1 k || D2 k).
Proof.
  intros s D1 D2. unfold restrict. induction s as [|e s IH]; [reflexivity|].
  cbn. destruct (D1 (fst e)); cbn; [exact IH|]. destruct (D2 (fst e)); cbn; rewrite IH; reflexivity.
Qed.

Lemma restrict_In : forall s D e, In e (restrict s D) <-> In e s /\ D (fst e) = false.
Proof. intros. unfold restrict. rewrite filter_In, negb_true_iff. reflexivity. Qed.

Lemma assoc_restrict : forall s D p,
  assoc path_eqb p (restrict s D) = if D p then None else assoc path_eqb p s.
Proof.
  intros s D p. unfold restrict. induction s as [|[k v] s IH]; cbn.
  - destruct (D p); reflexivity.
  - destruct (path_eqb p k) eqn:E.
    + apply path_eqb_eq in E. subst k. destruct (D p); cbn; [exact IH|].
      rewrite (proj2 (path_eqb_eq p p) eq_refl). reflexivity.
    + destruct (D k); cbn; [|rewrite E]; exact IH.
Qed.

Lemma lookup_restrict : forall s D p, D [] = false ->
  lookup (restrict s D) p = if D p then None else lookup s p.
Proof.
  intros s D p H0. destruct p as [|x p]; cbn [lookup]; [rewrite H0; reflexivity|].
  apply assoc_restrict.
Qed.

(* the subtrees removed by a primitive, as a set of paths *)
Definition Dof (del : list path) : path -> bool := fun k => existsb (fun P => is_prefix P k) del.

Lemma rm_trees_restrict : forall del s, rm_trees s del = restrict s (Dof del).
Proof.
  induction del as [|P del IH]; intros s; [symmetry; apply restrict_none|].
  change (rm_trees s (P :: del)) with (rm_trees (restrict s (is_prefix P)) del).
  rewrite IH. apply restrict_restrict.
Qed.

Lemma Dof_ext : forall del, ext_closed (Dof del).
Proof.
  intros del p q H Hp. unfold Dof in *. apply existsb_exists in H. destruct H as (P & HP & H).
  apply existsb_exists. exists P. split; [exact HP|]. eapply is_prefix_trans; eauto.
Qed.

Lemma Dof_nil : forall del, (forall P, In P del -> P <> []) -> Dof del [] = false.
Proof.
  intros del H. unfold Dof. destruct (existsb (fun P => is_prefix P []) del) eqn:E; [|reflexivity].
  apply existsb_exists in E. destruct E as (P & HP & Hp). apply is_prefix_nil_r in Hp. destruct (H P HP Hp).
Qed.

(* a later state is the earlier one minus an extension-closed set *)
Definition Shrinks (s s' : fs) : Prop :=
  exists D, s' = restrict s D /\ ext_closed D /\ D [] = false.

Lemma Shrinks_refl : forall s, Shrinks s s.
Proof.
  intros s. exists (fun _ => false). split; [symmetry; apply restrict_none|].
  split; [intros p q H; discriminate|reflexivity].
Qed.

Lemma Shrinks_trans : forall a b c, Shrinks a b -> Shrinks b c -> Shrinks a c.
Proof.
  intros a b c (D1 & -> & E1 & Z1) (D2 & -> & E2 & Z2).
  exists (fun k => D1 k || D2 k). split; [apply restrict_restrict|].
  split; [apply ext_closed_or; assumption|rewrite Z1, Z2; reflexivity].
Qed.

Lemma Shrinks_rm_trees : forall s del, (forall P, In P del -> P <> []) -> Shrinks s (rm_trees s del).
Proof.
  intros s del H. exists (Dof del). split; [apply rm_trees_restrict|]. split; [apply Dof_ext|apply Dof_nil; exact H].
Qed.

Lemma walk_app_inv : forall s f acc a b q,
  walk f s acc (a ++ b) = Some q ->
  exists m f', walk f s acc a = Some m /\ walk f' s m b = Some q.
Proof.
  intros s. induction f as [|f IH]; intros acc a b q H; cbn in H; [discriminate|].
  destruct a as [|c a'].
  - exists acc, (S f). split; [reflexivity|exact H].
  - cbn [app] in H. cbn [walk].
    destruct (lookup s (acc ++ [c])) as [[| |t]|]; try (apply IH; exact H).
    rewrite app_assoc in H. apply IH. exact H.
Qed.

(* stated for [realpath] with the fuel named: the kernel is slow to see that a
   use of walk_app_inv at fuel FUEL proves a statement about realpath *)
Lemma realpath_app_inv : forall s a b q, realpath s (a ++ b) = Some q ->
  exists m f', realpath s a = Some m /\ walk f' s m b = Some q.
Proof. intros s a b q. unfold realpath. apply walk_app_inv. Qed.

Lemma walk_nil : forall f s acc q, walk f s acc [] = Some q -> q = acc.
Proof. intros f s acc q H. destruct f; [discriminate|]. injection H as <-. reflexivity. Qed.

Lemma phys_snoc : forall s p c, phys s (p ++ [c]) =
  match realpath s p with Some m => Some (m ++ [c]) | None => None end.
Proof. intros. unfold phys. rewrite split_last_snoc. reflexivity. Qed.

Lemma lstat_snoc : forall s p c m, realpath s p = Some m -> lstat s (p ++ [c]) = lookup s (m ++ [c]).
Proof. intros s p c m H. unfold lstat. rewrite phys_snoc, H. reflexivity. Qed.

(* the last step of a resolution: through a symlink, or one component down to
   the path's own directory entry *)
Lemma realpath_last : forall s p q, p <> [] -> realpath s p = Some q ->
  is_link s p = true \/ phys s p = Some q.
Proof.
  intros s p q Hp H. destruct (exists_last Hp) as (par & c & ->).
  destruct (realpath_app_inv _ _ _ _ H) as (m & f & H1 & H2).
  unfold is_link. rewrite (lstat_snoc _ _ _ _ H1), phys_snoc, H1.
  destruct f as [|f]; [discriminate|]. cbn in H2.
  destruct (lookup s (m ++ [c])) as [[| |t]|]; [right|right|left; reflexivity|right];
    rewrite (walk_nil _ _ _ _ H2); reflexivity.
Qed.

Lemma phys_nonroot : forall s p P, p <> [] -> phys s p = Some P -> P <> [].
Proof.
  intros s p P Hp H. destruct (exists_last Hp) as (par & c & ->).
  rewrite phys_snoc in H. destruct (realpath s par) as [m|]; [|discriminate]. injection H as <-.
  intros E. destruct m; discriminate.
Qed.

Section Restrict.
  Variable s : fs.
  Variable D : path -> bool.
  Hypothesis Dext : ext_closed D.
  Hypothesis D0 : D [] = false.
  Let s' := restrict s D.

  (* inside the removed region nothing exists: the walk continues lexically *)
  Lemma walk_in_D : forall f acc rest q,
    D acc = true -> walk f s' acc rest = Some q -> D q = true.
  Proof.
    induction f as [|f IH]; intros acc rest q Ha H; cbn in H; [discriminate|].
    destruct rest as [|c r]; [injection H as <-; exact Ha|].
    assert (Hc : D (acc ++ [c]) = true) by (eapply Dext; [exact Ha|apply is_prefix_app]).
    unfold s' in H. rewrite lookup_restrict, Hc in H by exact D0. eapply IH; eauto.
  Qed.

  (* a walk in the restricted filesystem either is the same walk in the
     original one and ends outside the removed region, or ends inside it *)
  Lemma walk_restrict : forall f acc rest q,
    D acc = false -> walk f s' acc rest = Some q ->
    (walk f s acc rest = Some q /\ D q = false) \/ D q = true.
  Proof.
    induction f as [|f IH]; intros acc rest q Ha H; cbn in H; [discriminate|].
    destruct rest as [|c r]; [injection H as <-; left; split; [reflexivity|exact Ha]|].
    unfold s' in H. rewrite lookup_restrict in H by exact D0.
    destruct (D (acc ++ [c])) eqn:Hc.
    - right. eapply walk_in_D; eauto.
    - cbn [walk]. destruct (lookup s (acc ++ [c])) as [[| |t]|]; apply IH; assumption.
  Qed.

  Lemma realpath_restrict : forall p q, realpath s' p = Some q ->
    (realpath s p = Some q /\ D q = false) \/ D q = true.
  Proof. intros p q. unfold realpath. apply walk_restrict. exact D0. Qed.

  Lemma phys_restrict : forall p P, phys s' p = Some P ->
    phys s p = Some P \/ D P = true.
  Proof.
    intros p P. unfold phys. destruct (split_last p) as [[par c]|]; [|intros H; left; exact H].
    destruct (realpath s' par) as [m|] eqn:R; [|discriminate]. intros [= <-].
    destruct (realpath_restrict _ _ R) as [[R' _]|Hd].
    - left. rewrite R'. reflexivity.
    - right. eapply Dext; [exact Hd|apply is_prefix_app].
  Qed.

  Lemma lstat_restrict : forall p k, lstat s' p = Some k ->
    lstat s p = Some k /\ exists P, phys s p = Some P /\ D P = false.
  Proof.
    intros p k. unfold lstat. destruct (phys s' p) as [P|] eqn:E; [|discriminate].
    unfold s'. rewrite lookup_restrict by exact D0. destruct (D P) eqn:DP; [discriminate|].
    intros H. destruct (phys_restrict _ _ E) as [E'|Hd]; [|congruence].
    rewrite E'. eauto.
  Qed.

  Lemma is_link_restrict : forall p, is_link s' p = true -> is_link s p = true.
  Proof.
    intros p. unfold is_link. destruct (lstat s' p) as [k|] eqn:E; [|discriminate].
    destruct (lstat_restrict _ _ E) as [E' _]. rewrite E'. auto.
  Qed.

  Lemma lexists_restrict : forall p, lexists s p = false -> lexists s' p = false.
  Proof.
    intros p H. unfold lexists in *. destruct (lstat s' p) as [k|] eqn:E; [|reflexivity].
    destruct (lstat_restrict _ _ E) as [E' _]. rewrite E' in H. discriminate.
  Qed.

  (* once the directory entry of [a] has been removed, neither [a] nor anything
     addressed through it exists *)
  Lemma below_gone : forall a P rest, a <> [] ->
    phys s a = Some P -> D P = true -> lexists s' (a ++ rest) = false.
  Proof.
    intros a P rest Ha HP HD.
    assert (La : lstat s' a = None).
    { destruct (lstat s' a) as [k|] eqn:E; [|reflexivity].
      destruct (lstat_restrict _ _ E) as (_ & P' & HP' & HD'). congruence. }
    unfold lexists. induction rest as [|c r _] using rev_ind.
    - rewrite app_nil_r, La. reflexivity.
    - rewrite app_assoc. unfold lstat. rewrite phys_snoc.
      destruct (realpath s' (a ++ r)) as [m|] eqn:R; [|reflexivity].
      (* the resolution of a ++ r passes the entry of a, which is in D, and stays there *)
      assert (Dm : D m = true).
      { destruct (realpath_app_inv _ _ _ _ R) as (m1 & f1 & R1 & W1).
        apply (walk_in_D f1 m1 r); [|exact W1].
        destruct (realpath_last _ _ _ Ha R1) as [Lk|HP1].
        - unfold is_link in Lk. rewrite La in Lk. discriminate.
        - destruct (phys_restrict _ _ HP1) as [E'|E']; [congruence|exact E']. }
      unfold s'. rewrite lookup_restrict, (Dext _ _ Dm (is_prefix_app m [c])) by exact D0. reflexivity.
  Qed.
End Restrict.

Section Region.
  Variable s : fs.
  Variable run : path.
  Variable stds : list path.       (* absolute paths of the standard symlink dirs *)

  (* every strict ancestor (the run dir included) that is a symlink is a standard one *)
  Definition anc_ok (rel : path) : Prop :=
    forall a, In a (proper_prefixes rel) -> is_link s (run ++ a) = true -> mem_path (run ++ a) stds = true.

  (* the run dir's real location, or the real target of a standard symlink dir *)
  Definition is_base (b : path) : Prop :=
    realpath s run = Some b \/
    exists sd, mem_path sd stds = true /\ is_link s sd = true /\ realpath s sd = Some b.

  (* if all of rel's prefixes, rel included, are non-links or standard links,
     run/rel really lies at or below a base *)
  Lemma realpath_region : forall rel c m,
    anc_ok (rel ++ [c]) -> realpath s (run ++ rel) = Some m ->
    exists b, is_base b /\ is_prefix b m = true.
  Proof.
    induction rel as [|c0 r IH] using rev_ind; intros c m Hok H.
    - rewrite app_nil_r in H. exists m. split; [left; exact H|apply is_prefix_refl].
    - unfold anc_ok in Hok. rewrite proper_prefixes_snoc in Hok. rewrite app_assoc in H.
      destruct (realpath_last _ _ _ (not_eq_sym (app_cons_not_nil _ _ _)) H) as [Lk|HP].
      + (* run/r/c0 is a symlink: it must be a standard one, whose target is a base *)
        exists m. split; [|apply is_prefix_refl]. right. exists ((run ++ r) ++ [c0]).
        rewrite <- app_assoc in *. split; [|split; [exact Lk|exact H]].
        apply Hok; [apply in_or_app; right; left; reflexivity|exact Lk].
      + rewrite phys_snoc in HP. destruct (realpath s (run ++ r)) as [m0|] eqn:H1; [|discriminate].
        injection HP as <-. destruct (IH c0 m0) as (b & Hb & Hp); [|reflexivity|].
        { intros a Ha. apply Hok. apply in_or_app. left. exact Ha. }
        exists b. split; [exact Hb|]. eapply is_prefix_trans; [exact Hp|apply is_prefix_app].
  Qed.

  Lemma phys_region : forall rel c P,
    anc_ok (rel ++ [c]) -> phys s (run ++ rel ++ [c]) = Some P ->
    exists b, is_base b /\ is_prefix b P = true.
  Proof.
    intros rel c P Hok H. rewrite app_assoc, phys_snoc in H.
    destruct (realpath s (run ++ rel)) as [m|] eqn:R; [|discriminate]. injection H as <-.
    destruct (realpath_region rel c m Hok R) as (b & Hb & Hp). exists b. split; [exact Hb|].
    eapply is_prefix_trans; [exact Hp|apply is_prefix_app].
  Qed.
End Region.

Lemma anc_ok_Shrinks : forall s s' run stds rel, Shrinks s s' ->
  anc_ok s run stds rel -> anc_ok s' run stds rel.
Proof.
  intros s s' run stds rel (D & -> & He & H0) Hok a Ha Hl. apply Hok; [exact Ha|].
  eapply is_link_restrict; eauto.
Qed.

Definition lexical (run p : path) : Prop := exists rel, p = run ++ rel.

Lemma strip_prefix_len_app : forall run rel, strip_prefix_len run (run ++ rel) = rel.
Proof. intros run rel. unfold strip_prefix_len. induction run as [|x run IH]; [reflexivity|exact IH]. Qed.

Lemma pp_spec : forall rel a, In a (proper_prefixes rel) <-> exists r, r <> [] /\ rel = a ++ r.
Proof.
  induction rel as [|c rel IH]; intros a; cbn.
  - split; [intros []|]. intros (r & Hr & E). destruct a; destruct r; try discriminate. congruence.
  - split.
    + intros [<-|H]; [exists (c :: rel); split; [discriminate|reflexivity]|].
      apply in_map_iff in H. destruct H as (a' & <- & H'). apply IH in H'. destruct H' as (r & Hr & ->).
      exists r. auto.
    + intros (r & Hr & E). destruct a as [|x a']; [left; reflexivity|]. right.
      cbn in E. inversion E; subst. apply in_map. apply IH. eauto.
Qed.

(* induction over strict ancestors ([list name]: `induction ... using` wants an inductive type) *)
Lemma pp_ind : forall P : list name -> Prop,
  (forall rel, (forall a, In a (proper_prefixes rel) -> P a) -> P rel) -> forall rel, P rel.
Proof.
  intros P H rel. apply H. induction rel as [|c rel IH] using rev_ind; [intros a []|].
  intros a Ha. rewrite proper_prefixes_snoc in Ha. apply in_app_or in Ha.
  destruct Ha as [Ha|[<-|[]]]; [apply IH; exact Ha|apply H; exact IH].
Qed.

Lemma pp_trans : forall rel a b, In a (proper_prefixes rel) -> In b (proper_prefixes a) -> In b (proper_prefixes rel).
Proof.
  intros rel a b H1 H2. apply pp_spec in H1. apply pp_spec in H2. apply pp_spec.
  destruct H1 as (r1 & N1 & ->). destruct H2 as (r2 & N2 & ->). exists (r2 ++ r1). split.
  - destruct r2; [congruence|discriminate].
  - rewrite app_assoc. reflexivity.
Qed.

Section Filter.
  Variables (s : fs) (run : path) (stds matches : list path).

  (* run/rel has a non-standard symlink among its strict ancestors *)
  Definition blocked (rel : path) : Prop :=
    exists a, In a (proper_prefixes rel) /\ is_link s (run ++ a) = true /\ mem_path (run ++ a) stds = false.

  (* run/rel, or one of its strict ancestors, is in R *)
  Definition covered (R : list path) (rel : path) : Prop :=
    exists a, (In a (proper_prefixes rel) \/ a = rel) /\ In (run ++ a) R.

  Definition nonstd_link (x : path) : Prop := is_link s x = true /\ mem_path x stds = false.

  (* every excluded path is a non-standard symlink or a kept match *)
  Definition excl_ok (excl results : list path) : Prop :=
    forall x, In x excl -> nonstd_link x \/ In x results.

  Lemma app_inv_run : forall a b : path, run ++ a = run ++ b -> a = b.
  Proof. intros a b. apply app_inv_head. Qed.

  (* the inner loop: Keep means that no ancestor met any of the four tests;
     Drop names the ancestor and what the test that fired says of it *)
  Lemma scan_spec : forall results p parent ancs excl, excl_ok excl results ->
    let '(v, excl') := scan_ancestors s run stds matches results p parent ancs excl in
    excl_ok excl' results /\
    match v with
    | Keep => forall a, In a ancs -> is_link s (run ++ a) = true -> mem_path (run ++ a) stds = true
    | Drop => exists a, In a ancs /\
        (nonstd_link (run ++ a) \/ In (run ++ a) results \/ In (run ++ a) matches)
    end.
  Proof.
    intros results p parent. induction ancs as [|a0 rest IH]; intros excl Hex; cbn [scan_ancestors].
    - split; [exact Hex|intros a []].
    - destruct (mem_path (run ++ a0) excl) eqn:E0.
      { apply mem_path_In in E0. split; [exact Hex|]. exists a0. split; [left; reflexivity|].
        destruct (Hex _ E0) as [L|R]; [left; exact L|right; left; exact R]. }
      destruct (is_link s (run ++ a0) && negb (mem_path (run ++ a0) stds)) eqn:E1.
      { apply andb_prop in E1. destruct E1 as [L M]. apply negb_true_iff in M. split.
        - intros x [<-|Hx]; [left; split; assumption|apply Hex; exact Hx].
        - exists a0. split; [left; reflexivity|left; split; assumption]. }
      destruct (is_nil_path stds && mem_path (run ++ a0) results) eqn:E2.
      { apply andb_prop in E2. destruct E2 as [_ R]. apply mem_path_In in R. split.
        - intros x [<-|Hx]; [right; exact R|apply Hex; exact Hx].
        - exists a0. split; [left; reflexivity|right; left; exact R]. }
      destruct (path_eqb (run ++ a0) parent && (mem_path (run ++ a0) matches && negb (mem_path p stds))) eqn:E3.
      { apply andb_prop in E3. destruct E3 as [_ E3]. apply andb_prop in E3. destruct E3 as [M _].
        split; [exact Hex|]. exists a0. split; [left; reflexivity|]. right. right. apply mem_path_In, M. }
      specialize (IH excl Hex). destruct (scan_ancestors _ _ _ _ _ _ _ _ _) as [v excl'].
      destruct IH as [Hex' K]. split; [exact Hex'|]. destruct v.
      + intros a [<-|Ha] Hl; [|apply K; assumption].
        rewrite Hl in E1. apply negb_false_iff in E1. exact E1.
      + destruct K as (a & Ha & K). exists a. split; [right; exact Ha|exact K].
  Qed.

  (* the outer loop: results only grow; what is added has no non-standard symlink
     among its strict ancestors; and every path gone through is classified: blocked,
     covered, or below a strict ancestor that is itself a match *)
  Lemma glob_filter_spec : forall todo results excl, excl_ok excl results ->
    let final := glob_filter s run stds matches todo results excl in
    (forall x, In x results -> In x final) /\
    (forall p, In p final ->
       In p results \/ (In p todo /\ forall rel, p = run ++ rel -> anc_ok s run stds rel)) /\
    (forall rel, In (run ++ rel) todo -> blocked rel \/ covered final rel \/
       exists a, In a (proper_prefixes rel) /\ In (run ++ a) matches).
  Proof.
    induction todo as [|y rest IH]; intros results excl Hex; cbn [glob_filter].
    { split; [auto|]. split; [auto|intros rel []]. }
    destruct (scan_ancestors _ _ _ _ _ _ _ _ _) as [v excl'] eqn:E.
    epose proof (scan_spec _ _ _ _ _ Hex) as K. rewrite E in K. destruct K as [Hex' K]. destruct v.
    - destruct (IH (results ++ [y]) excl') as (M & O & C).
      { intros x Hx. destruct (Hex' x Hx) as [L|R]; [left; exact L|right; apply in_or_app; left; exact R]. }
      assert (My : In y (glob_filter s run stds matches rest (results ++ [y]) excl')).
      { apply M, in_or_app. right. left. reflexivity. }
      split; [intros x Hx; apply M, in_or_app; left; exact Hx|]. split.
      + intros p Hp. destruct (O p Hp) as [Hr|[Hr A]]; [|right; split; [right; exact Hr|exact A]].
        apply in_app_or in Hr. destruct Hr as [Hr|[<-|[]]]; [left; exact Hr|].
        right. split; [left; reflexivity|]. intros rel ->. rewrite strip_prefix_len_app in K. exact K.
      + intros rel [->|Hin]; [|apply C; exact Hin].
        right. left. exists rel. split; [right; reflexivity|exact My].
    - destruct (IH results excl' Hex') as (M & O & C). split; [exact M|]. split.
      + intros p Hp. destruct (O p Hp) as [Hr|[Hr A]]; [left; exact Hr|right; split; [right; exact Hr|exact A]].
      + intros rel [->|Hin]; [|apply C; exact Hin].
        rewrite strip_prefix_len_app in K. destruct K as (a & Ha & [B|[R|Mt]]).
        * left. exists a. split; [exact Ha|exact B].
        * right. left. exists a. split; [left; exact Ha|apply M; exact R].
        * right. right. exists a. split; [exact Ha|exact Mt].
  Qed.
End Filter.

Lemma excl_ok_nil : forall s stds, excl_ok s stds [] [].
Proof. intros s stds x []. Qed.

Lemma glob_in_run_dir_ok : forall s run stds raw p,
  (forall x, In x raw -> lexical run x) ->
  In p (glob_in_run_dir s run stds raw) ->
  In p raw /\ exists rel, p = run ++ rel /\ anc_ok s run stds rel.
Proof.
  intros s run stds raw p Hlex H.
  assert (G : In p (glob_filter s run stds raw raw [] [])).
  { unfold glob_in_run_dir in H. destruct raw as [|m [|m' r]]; try exact H.
    destruct (lexists s m); [exact H|destruct H]. }
  destruct (glob_filter_spec s run stds raw raw [] [] (excl_ok_nil s stds)) as (_ & O & _).
  destruct (O p G) as [[]|[Hp A]]. split; [exact Hp|].
  destruct (Hlex p Hp) as [rel ->]. exists rel. split; [reflexivity|apply A; reflexivity].
Qed.

(* p is gone for good: it does not exist in any later state *)
Definition gone (s : fs) (p : path) : Prop := forall s', Shrinks s s' -> lexists s' p = false.

Lemma gone_mono : forall s s' p, gone s p -> Shrinks s s' -> gone s' p.
Proof. intros s s' p G Sh s'' Sh'. apply G. eapply Shrinks_trans; eauto. Qed.

Lemma gone_now : forall s p, gone s p -> lexists s p = false.
Proof. intros s p G. apply G. apply Shrinks_refl. Qed.

Lemma gone_absent : forall s p, lexists s p = false -> gone s p.
Proof. intros s p H s' (D & -> & He & H0). apply lexists_restrict; assumption. Qed.

(* a path whose directory entry is among the removed roots is gone, with all below it *)
Lemma gone_below_root : forall s del a P rest, (forall Q, In Q del -> Q <> []) -> In P del -> a <> [] ->
  phys s a = Some P -> gone (rm_trees s del) (a ++ rest).
Proof.
  intros s del a P rest Hne Hin Ha HP s' (D2 & -> & E2 & Z2).
  rewrite rm_trees_restrict, restrict_restrict.
  eapply below_gone; [apply ext_closed_or; [apply Dof_ext|exact E2]| |exact Ha|exact HP|].
  - rewrite (Dof_nil _ Hne), Z2. reflexivity.
  - apply orb_true_iff. left. apply existsb_exists. exists P. split; [exact Hin|apply is_prefix_refl].
Qed.

Arguments realpath : simpl never.
Arguments phys : simpl never.
Arguments lstat : simpl never.
Arguments stat : simpl never.
Arguments is_link : simpl never.
Arguments is_dir : simpl never.
Arguments is_file : simpl never.
Arguments exists_ : simpl never.
Arguments lexists : simpl never.
Arguments rm_dir_or_file : simpl never.
Arguments rm_dir_and_target : simpl never.

(* the loops, unfolded one step; rewriting with these keeps the fuelled walk folded *)
Lemma rm_each_cons : forall s p ps, rm_each s (p :: ps) =
  if lexists s p then
    match rm_dir_or_file s p with
    | ROk del => rm_each (rm_trees s del) ps
    | RErr e => (s, Some e)
    end
  else rm_each s ps.
Proof. reflexivity. Qed.

Lemma rm_targets_cons : forall s p ps, rm_targets s (p :: ps) =
  match rm_dir_and_target s p with
  | ROk del => rm_targets (rm_trees s del) ps
  | RErr e => (s, Some e)
  end.
Proof. reflexivity. Qed.

Lemma rm_std_dirs_cons : forall s run sd rest matches, rm_std_dirs s run (sd :: rest) matches =
  if existsb (fun p => is_prefix p sd) matches && is_link s sd then
    match rm_dir_and_target s sd with
    | RErr e => (s, matches, Some (Some e))
    | ROk del =>
        let s' := rm_trees s del in
        if path_eqb sd run then (s', matches, Some None)
        else rm_std_dirs s' run rest (if mem_path sd matches then remove_path sd matches else matches)
    end
  else rm_std_dirs s run rest matches.
Proof. reflexivity. Qed.

(* the primitives remove the directory entry of their argument, and
   remove_dir_and_target the target of a symlink as well *)
Lemma rm_dir_or_file_ok : forall s p del, rm_dir_or_file s p = ROk del -> del = opt_list (phys s p).
Proof.
  intros s p del. unfold rm_dir_or_file.
  destruct (is_link s p); [congruence|]. destruct (is_file s p); [congruence|].
  destruct (is_dir s p); congruence.
Qed.

Lemma rm_dir_and_target_cases : forall s p del, rm_dir_and_target s p = ROk del ->
  del = opt_list (phys s p) \/
  (is_link s p = true /\ del = opt_list (realpath s p) ++ opt_list (phys s p)).
Proof.
  intros s p del. unfold rm_dir_and_target.
  destruct (exists_ s p && negb (is_dir s p)); [discriminate|]. destruct (is_link s p).
  - destruct (exists_ s p); intros [= <-]; [right; split; reflexivity|left; reflexivity].
  - destruct (negb (exists_ s p)); [discriminate|]. intros [= <-]. left. reflexivity.
Qed.

(* an existing path is always removable: remove_dir_or_file cannot fail on it *)
Lemma rm_dir_or_file_total : forall s p, lexists s p = true ->
  exists P, phys s p = Some P /\ rm_dir_or_file s p = ROk [P].
Proof.
  intros s p H. unfold lexists in H. destruct (lstat s p) as [k|] eqn:L; [|discriminate].
  pose proof L as L'. unfold lstat in L'. destruct (phys s p) as [P|] eqn:HP; [|discriminate].
  exists P. split; [reflexivity|].
  unfold rm_dir_or_file, is_link, is_file, is_dir, stat. rewrite L, HP. destruct k; reflexivity.
Qed.

Lemma link_root : forall s p del, is_link s p = true -> rm_dir_and_target s p = ROk del ->
  exists P, phys s p = Some P /\ In P del.
Proof.
  intros s p del L H. unfold is_link, lstat in L. destruct (phys s p) as [P|] eqn:HP; [|discriminate].
  exists P. split; [reflexivity|].
  destruct (rm_dir_and_target_cases _ _ _ H) as [->|[_ ->]]; rewrite HP;
    [|apply in_or_app; right]; left; reflexivity.
Qed.

Lemma rm_each_complete : forall ps s, (forall p, In p ps -> p <> []) ->
  exists s', rm_each s ps = (s', None) /\ Shrinks s s' /\ forall p, In p ps -> gone s' p.
Proof.
  induction ps as [|p ps IH]; intros s Hne.
  { exists s. split; [reflexivity|]. split; [apply Shrinks_refl|intros p []]. }
  (* whether p still exists or not, the loop goes on in a state where p is gone *)
  assert (H1 : exists s1, rm_each s (p :: ps) = rm_each s1 ps /\ Shrinks s s1 /\ gone s1 p).
  { rewrite rm_each_cons. destruct (lexists s p) eqn:Lx.
    - destruct (rm_dir_or_file_total s p Lx) as (P & HP & ->).
      assert (HPne : forall Q, In Q [P] -> Q <> []).
      { intros Q [<-|[]]. eapply phys_nonroot; [apply Hne; left; reflexivity|exact HP]. }
      exists (rm_trees s [P]). split; [reflexivity|]. split; [apply Shrinks_rm_trees; exact HPne|].
      rewrite <- (app_nil_r p).
      eapply gone_below_root; [exact HPne|left; reflexivity|apply Hne; left; reflexivity|exact HP].
    - exists s. split; [reflexivity|]. split; [apply Shrinks_refl|apply gone_absent; exact Lx]. }
  destruct H1 as (s1 & -> & Sh1 & G1).
  destruct (IH s1 (fun q Hq => Hne q (or_intror Hq))) as (s' & E & Sh & Hall).
  exists s'. split; [exact E|]. split; [exact (Shrinks_trans _ _ _ Sh1 Sh)|].
  intros q [<-|Hq]; [exact (gone_mono _ _ _ G1 Sh)|apply Hall; exact Hq].
Qed.

Lemma rm_each_never_fails : forall ps s, (forall p, In p ps -> p <> []) -> snd (rm_each s ps) = None.
Proof. intros ps s H. destruct (rm_each_complete ps s H) as (s' & -> & _). reflexivity. Qed.

(* `if sd in matches: matches.remove(sd)`: sd goes, and nothing else *)
Lemma drop_match_spec : forall x l p,
  let l' := if mem_path x l then remove_path x l else l in
  (In p l' -> In p l) /\ (In p l -> p = x \/ In p l').
Proof.
  intros x l p. destruct (mem_path x l); cbv zeta; [|split; auto].
  unfold remove_path. induction l as [|y l [IH1 IH2]]; [split; [auto|intros []]|].
  destruct (path_eqb y x) eqn:E.
  - apply path_eqb_eq in E. subst y. split; [intros H; right; exact H|].
    intros [<-|H]; [left; reflexivity|right; exact H].
  - split.
    + intros [H|H]; [left; exact H|right; exact (IH1 H)].
    + intros [H|H]; [right; left; exact H|].
      destruct (IH2 H) as [Hx|Hr]; [left; exact Hx|right; right; exact Hr].
Qed.

Section Contain.
  Variable s0 : fs.          (* the filesystem when clean() starts *)
  Variable run : path.       (* logical path of the run dir *)
  Variable stds : list path. (* absolute paths of the standard symlink dirs found by get_symlink_dirs *)
  Hypothesis run_nonroot : run <> [].
  (* no standard symlink dir resolves to the filesystem root (get_symlink_dirs
     checks that the target ends with cylc-run/<id>/<dir>) *)
  Hypothesis std_targets_nonroot : forall sd, mem_path sd stds = true -> realpath s0 sd <> Some [].
  Hypothesis run_target_nonroot : realpath s0 run <> Some [].

  (* the region the property allows clean to delete in: at or below the run
     dir entry, its real location, or the real target of a standard symlink dir *)
  Definition inside0 (q : path) : Prop :=
    exists b, (realpath s0 run = Some b \/ phys s0 run = Some b \/
               exists sd, mem_path sd stds = true /\ is_link s0 sd = true /\ realpath s0 sd = Some b)
              /\ is_prefix b q = true.

  (* intermediate states: s0 minus an extension-closed set of paths, all inside *)
  Definition Inv (s : fs) : Prop :=
    exists D, s = restrict s0 D /\ ext_closed D /\ D [] = false /\
              forall e, In e s0 -> D (fst e) = true -> inside0 (fst e).

  Lemma Inv_init : Inv s0.
  Proof.
    exists (fun _ => false). split; [symmetry; apply restrict_none|].
    split; [intros p q H; discriminate|]. split; [reflexivity|discriminate].
  Qed.

  Lemma Inv_subset : forall s e, Inv s -> In e s -> In e s0.
  Proof. intros s e (D & -> & _) H. apply restrict_In in H. apply H. Qed.

  Lemma Inv_Shrinks : forall s, Inv s -> Shrinks s0 s.
  Proof. intros s (D & E & He & H0 & _). exists D. auto. Qed.

  (* everything that disappeared lies inside the allowed region *)
  Lemma Inv_contained : forall s, Inv s -> forall e, In e s0 -> ~ In e s -> inside0 (fst e).
  Proof.
    intros s (D & -> & He & H0 & Hin) e He0 Hn. apply Hin; [exact He0|].
    destruct (D (fst e)) eqn:Dd; [reflexivity|]. exfalso. apply Hn. apply restrict_In. auto.
  Qed.

  (* a base of a later state that has not been removed was a base initially *)
  Lemma base_initial : forall D b, ext_closed D -> D [] = false -> D b = false ->
    is_base (restrict s0 D) run stds b -> is_base s0 run stds b.
  Proof.
    intros D b He H0 Db [Hr|(sd & Hm & Hl & Hr)];
      (destruct (realpath_restrict s0 D He H0 _ _ Hr) as [[Hr' _]|Hd']; [|congruence]).
    - left. exact Hr'.
    - right. exists sd. split; [exact Hm|]. split; [eapply is_link_restrict; eauto|exact Hr'].
  Qed.

  Lemma base_nonroot : forall s b, Inv s -> is_base s run stds b -> b <> [].
  Proof.
    intros s b (D & -> & He & H0 & _) Hb ->.
    destruct (base_initial D [] He H0 H0 Hb) as [Hr|(sd & Hm & _ & Hr)].
    - exact (run_target_nonroot Hr).
    - exact (std_targets_nonroot sd Hm Hr).
  Qed.

  (* entries still present below a root that hangs off a base of the CURRENT
     state are inside the region defined on the INITIAL state *)
  Lemma base_inside : forall s b P, Inv s -> is_base s run stds b -> is_prefix b P = true ->
    forall e, In e s -> is_prefix P (fst e) = true -> inside0 (fst e).
  Proof.
    intros s b P (D & -> & He & H0 & Hin) Hb Hp e Hes HPe.
    apply restrict_In in Hes. destruct Hes as [Hes Hd].
    pose proof (is_prefix_trans _ _ _ Hp HPe) as Hbe.
    assert (Db : D b = false).
    { destruct (D b) eqn:Db; [|reflexivity]. rewrite (He _ _ Db Hbe) in Hd. discriminate. }
    exists b. split; [|exact Hbe].
    destruct (base_initial D b He H0 Db Hb) as [Hr|Hsd]; [left; exact Hr|right; right; exact Hsd].
  Qed.

  Definition roots_ok (s : fs) (del : list path) : Prop :=
    forall P, In P del -> P <> [] /\ forall e, In e s -> is_prefix P (fst e) = true -> inside0 (fst e).

  Lemma roots_ok_phys : forall s rel, Inv s -> anc_ok s run stds rel ->
    roots_ok s (opt_list (phys s (run ++ rel))).
  Proof.
    intros s rel HI Hok P HP. destruct (phys s (run ++ rel)) as [Q|] eqn:E; [|destruct HP].
    destruct HP as [<-|[]]. split.
    { eapply phys_nonroot; [|exact E]. apply app_nonnil, run_nonroot. }
    destruct rel as [|c r] using rev_ind.
    - (* the run dir entry itself *)
      rewrite app_nil_r in E. destruct HI as (D & -> & He & H0 & Hin). intros e Hes HPe.
      apply restrict_In in Hes. destruct Hes as [Hes Hd].
      destruct (phys_restrict s0 D He H0 _ _ E) as [E'|Hd'].
      + exists Q. auto.
      + rewrite (He _ _ Hd' HPe) in Hd. discriminate.
    - destruct (phys_region s run stds r c Q Hok E) as (b & Hb & Hp). eapply base_inside; eauto.
  Qed.

  (* what a loop preserves *)
  Definition Post (s s' : fs) : Prop := Inv s' /\ Shrinks s s'.

  Lemma Post_refl : forall s, Inv s -> Post s s.
  Proof. intros s H. split; [exact H|apply Shrinks_refl]. Qed.

  Lemma Post_trans : forall a b c, Post a b -> Post b c -> Post a c.
  Proof. intros a b c (_ & S1) (H2 & S2). split; [exact H2|eapply Shrinks_trans; eauto]. Qed.

  Lemma Post_roots : forall s del, Inv s -> roots_ok s del -> Post s (rm_trees s del).
  Proof.
    intros s del (D & -> & He & H0 & Hin) Hr.
    assert (Hne : forall P, In P del -> P <> []) by (intros P HP; apply (Hr P HP)).
    split; [|apply Shrinks_rm_trees; exact Hne].
    exists (fun k => D k || Dof del k). rewrite rm_trees_restrict, restrict_restrict.
    split; [reflexivity|]. split; [apply ext_closed_or; [exact He|apply Dof_ext]|].
    split; [rewrite H0; apply Dof_nil; exact Hne|].
    intros e He0 Hd. destruct (D (fst e)) eqn:Dd; [apply Hin; assumption|].
    apply existsb_exists in Hd. destruct Hd as (P & HP & Hpe).
    apply (Hr P HP); [|exact Hpe]. apply restrict_In. auto.
  Qed.

  Lemma rm_dir_or_file_roots : forall s rel del, Inv s -> anc_ok s run stds rel ->
    rm_dir_or_file s (run ++ rel) = ROk del -> roots_ok s del.
  Proof.
    intros s rel del HI Hok H. apply rm_dir_or_file_ok in H. subst del. apply roots_ok_phys; assumption.
  Qed.

  Lemma rm_dir_or_file_Inv : forall s rel del, Inv s -> anc_ok s run stds rel ->
    rm_dir_or_file s (run ++ rel) = ROk del -> Inv (rm_trees s del).
  Proof.
    intros s rel del HI Hok H. apply Post_roots; [exact HI|]. eapply rm_dir_or_file_roots; eauto.
  Qed.

  (* remove_dir_and_target on the run dir or on a standard symlink dir *)
  Lemma rm_dir_and_target_roots : forall s d del, Inv s -> anc_ok s run stds d ->
    (d = [] \/ mem_path (run ++ d) stds = true) ->
    rm_dir_and_target s (run ++ d) = ROk del -> roots_ok s del.
  Proof.
    intros s d del HI Hok Hd H. pose proof (roots_ok_phys s d HI Hok) as G.
    destruct (rm_dir_and_target_cases _ _ _ H) as [->|[L ->]]; [exact G|].
    intros P HP. apply in_app_or in HP. destruct HP as [HP|HP]; [|exact (G P HP)].
    destruct (realpath s (run ++ d)) as [T|] eqn:HT; [|destruct HP]. destruct HP as [<-|[]].
    assert (B : is_base s run stds T).
    { destruct Hd as [E|Hm]; [left; rewrite E, app_nil_r in HT; exact HT|].
      right. exists (run ++ d). auto. }
    split; [exact (base_nonroot s T HI B)|]. exact (base_inside s T T HI B (is_prefix_refl T)).
  Qed.

  Definition paths_ok (s : fs) (ps : list path) : Prop :=
    forall p, In p ps -> exists rel, p = run ++ rel /\ anc_ok s run stds rel.

  Lemma paths_ok_Shrinks : forall s s' ps, Shrinks s s' -> paths_ok s ps -> paths_ok s' ps.
  Proof.
    intros s s' ps Sh Hp p Hin. destruct (Hp p Hin) as (rel & -> & Hok). exists rel.
    split; [reflexivity|]. eapply anc_ok_Shrinks; eauto.
  Qed.

  Lemma paths_ok_rm : forall s del ps, roots_ok s del -> paths_ok s ps -> paths_ok (rm_trees s del) ps.
  Proof.
    intros s del ps Hr. apply paths_ok_Shrinks, Shrinks_rm_trees. intros P HP. apply (Hr P HP).
  Qed.

  Lemma rm_each_Post : forall ps s, Inv s -> paths_ok s ps -> Post s (fst (rm_each s ps)).
  Proof.
    induction ps as [|p ps IH]; intros s HI Hp.
    - apply Post_refl. exact HI.
    - destruct (Hp p (or_introl eq_refl)) as (rel & Ep & Hok). rewrite rm_each_cons.
      destruct (lexists s p).
      2:{ apply IH; [exact HI|]. intros q Hq. apply Hp. right. exact Hq. }
      destruct (rm_dir_or_file s p) as [del|er] eqn:E.
      + rewrite Ep in E. pose proof (rm_dir_or_file_roots _ _ _ HI Hok E) as Hr.
        pose proof (Post_roots _ _ HI Hr) as P1.
        eapply Post_trans; [exact P1|]. apply IH; [apply P1|].
        eapply paths_ok_Shrinks; [apply P1|]. intros q Hq. apply Hp. right. exact Hq.
      + apply Post_refl. exact HI.
  Qed.

  Lemma rm_targets_Post : forall ds s, Inv s ->
    (forall d s1 del, In d ds -> Inv s1 -> rm_dir_and_target s1 (run ++ d) = ROk del -> roots_ok s1 del) ->
    Post s (fst (rm_targets s (map (fun d => run ++ d) ds))).
  Proof.
    induction ds as [|d ds IH]; intros s HI Hd.
    - apply Post_refl. exact HI.
    - cbn [map]. rewrite rm_targets_cons.
      destruct (rm_dir_and_target s (run ++ d)) as [del|er] eqn:E.
      + pose proof (Post_roots _ _ HI (Hd d s del (or_introl eq_refl) HI E)) as P1.
        eapply Post_trans; [exact P1|]. apply IH; [apply P1|].
        intros d' s1 del' Hd'. apply Hd. right. exact Hd'.
      + apply Post_refl. exact HI.
  Qed.

  Variable keys : list path.     (* the standard symlink dirs relative to the run dir *)
  Hypothesis stds_def : stds = map (fun d => run ++ d) keys.
  (* get_symlink_dirs returns every std dir that is a symlink, so the symlinks among the
     strict ancestors of a std dir (which are std dirs or the run dir) are standard ones *)
  Hypothesis keys_anc : forall d, In d keys -> anc_ok s0 run stds d.

  Lemma keys_roots : forall s d del, Inv s -> In d keys ->
    rm_dir_and_target s (run ++ d) = ROk del -> roots_ok s del.
  Proof.
    intros s d del HI Hd. apply rm_dir_and_target_roots; [exact HI| |].
    - eapply anc_ok_Shrinks; [apply Inv_Shrinks; exact HI|apply keys_anc; exact Hd].
    - right. apply mem_path_In. rewrite stds_def. apply in_map. exact Hd.
  Qed.

  (* removing a standard symlink dir keeps the invariant; the link is gone, with all
     addressed through it *)
  Lemma std_link_removed : forall s d del, Inv s -> In d keys ->
    is_link s (run ++ d) = true -> rm_dir_and_target s (run ++ d) = ROk del ->
    Post s (rm_trees s del) /\ forall rest, gone (rm_trees s del) ((run ++ d) ++ rest).
  Proof.
    intros s d del HI Hd L E. pose proof (keys_roots s d del HI Hd E) as Hr.
    split; [apply Post_roots; assumption|]. intros rest.
    destruct (link_root _ _ _ L E) as (P & HP & HinP).
    apply (gone_below_root s del (run ++ d) P rest); [|exact HinP|apply app_nonnil, run_nonroot|exact HP].
    intros Q HQ. apply (Hr Q HQ).
  Qed.

  (* first loop of _clean_using_glob: it only drops matches; unless it raised,
     those it dropped are gone, and if it stopped because the run dir itself went,
     every path below that is gone *)
  Lemma rm_std_dirs_spec : forall ds s ms, Inv s ->
    (forall d, In d ds -> In d keys) ->
    let '(s', ms', stop) := rm_std_dirs s run (map (fun d => run ++ d) ds) ms in
    Post s s' /\ (forall p, In p ms' -> In p ms) /\
    match stop with
    | None => forall p, In p ms -> In p ms' \/ gone s' p
    | Some None => forall rel, gone s' (run ++ rel)
    | Some (Some _) => True
    end.
  Proof.
    induction ds as [|d ds IH]; intros s ms HI Hk.
    - split; [apply Post_refl; exact HI|]. split; auto.
    - cbn [map]. rewrite rm_std_dirs_cons.
      destruct (existsb _ ms && is_link s (run ++ d)) eqn:C.
      2:{ apply IH; [exact HI|]. intros d' Hd'. apply Hk. right. exact Hd'. }
      apply andb_prop in C. destruct C as [_ L].
      destruct (rm_dir_and_target s (run ++ d)) as [del|er] eqn:E.
      2:{ split; [apply Post_refl; exact HI|]. split; auto. }
      destruct (std_link_removed s d del HI (Hk d (or_introl eq_refl)) L E) as [P1 G].
      cbv zeta. destruct (path_eqb (run ++ d) run) eqn:Eq.
      + split; [exact P1|]. split; [auto|].
        intros rel. apply path_eqb_eq in Eq. rewrite <- Eq. apply G.
      + pose proof (drop_match_spec (run ++ d) ms) as R. cbv zeta in R.
        specialize (IH (rm_trees s del) (if mem_path (run ++ d) ms then remove_path (run ++ d) ms else ms)
                       (proj1 P1) (fun d' Hd' => Hk d' (or_intror Hd'))).
        destruct (rm_std_dirs _ _ _ _) as [[s' ms'] stop]. destruct IH as (P2 & Hsub & Hc).
        split; [exact (Post_trans _ _ _ P1 P2)|]. split; [intros p Hp; apply R, Hsub, Hp|].
        destruct stop as [[e|]|]; [exact I|exact Hc|].
        intros p Hp. destruct (proj2 (R p) Hp) as [->|Hp2]; [right|apply Hc; exact Hp2].
        specialize (G []). rewrite app_nil_r in G. exact (gone_mono _ _ _ G (proj2 P2)).
  Qed.

  (* one pattern: the state stays within the invariant, and every path glob_in_run_dir
     hands to the removal loops is gone afterwards, unless remove_dir_and_target itself
     raised on a standard symlink dir *)
  Lemma clean_using_glob_spec : forall s raw, Inv s ->
    (forall x, In x raw -> lexical run x) ->
    let '(s', e) := clean_using_glob s run keys raw in
    Post s s' /\ (e = None -> forall p, In p (glob_in_run_dir s run stds raw) -> gone s' p).
  Proof.
    intros s raw HI Hlex. unfold clean_using_glob. rewrite <- stds_def.
    pose proof (glob_in_run_dir_ok s run stds raw) as G.
    destruct (glob_in_run_dir s run stds raw) as [|m ms] eqn:Em.
    { split; [apply Post_refl; exact HI|intros _ p []]. }
    rewrite stds_def.
    pose proof (rm_std_dirs_spec keys s (m :: ms) HI (fun d Hd => Hd)) as R.
    destruct (rm_std_dirs s run (map (fun d => run ++ d) keys) (m :: ms)) as [[s1 ms1] stop].
    destruct R as (P1 & Hsub & Hc).
    assert (Hok : paths_ok s1 ms1).
    { eapply paths_ok_Shrinks; [apply P1|]. intros p Hp. apply (G p Hlex (Hsub p Hp)). }
    destruct stop as [stop|].
    - split; [exact P1|]. intros -> p Hp.
      destruct (G p Hlex Hp) as [_ (rel & -> & _)]. apply Hc.
    - assert (Hne : forall q, In q ms1 -> q <> []).
      { intros q Hq. destruct (Hok q Hq) as (rel & -> & _). apply app_nonnil, run_nonroot. }
      destruct (rm_each_complete ms1 s1 Hne) as (s2 & E2 & Sh & Hall).
      pose proof (rm_each_Post ms1 s1 (proj1 P1) Hok) as P2. rewrite E2 in *.
      split; [exact (Post_trans _ _ _ P1 P2)|]. intros _ p Hp.
      destruct (Hc p Hp) as [Hin|Hg]; [apply Hall; exact Hin|exact (gone_mono _ _ _ Hg Sh)].
  Qed.

  Lemma clean_patterns_Post : forall globs s, Inv s ->
    (forall raw, In raw globs -> forall x, In x raw -> lexical run x) ->
    Post s (fst (clean_patterns s run keys globs)).
  Proof.
    induction globs as [|g rest IH]; intros s HI Hlex.
    - apply Post_refl. exact HI.
    - cbn [clean_patterns].
      pose proof (clean_using_glob_spec s g HI (Hlex g (or_introl eq_refl))) as R.
      destruct (clean_using_glob s run keys g) as [s1 e1]. destruct R as [P1 _].
      destruct e1 as [e1|]; [exact P1|].
      eapply Post_trans; [exact P1|]. apply IH; [apply P1|].
      intros raw Hr. apply Hlex. right. exact Hr.
  Qed.

  (* the wholesale branch of clean() *)
  Definition wholesale (s : fs) : st_res :=
    match rm_targets s (map (fun d => run ++ d) keys) with
    | (s', Some e) => (s', Some e)
    | (s', None) => if mem_path [] keys then (s', None) else rm_targets s' [run]
    end.

  Lemma wholesale_Post : forall s, Inv s -> Post s (fst (wholesale s)).
  Proof.
    intros s HI. unfold wholesale.
    pose proof (rm_targets_Post keys s HI (fun d s2 del Hd HI2 => keys_roots s2 d del HI2 Hd)) as P1.
    destruct (rm_targets s (map (fun d => run ++ d) keys)) as [s1 e1].
    destruct e1 as [e1|]; [exact P1|].
    destruct (mem_path [] keys); [exact P1|].
    eapply Post_trans; [exact P1|].
    pose proof (rm_targets_Post [[]] s1 (proj1 P1)) as P2. cbn [map] in P2. rewrite app_nil_r in P2.
    apply P2. intros d s2 del [<-|[]] HI2.
    apply rm_dir_and_target_roots; [exact HI2|intros a []|left; reflexivity].
  Qed.
End Contain.

Definition clean_core (s : fs) (run : path) (keys : list path) (globs : option (list (list path))) : st_res :=
  match globs with
  | Some gl => clean_patterns s run keys gl
  | None => wholesale run keys s
  end.

Definition globs_lexical (run : path) (globs : option (list (list path))) : Prop :=
  match globs with
  | Some gl => forall raw, In raw gl -> forall x, In x raw -> lexical run x
  | None => True
  end.

(* get_symlink_dirs returns the std dirs that are symlinks, each with its real
   target, which ends with cylc-run/<id>/<dir> *)
Lemma gsd_from_spec : forall s run id ds l, get_symlink_dirs_from s run id ds = ROk l ->
  map fst l = filter (fun d => is_link s (run ++ d)) ds /\
  forall d t, In (d, t) l ->
    realpath s (run ++ d) = Some t /\ is_suffix (n_cylc_run :: id ++ d) t = true.
Proof.
  intros s run id. induction ds as [|d ds IH]; intros l; cbn [get_symlink_dirs_from filter].
  - intros [= <-]. split; [reflexivity|intros d t []].
  - destruct (is_link s (run ++ d)) eqn:L; [|exact (IH l)].
    destruct (realpath s (run ++ d)) as [t|] eqn:R; [|discriminate].
    destruct (match lookup s t with Some KD | None => false | _ => true end); [discriminate|].
    destruct (is_suffix (n_cylc_run :: id ++ d) t) eqn:Sf; cbn [negb]; [|discriminate].
    destruct (get_symlink_dirs_from s run id ds) as [l'|]; [|discriminate].
    intros [= <-]. destruct (IH l' eq_refl) as [A B]. split; [cbn [map fst]; rewrite A; reflexivity|].
    intros d' t' [[= <- <-]|Hp]; [split; assumption|exact (B d' t' Hp)].
Qed.

(* proper prefixes of standard dirs are standard dirs (share/cycle -> share, ...) *)
Lemma std_dirs_prefix_closed :
  forallb (fun d => forallb (fun a => mem_path a std_dirs) (proper_prefixes d)) std_dirs = true.
Proof. vm_compute. reflexivity. Qed.

Lemma is_suffix_nonroot : forall x suf, is_suffix (x :: suf) [] = false.
Proof.
  intros x suf. unfold is_suffix. cbn [rev]. destruct (rev suf ++ [x]) eqn:E; [|reflexivity].
  destruct (rev suf); discriminate.
Qed.

Section FromGsd.
  Variables (s0 : fs) (run id : path) (pairs : list (path * path)).
  Hypothesis gsd : get_symlink_dirs s0 run id = ROk pairs.
  Let keys := map fst pairs.
  Let stds := map (fun d => run ++ d) keys.

  Lemma app_inv_head_path : forall (a b c : path), a ++ b = a ++ c -> b = c.
  Proof. intros a b c. apply app_inv_head. Qed.

  Lemma gsd_keys : forall d, In d keys <-> In d std_dirs /\ is_link s0 (run ++ d) = true.
  Proof. intros d. unfold keys. rewrite (proj1 (gsd_from_spec _ _ _ _ _ gsd)).
    apply (filter_In (fun d => is_link s0 (run ++ d))).
  Qed.

  Lemma gsd_keys_anc : forall d, In d keys -> anc_ok s0 run stds d.
  Proof.
    intros d Hd a Ha Hl. apply gsd_keys in Hd. destruct Hd as [Hstd _].
    pose proof std_dirs_prefix_closed as C. rewrite forallb_forall in C.
    specialize (C _ Hstd). rewrite forallb_forall in C. specialize (C _ Ha). apply mem_path_In in C.
    apply mem_path_In, in_map, gsd_keys. split; assumption.
  Qed.

  Lemma gsd_std_nonroot : forall sd, mem_path sd stds = true -> realpath s0 sd <> Some [].
  Proof.
    intros sd Hm E. apply mem_path_In in Hm.
    unfold stds, keys in Hm. rewrite map_map in Hm. apply in_map_iff in Hm.
    destruct Hm as ([d t] & <- & Hp). cbn [fst] in *.
    destruct (proj2 (gsd_from_spec _ _ _ _ _ gsd) _ _ Hp) as [R Sf].
    rewrite R in E. injection E as ->. rewrite is_suffix_nonroot in Sf. discriminate.
  Qed.

  Hypothesis run_nonroot : run <> [].

  Lemma gsd_run_nonroot : realpath s0 run <> Some [].
  Proof.
    intros E. destruct (realpath_last _ _ _ run_nonroot E) as [Lk|HP].
    - (* a run dir that is a symlink is the standard symlink dir [] *)
      apply (gsd_std_nonroot run); [|exact E].
      apply mem_path_In, in_map_iff. exists []. split; [apply app_nil_r|].
      apply gsd_keys. split; [apply mem_path_In; reflexivity|rewrite app_nil_r; exact Lk].
    - exact (phys_nonroot _ _ _ run_nonroot HP eq_refl).
  Qed.

  (* the core of clean() leaves the initial tree minus a set of paths inside the region *)
  Theorem clean_core_Post : forall globs s1 e,
    globs_lexical run globs -> clean_core s0 run keys globs = (s1, e) -> Post s0 run stds s0 s1.
  Proof.
    intros globs s1 e Hlex Hc. change s1 with (fst (s1, e)). rewrite <- Hc.
    destruct globs as [gl|]; cbn [clean_core].
    - exact (clean_patterns_Post s0 run stds run_nonroot gsd_std_nonroot gsd_run_nonroot keys eq_refl
               gsd_keys_anc gl s0 (Inv_init s0 run stds) Hlex).
    - exact (wholesale_Post s0 run stds run_nonroot gsd_std_nonroot gsd_run_nonroot keys eq_refl
               gsd_keys_anc s0 (Inv_init s0 run stds)).
  Qed.

  Theorem clean_using_glob_kept_gone : forall raw s',
    (forall x, In x raw -> lexical run x) ->
    clean_using_glob s0 run keys raw = (s', None) ->
    forall p, In p (glob_in_run_dir s0 run stds raw) -> gone s' p.
  Proof.
    intros raw s' Hlex Hc.
    pose proof (clean_using_glob_spec s0 run stds run_nonroot gsd_std_nonroot gsd_run_nonroot keys eq_refl
                  gsd_keys_anc s0 raw (Inv_init s0 run stds) Hlex) as R.
    rewrite Hc in R. exact (proj2 R eq_refl).
  Qed.
End FromGsd.

(* regression: the input of the (now fixed) defect — matched dir `cat`, deeper match
   `cat/b/cow`, further match `zed/cup`, a standard symlink dir `log` present.
   names: 0 cylc-run, 1 log, 8 wf, 9 cat, 10 b, 11 cow, 12 zed, 13 cup, 14 scr *)
Definition witness_fs : fs :=
  [ ([0], KD); ([0;8], KD); ([0;8;1], KL [14;0;8;1]); ([0;8;9], KD); ([0;8;9;10], KD);
    ([0;8;9;10;11], KF); ([0;8;12], KD); ([0;8;12;13], KF);
    ([14], KD); ([14;0], KD); ([14;0;8], KD); ([14;0;8;1], KD) ].
Definition witness_globs : list (list path) := [[ [0;8;9]; [0;8;9;10;11]; [0;8;12;13] ]].
