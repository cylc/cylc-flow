(* Proofs/FlowCmdProofs.v — lemmas about Model/FlowCmd.v: membership in the flows a `set`
   command resolves ([resolve], [active_flows]) and gives its target ([target_flows]). *)
From Coq Require Import List Bool ZArith Lia.
From Cylc Require Import Base.Util Model.Flow Model.FlowCmd Proofs.FlowProofs.
Import ListNotations.
Open Scope Z_scope.

Lemma merged_In mine other x : In x (merged mine other) <-> In x mine \/ In x other.
Proof. apply flow_union_In. Qed.

(* the target: old ∪ F for a pooled task (unless --flow=none is ignored), F for an inactive one *)
Lemma target_flows_pooled old c f t' x :
  target_flows true old c f = Some t' -> (In x t' <-> In x old \/ In x f).
Proof.
  unfold target_flows. destruct (is_cnone c && negb (is_nil old)); [discriminate|].
  intros [= <-]. apply merged_In.
Qed.

Lemma target_flows_inactive old c f t' x :
  target_flows false old c f = Some t' -> (In x t' <-> In x f).
Proof. unfold target_flows. intros [= <-]. apply In_zsorted. Qed.

Lemma target_flows_skipped old c f :
  target_flows true old c f = None <-> c = CNone /\ old <> [].
Proof.
  unfold target_flows. destruct c, old; cbn; split; try discriminate; try (intros [E H]; congruence).
  split; [reflexivity|discriminate].
Qed.

(* what F is *)
Lemma resolve_none st pool fb st' f : resolve st CNone pool fb = (st', Some f) -> f = [] /\ st' = st.
Proof. unfold resolve. cbn. intros [= <- <-]. auto. Qed.

Lemma resolve_nums st l pool fb st' f x :
  l <> [] -> resolve st (CNums l) pool fb = (st', Some f) -> (In x f <-> In x l).
Proof.
  intros Hl. unfold resolve. cbn [fstep]. destruct (get_all st l []) as [st1 res] eqn:E.
  apply get_all_res in E. cbn in E. subst res. cbn [is_cnone negb andb].
  destruct (zsorted l) eqn:En; cbn [is_nil].
  - destruct Hl. apply zsorted_nil, En.
  - intros [= _ <-]. rewrite <- En. apply In_zsorted.
Qed.

Lemma resolve_default st pool fb st' f :
  resolve st (CNums []) pool fb = (st', Some f) -> f = active_flows pool fb /\ st' = st.
Proof. unfold resolve. cbn. intros [= <- <-]. auto. Qed.

Lemma active_flows_spec pool fb x :
  In x (active_flows pool fb) <->
  (exists fl, In fl pool /\ In x fl) \/ ((forall fl, In fl pool -> fl = []) /\ In x fb).
Proof.
  pose proof (concat_nil_Forall pool) as [Hnil Hnil']. rewrite Forall_forall in Hnil, Hnil'.
  unfold active_flows. destruct (zsorted (concat pool)) as [|y r] eqn:E; cbn [is_nil].
  - pose proof (Hnil (zsorted_nil _ E)) as Hall.
    split; [intros H; right; auto|]. intros [(fl & Hfl & Hx)|[_ H]]; [|exact H].
    rewrite (Hall fl Hfl) in Hx. destruct Hx.
  - rewrite <- E, In_zsorted, in_concat. split.
    + intros (fl & H1 & H2). left. eauto.
    + intros [(fl & H1 & H2)|[Hall _]]; [eauto|].
      rewrite (Hnil' Hall) in E. discriminate E.
Qed.
