(* Proofs/TaskBatchProofs.v — Model/TaskBatch.v (C10, batch level): a batch is the sequence of its
   single-message batches (batch_singles, batch_state); it polls iff some message, where it is
   processed, is current and backward (batch_poll_backward); batches of [neutral] messages keep the
   status and poll independently of their order (batch_poll_order). *)
From Coq Require Import List Bool Arith ZArith Lia Permutation.
From Cylc Require Import Base.Util Gen.TaskMsgTables Model.TaskMsg Model.TaskBatch
  Proofs.TaskMsgProofs Proofs.TaskMsgInv Proofs.TaskMsgEdges.
Import ListNotations.

Definition to_op (x : bmsg) : op := OpMsg (fst x) Received (snd x).
Definition b_state (r : task * list effect * bool) : task := fst (fst r).
Definition b_eff (r : task * list effect * bool) : list effect := snd (fst r).
Definition b_poll (r : task * list effect * bool) : bool := snd r.

Lemma deliver_step t x : deliver t x = step t (to_op x).
Proof. reflexivity. Qed.

(* a batch leaves the task in the state that the same messages leave it in when
   they are processed one at a time *)
Lemma batch_state t l : b_state (task_batch t l) = final t (map to_op l).
Proof.
  revert t. induction l as [|x r IH]; intros t; [reflexivity|].
  cbn [task_batch map]. rewrite final_cons. unfold b_state in *. cbn [fst]. rewrite IH. reflexivity.
Qed.

Lemma batch_app t a b :
  task_batch t (a ++ b) =
  (b_state (task_batch (b_state (task_batch t a)) b),
   b_eff (task_batch t a) ++ b_eff (task_batch (b_state (task_batch t a)) b),
   b_poll (task_batch t a) || b_poll (task_batch (b_state (task_batch t a)) b)).
Proof.
  revert t. induction a as [|x r IH]; intros t.
  - cbn. destruct (task_batch t b) as [[s e] p]. reflexivity.
  - cbn [app task_batch]. rewrite IH. unfold b_state, b_eff, b_poll. cbn [fst snd].
    rewrite app_assoc, orb_assoc. reflexivity.
Qed.

(* one single-message batch per message: same state, same effects, and the
   poll decisions OR-ed *)
Fixpoint singles (t : task) (l : list bmsg) : task * list effect * bool :=
  match l with
  | [] => (t, [], false)
  | x :: r =>
      let one := task_batch t [x] in
      let rest := singles (b_state one) r in
      (b_state rest, b_eff one ++ b_eff rest, b_poll one || b_poll rest)
  end.
Lemma batch_singles t l : task_batch t l = singles t l.
Proof.
  revert t. induction l as [|x r IH]; intros t; [reflexivity|].
  cbn [singles]. change (x :: r) with ([x] ++ r). rewrite batch_app, IH. reflexivity.
Qed.

(* the task is polled iff some message of the batch, at the point where it is
   processed, made process_message return True *)
Lemma batch_poll_iff t l :
  b_poll (task_batch t l) = true <->
  exists l1 x l2, l = l1 ++ x :: l2 /\
    asked_poll (snd (deliver (final t (map to_op l1)) x)) = true.
Proof.
  revert t. induction l as [|x r IH]; intros t.
  - cbn. split; [discriminate|]. intros (l1 & y & l2 & E & _). destruct l1; discriminate E.
  - cbn [task_batch]. unfold b_poll in *. cbn [snd]. rewrite orb_true_iff, IH. split.
    + intros [H|(l1 & y & l2 & E & H)].
      * exists [], x, r. split; [reflexivity|exact H].
      * exists (x :: l1), y, l2. split; [cbn; rewrite E; reflexivity|].
        cbn [map]. rewrite final_cons. exact H.
    + intros (l1 & y & l2 & E & H). destruct l1 as [|z l1].
      * cbn in E. injection E as <- <-. left. exact H.
      * cbn in E. injection E as <- ->. right. exists l1, y, l2. split; [reflexivity|].
        cbn [map] in H. rewrite final_cons in H. exact H.
Qed.

Lemma asked_poll_In e : asked_poll e = true <-> In EPoll e.
Proof.
  unfold asked_poll. rewrite existsb_exists. split.
  - intros (x & Hx & P). destruct x; try discriminate P. exact Hx.
  - intros H. exists EPoll. auto.
Qed.

(* ... which, for a reachable task, means: a message for the current submit
   number that would move the status backwards *)
Definition asks (s : status) (x : bmsg) : bool := Z.eqb (snd x) 0 && backward (fst x) s.

Lemma deliver_poll_backward t x : wf t ->
  asked_poll (snd (deliver t x)) = asks (st t) x.
Proof.
  intros W. destruct x as [m rel]. unfold deliver, asks. cbn [fst snd].
  destruct (asked_poll _) eqn:A.
  - apply asked_poll_In in A. destruct (pm_poll_only_backward _ _ _ _ W A) as (_ & N & B).
    rewrite B. assert (rel = 0%Z) by lia. subst rel. reflexivity.
  - destruct (Z.eqb rel 0) eqn:R; [|reflexivity]. apply Z.eqb_eq in R. subst rel. cbn [andb].
    destruct (backward m (st t)) eqn:B; [|reflexivity].
    rewrite Z.add_0_r, (pm_backward_polls t m W B) in A. discriminate A.
Qed.

Lemma batch_poll_backward t l : wf t ->
  b_poll (task_batch t l) = true <->
  exists l1 x l2, l = l1 ++ x :: l2 /\ asks (st (final t (map to_op l1))) x = true.
Proof.
  intros W. rewrite batch_poll_iff. split; intros (l1 & x & l2 & E & H); exists l1, x, l2; (split; [exact E|]).
  - rewrite <- deliver_poll_backward by (apply wf_final; exact W). exact H.
  - rewrite deliver_poll_backward by (apply wf_final; exact W). exact H.
Qed.

(* messages that cannot change the status of t: stale ones, texts that are not a
   lifecycle message (custom outputs, progress messages), and messages that
   would move the status backwards *)
Definition neutral (s : status) (x : bmsg) : bool :=
  negb (Z.eqb (snd x) 0)
  || match fst x with MCustom _ | MOther => true | _ => false end
  || backward (fst x) s.

Lemma deliver_neutral t x : wf t -> neutral (st t) x = true ->
  st (fst (deliver t x)) = st t.
Proof.
  intros W N. destruct x as [m rel]. unfold neutral in N. cbn [fst snd] in N. unfold deliver. cbn [fst snd].
  destruct (Z.eqb rel 0) eqn:R; cbn [negb orb] in N.
  - apply Z.eqb_eq in R. subst rel. rewrite Z.add_0_r.
    destruct (backward m (st t)) eqn:B.
    + rewrite (pm_backward_polls t m W B). reflexivity.
    + rewrite orb_false_r in N.
      destruct (pm_edges t m Received (Z.of_nat (sn t)) W) as [E|E]; [exact E|].
      destruct m; try discriminate N; discriminate E.
  - rewrite pm_stale; [reflexivity|]. apply Z.eqb_neq in R. lia.
Qed.

Lemma batch_neutral t l : wf t -> forallb (neutral (st t)) l = true ->
  st (b_state (task_batch t l)) = st t /\
  b_poll (task_batch t l) = existsb (asks (st t)) l.
Proof.
  revert t. induction l as [|x r IH]; intros t W N; [cbn; auto|].
  cbn [forallb] in N. apply andb_true_iff in N. destruct N as [N1 N2].
  pose proof (deliver_neutral t x W N1) as S.
  assert (W' : wf (fst (deliver t x))) by (rewrite deliver_step; apply wf_step; exact W).
  rewrite <- S in N2. destruct (IH _ W' N2) as [I1 I2].
  cbn [task_batch existsb]. unfold b_state, b_poll in *. cbn [fst snd].
  rewrite I1, I2, S, (deliver_poll_backward t x W). auto.
Qed.

Lemma existsb_perm {A} (f : A -> bool) l l' : Permutation l l' -> existsb f l = existsb f l'.
Proof.
  induction 1; cbn; try congruence.
  - rewrite !orb_assoc, (orb_comm (f y)). reflexivity.
Qed.
Lemma forallb_perm {A} (f : A -> bool) l l' : Permutation l l' -> forallb f l = forallb f l'.
Proof.
  induction 1; cbn; try congruence.
  - rewrite !andb_assoc, (andb_comm (f y)). reflexivity.
Qed.

Lemma batch_poll_order t l l' : wf t -> Permutation l l' ->
  forallb (neutral (st t)) l = true ->
  b_poll (task_batch t l) = b_poll (task_batch t l') /\
  st (b_state (task_batch t l)) = st (b_state (task_batch t l')).
Proof.
  intros W P N. pose proof N as N'. rewrite (forallb_perm _ _ _ P) in N'.
  destruct (batch_neutral t l W N) as [A1 A2]. destruct (batch_neutral t l' W N') as [B1 B2].
  rewrite A1, A2, B1, B2, (existsb_perm _ _ _ P). auto.
Qed.

(* the decision "only the last message counts" is a different function *)
Definition last_only (t : task) (l : list bmsg) : bool :=
  match rev l with
  | [] => false
  | x :: r => asked_poll (snd (deliver (final t (map to_op (rev r))) x))
  end.
Lemma last_only_differs :
  let t := final (fresh 0 0 1) [OpPrep; OpMsg MStarted Received 0%Z; OpMsg MFailed Received 0%Z] in
  let l := [(MStarted, 0%Z); (MCustom 0, 0%Z)] in
  b_poll (task_batch t l) = true /\ last_only t l = false.
Proof. vm_compute. auto. Qed.
