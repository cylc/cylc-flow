(* Proofs/RestrictedEvalProofs.v — lemmas about Model/RestrictedEval.v.
   [first_bad_list] and [eval_ops] name the loops nested in first_bad and
   py_eval; [first_bad_node] and [py_eval_node] are the one-node equations the
   proofs rewrite with.  [descendant], [dangerous] and [completion_extra] are the
   vocabulary of the C24 statements; [good] is what every evaluation result satisfies. *)
From Coq Require Import List Bool Arith String.
From Cylc Require Import Base.Util Gen.EvalWhitelist Model.RestrictedEval.
Import ListNotations.
Local Open Scope string_scope.
Local Open Scope list_scope.

Section PyInd.
  Variable P : pyast -> Prop.
  Hypothesis HNode : forall k n cs, Forall P cs -> P (Node k n cs).
  Fixpoint pyast_ind' (t : pyast) : P t :=
    match t with
    | Node k n cs =>
        HNode k n cs
          ((fix go (l : list pyast) : Forall P l :=
              match l with
              | [] => Forall_nil P
              | c :: r => Forall_cons c (pyast_ind' c) (go r)
              end) cs)
    end.
End PyInd.

Lemma mem_str_In k l : mem String.eqb k l = true <-> In k l.
Proof. apply mem_In. intros a b. apply String.eqb_eq. Qed.

Fixpoint first_bad_list (wl : list string) (l : list pyast) : option string :=
  match l with
  | [] => None
  | c :: r => match first_bad wl c with Some b => Some b | None => first_bad_list wl r end
  end.

Lemma first_bad_node wl k n cs :
  first_bad wl (Node k n cs) =
  if whitelisted wl k then (if reserved_name k n then Some k else first_bad_list wl cs)
  else Some k.
Proof.
  cbn [first_bad]. destruct (whitelisted wl k); [|reflexivity].
  destruct (reserved_name k n); [reflexivity|].
  induction cs as [|c r IH]; [reflexivity|].
  cbn. destruct (first_bad wl c); [reflexivity|exact IH].
Qed.

Lemma names_node k n cs :
  names (Node k n cs) = (if String.eqb k "Name" then [n] else []) ++ flat_map names cs.
Proof. reflexivity. Qed.

Section EvalEq.
  Variable env : nat -> option nat.
  Variable truthy : nat -> bool.

  Fixpoint eval_ops (is_and : bool) (l : list pyast) : list nat * outcome :=
    match l with
    | [] => ([], Unsupported)
    | c :: r =>
        match r with
        | [] => py_eval env truthy c
        | _ :: _ =>
            match py_eval env truthy c with
            | (tr, Val x) =>
                if Bool.eqb (truth truthy x) is_and
                then let '(tr', o) := eval_ops is_and r in ((tr ++ tested x ++ tr')%list, o)
                else ((tr ++ tested x)%list, Val x)
            | other => other
            end
        end
    end.

  Definition eval_boolop (cs : list pyast) : list nat * outcome :=
    match cs with
    | Node op _ [] :: values =>
        if String.eqb op "And" || String.eqb op "Or"
        then eval_ops (String.eqb op "And") values
        else ([], Unsupported)
    | _ => ([], Unsupported)
    end.

  Lemma py_eval_node k n cs :
    py_eval env truthy (Node k n cs) =
    if String.eqb k "Expression" then
      match cs with [b] => py_eval env truthy b | _ => ([], Unsupported) end
    else if String.eqb k "Name" then
      match env n with Some i => ([], Val (VObj i)) | None => ([], NameErr n) end
    else if String.eqb k "BoolOp" then eval_boolop cs
    else ([], Unsupported).
  Proof.
    cbn [py_eval]. destruct (String.eqb k "Expression"); [reflexivity|].
    destruct (String.eqb k "Name"); [reflexivity|].
    destruct (String.eqb k "BoolOp"); [|reflexivity].
    unfold eval_boolop.
    destruct cs as [|[op n0 [|? ?]] l]; try reflexivity.
    destruct (String.eqb op "And" || String.eqb op "Or"); [|reflexivity].
    (* [G] names the loop nested in py_eval, so that one step of it can be written out *)
    match goal with |- ?f l = _ => set (G := f) end.
    induction l as [|c r IH]; [reflexivity|].
    destruct r as [|c2 r2]; [reflexivity|].
    change (G (c :: c2 :: r2)) with
      (match py_eval env truthy c with
       | (tr, Val x) =>
           if Bool.eqb (truth truthy x) (String.eqb op "And")
           then let '(tr', o) := G (c2 :: r2) in ((tr ++ tested x ++ tr')%list, o)
           else ((tr ++ tested x)%list, Val x)
       | other => other
       end).
    rewrite IH. reflexivity.
  Qed.
End EvalEq.

(* the node reported is the first bad one (non-whitelisted class, or one of
   the two reserved names) in visit order *)
Lemma first_bad_preorder wl t :
  first_bad wl t = option_map fst (find (bad_node wl) (preorder_nodes t)).
Proof.
  induction t as [k n cs IH] using pyast_ind'.
  rewrite first_bad_node. cbn [preorder_nodes find]. unfold bad_node at 1. cbn [fst snd].
  destruct (whitelisted wl k); cbn [negb orb]; [|reflexivity].
  destruct (reserved_name k n); [reflexivity|].
  induction IH as [|c r Hc _ IHr]; [reflexivity|].
  cbn [first_bad_list flat_map]. rewrite find_app, Hc.
  destruct (find (bad_node wl) (preorder_nodes c)); [reflexivity|exact IHr].
Qed.

Lemma rejected_first wl t k :
  first_bad wl t = Some k ->
  exists before n after,
    preorder_nodes t = before ++ (k, n) :: after /\
    bad_node wl (k, n) = true /\
    forallb (fun p => negb (bad_node wl p)) before = true.
Proof.
  rewrite first_bad_preorder.
  destruct (find (bad_node wl) (preorder_nodes t)) as [[k' n]|] eqn:H; [|discriminate].
  intros [= <-]. destruct (find_first _ _ _ H) as [l1 [l2 [E [Hk Hl]]]].
  exists l1, n, l2. split; [exact E|]. split; [exact Hk|].
  apply forallb_forall. intros y Hy. now rewrite (Hl y Hy).
Qed.

Lemma accepted_iff wl t :
  first_bad wl t = None <->
  forallb (fun p => negb (bad_node wl p)) (preorder_nodes t) = true.
Proof.
  rewrite first_bad_preorder, forallb_forall. split.
  - intros H p Hp. destruct (find _ _) eqn:E; [discriminate|]. now rewrite (find_none _ _ E p Hp).
  - intros H. rewrite (proj2 (find_none_iff _ _)); [reflexivity|].
    intros p Hp. apply negb_true_iff, H, Hp.
Qed.

Lemma rejected_iff wl t :
  (exists k, first_bad wl t = Some k) <->
  exists p, In p (preorder_nodes t) /\ bad_node wl p = true.
Proof.
  split.
  - intros [k H]. destruct (rejected_first _ _ _ H) as [b [n [a [E [Hk _]]]]].
    exists (k, n). split; [|exact Hk]. rewrite E. apply in_or_app. right. now left.
  - intros [p [Hin Hk]]. destruct (first_bad wl t) as [k'|] eqn:E; [eauto|].
    apply accepted_iff in E. rewrite forallb_forall in E. specialize (E p Hin).
    rewrite Hk in E. discriminate.
Qed.

Lemma accepted_nodes wl t k n :
  first_bad wl t = None -> In (k, n) (preorder_nodes t) ->
  whitelisted wl k = true /\ reserved_name k n = false.
Proof.
  intros H Hin. apply accepted_iff in H. rewrite forallb_forall in H.
  specialize (H _ Hin). unfold bad_node in H. cbn [fst snd] in H.
  apply negb_true_iff, orb_false_iff in H. destruct H as [H R].
  now apply negb_false_iff in H.
Qed.

Lemma preorder_map_nodes t : preorder t = map fst (preorder_nodes t).
Proof.
  induction t as [k n cs IH] using pyast_ind'. cbn. f_equal.
  induction IH as [|c r Hc _ IHr]; [reflexivity|].
  cbn. now rewrite map_app, Hc, IHr.
Qed.

Lemma accepted_all_whitelisted wl t :
  first_bad wl t = None -> forallb (whitelisted wl) (preorder t) = true.
Proof.
  intros H. rewrite preorder_map_nodes. apply forallb_forall. intros k Hk.
  apply in_map_iff in Hk as [[k' n] [<- Hp]]. apply (accepted_nodes wl t k' n H Hp).
Qed.

Lemma names_spec t n : In n (names t) <-> In ("Name", n) (preorder_nodes t).
Proof.
  induction t as [k m cs IH] using pyast_ind'.
  assert (Hcs : In n (flat_map names cs) <-> In ("Name", n) (flat_map preorder_nodes cs)).
  { rewrite Forall_forall in IH. split; intros H; apply in_flat_map in H as [c [Hc H]];
      apply in_flat_map; exists c; (split; [exact Hc|]); now apply (IH c Hc). }
  rewrite names_node. cbn [preorder_nodes]. split.
  - intros H. apply in_app_or in H as [H|H]; [left|right; now apply Hcs].
    destruct (String.eqb_spec k "Name") as [->|_]; [|destruct H]. destruct H as [<-|[]]. reflexivity.
  - intros [[= -> ->]|H]; apply in_or_app; [left; now left|right; now apply Hcs].
Qed.

Lemma contains_bad_rejected wl t k :
  In k (preorder t) -> whitelisted wl k = false -> exists k', first_bad wl t = Some k'.
Proof.
  intros H1 H2. apply rejected_iff. rewrite preorder_map_nodes in H1.
  apply in_map_iff in H1. destruct H1 as [[k' n] [E Hp]]. cbn in E. subst k'.
  exists (k, n). split; [exact Hp|]. unfold bad_node. cbn. now rewrite H2.
Qed.

Inductive descendant : pyast -> pyast -> Prop :=
| desc_refl : forall t, descendant t t
| desc_child : forall k n cs c s, In c cs -> descendant s c -> descendant s (Node k n cs).

Definition ident_of (t : pyast) : nat := match t with Node _ n _ => n end.

Lemma first_bad_list_none wl cs :
  first_bad_list wl cs = None -> Forall (fun c => first_bad wl c = None) cs.
Proof.
  induction cs as [|c r IH]; cbn; [constructor|].
  destruct (first_bad wl c) eqn:E; [discriminate|]. intros H. constructor; auto.
Qed.

Lemma accepted_children wl k n cs c :
  first_bad wl (Node k n cs) = None -> In c cs -> first_bad wl c = None.
Proof.
  rewrite first_bad_node. destruct (whitelisted wl k); [|discriminate].
  destruct (reserved_name k n); [discriminate|].
  intros H Hc. apply first_bad_list_none in H. rewrite Forall_forall in H. now apply H.
Qed.

(* acceptance of a tree is acceptance of every sub-tree, whatever the kinds of
   the nodes in between (Attribute, Subscript, Call, ...) *)
Lemma accepted_descendant wl t s :
  descendant s t -> first_bad wl t = None -> first_bad wl s = None.
Proof.
  induction 1 as [t|k n cs c s Hc Hd IH]; [auto|].
  intros H. apply IH. eapply accepted_children; eauto.
Qed.

Lemma descendant_in_preorder t s :
  descendant s t -> In (kind_of s, ident_of s) (preorder_nodes t).
Proof.
  induction 1 as [t|k n cs c s Hc Hd IH].
  - destruct t as [k n cs]. cbn. now left.
  - cbn [preorder_nodes]. right. apply in_flat_map. eauto.
Qed.

(* With a whitelist whose only kind outside [safe] is BinOp and which holds none
   of the operator kinds, BinOp can never pass: it always has an operator child *)
Lemma accepts_only_safe wl ops safe t :
  (forall k, whitelisted wl k = true -> k = "BinOp" \/ In k safe) ->
  (forall k, In k ops -> whitelisted wl k = false) ->
  binop_wf ops t = true -> first_bad wl t = None ->
  Forall (fun k => In k safe) (preorder t).
Proof.
  intros Hwl Hops. induction t as [k n cs IH] using pyast_ind'.
  cbn [binop_wf preorder]. rewrite andb_true_iff. intros [Hb Hcs] Hacc.
  pose proof (fun c => accepted_children wl k n cs c Hacc) as Hch.
  constructor.
  - destruct (accepted_nodes wl _ k n Hacc (or_introl eq_refl)) as [Hk _].
    destruct (Hwl k Hk) as [->|H]; [exfalso|exact H].
    rewrite String.eqb_refl in Hb. apply existsb_exists in Hb as [c [Hc Hop]].
    apply mem_str_In, Hops in Hop.
    destruct c as [kc nc ccs].
    destruct (accepted_nodes wl _ kc nc (Hch _ Hc) (or_introl eq_refl)) as [Hw _].
    cbn [kind_of] in Hop. congruence.
  - rewrite forallb_forall in Hcs. clear Hb Hacc.
    induction IH as [|c r Hc _ IHr]; cbn [flat_map]; [constructor|].
    apply Forall_app. split.
    + apply Hc; [apply Hcs|apply Hch]; now left.
    + apply IHr; intros x Hx; [apply Hcs|apply Hch]; now right.
Qed.

Lemma completion_accepts_only_safe t :
  binop_wf operator_kinds t = true ->
  first_bad completion_whitelist t = None ->
  Forall (fun k => In k fragment_kinds) (preorder t).
Proof.
  apply accepts_only_safe.
  - assert (S : forallb (fun k => mem String.eqb k ("BinOp" :: fragment_kinds)) completion_whitelist = true)
      by (vm_compute; reflexivity).
    intros k H. apply mem_str_In in H. rewrite forallb_forall in S.
    apply S, mem_str_In in H. destruct H as [<-|H]; auto.
  - assert (S : forallb (fun k => negb (whitelisted completion_whitelist k)) operator_kinds = true)
      by (vm_compute; reflexivity).
    intros k H. rewrite forallb_forall in S. now apply negb_true_iff, S.
Qed.

Definition dangerous : list string :=
  ["Call"; "Lambda"; "ListComp"; "SetComp"; "DictComp"; "GeneratorExp"; "NamedExpr";
   "Await"; "Yield"; "YieldFrom"; "JoinedStr"; "FormattedValue"; "Starred"; "IfExp"].
Definition completion_extra : list string := ["Attribute"; "Subscript"; "Constant"; "UnaryOp"; "Compare"].

Lemma dangerous_not_whitelisted :
  forallb (fun k => negb (whitelisted completion_whitelist k)
                    && negb (whitelisted ranking_whitelist k)) dangerous = true.
Proof. vm_compute. reflexivity. Qed.

Lemma completion_extra_not_whitelisted :
  forallb (fun k => negb (whitelisted completion_whitelist k)) completion_extra = true.
Proof. vm_compute. reflexivity. Qed.

Lemma eval_ops_ext e1 e2 truthy is_and l :
  Forall (fun t => (forall n, In n (names t) -> e1 n = e2 n) ->
                   py_eval e1 truthy t = py_eval e2 truthy t) l ->
  (forall n, In n (flat_map names l) -> e1 n = e2 n) ->
  eval_ops e1 truthy is_and l = eval_ops e2 truthy is_and l.
Proof.
  induction 1 as [|c r Hc Hr IH]; intros Hn; [reflexivity|].
  cbn [eval_ops]. cbn [flat_map] in Hn.
  rewrite Hc by (intros n H; apply Hn, in_or_app; now left).
  destruct r as [|c2 r2]; [reflexivity|].
  rewrite IH by (intros n H; apply Hn, in_or_app; now right). reflexivity.
Qed.

(* the outcome (and the access trace) depends only on the variables named *)
Lemma py_eval_ext e1 e2 truthy t :
  (forall n, In n (names t) -> e1 n = e2 n) ->
  py_eval e1 truthy t = py_eval e2 truthy t.
Proof.
  induction t as [k n cs IH] using pyast_ind'. intros Hn.
  rewrite !py_eval_node. rewrite names_node in Hn.
  destruct (String.eqb k "Expression") eqn:Ek.
  { destruct cs as [|b [|? ?]]; try reflexivity.
    apply (Forall_inv IH). intros m Hm. apply Hn. apply in_or_app. right. cbn. rewrite app_nil_r. exact Hm. }
  destruct (String.eqb k "Name") eqn:En.
  { rewrite (Hn n) by (cbn; now left). reflexivity. }
  destruct (String.eqb k "BoolOp"); [|reflexivity].
  unfold eval_boolop.
  destruct cs as [|[op n0 [|? ?]] vs]; try reflexivity.
  destruct (String.eqb op "And" || String.eqb op "Or"); [|reflexivity].
  apply eval_ops_ext.
  - exact (Forall_inv_tail IH).
  - intros m Hm. apply Hn. cbn [app]. cbn [flat_map]. apply in_or_app. right. exact Hm.
Qed.

(* [r] tests and yields only objects that [env] binds to one of the names [ns],
   a NameError names one of [ns] that [env] does not bind, and [r] is never a
   rejection: evaluation does not report "rejected" itself *)
Definition good (env : nat -> option nat) (ns : list nat) (r : list nat * outcome) : Prop :=
  (forall i, In i (fst r) -> exists n, In n ns /\ env n = Some i) /\
  match snd r with
  | Val (VObj i) => exists n, In n ns /\ env n = Some i
  | NameErr n => In n ns /\ env n = None
  | Unsupported => True
  | Rejected _ | SyntaxErr => False
  end.

Lemma good_unsupported env ns : good env ns ([], Unsupported).
Proof. split; [intros i []|exact I]. Qed.

Lemma good_incl env ns ns' r : incl ns ns' -> good env ns r -> good env ns' r.
Proof.
  intros Hi [Ht Ho]. split.
  - intros i H. destruct (Ht i H) as [n [Hn E]]. eauto.
  - destruct (snd r) as [k| |[i]|m|]; auto.
    + destruct Ho as [n [Hn E]]. eauto.
    + destruct Ho. auto.
Qed.

Lemma eval_ops_good env truthy is_and l :
  Forall (fun t => good env (names t) (py_eval env truthy t)) l ->
  good env (flat_map names l) (eval_ops env truthy is_and l).
Proof.
  induction 1 as [|c r Hc _ IH]; [apply good_unsupported|].
  cbn [eval_ops flat_map].
  apply (good_incl _ _ (names c ++ flat_map names r)) in Hc; [|apply incl_appl, incl_refl].
  apply (good_incl _ _ (names c ++ flat_map names r)) in IH; [|apply incl_appr, incl_refl].
  destruct r as [|c2 r2]; [exact Hc|].
  destruct (py_eval env truthy c) as [tr [k| |x|m|]]; try exact Hc.
  destruct Hc as [Ht Hx]. cbn [fst snd] in Ht, Hx.
  assert (Htx : forall i, In i (tr ++ tested x) ->
                exists n, In n (names c ++ flat_map names (c2 :: r2)) /\ env n = Some i).
  { intros i Hi. apply in_app_or in Hi as [Hi|Hi]; [auto|].
    destruct x as [j]. destruct Hi as [<-|[]]. exact Hx. }
  destruct (Bool.eqb (truth truthy x) is_and); [|now split].
  destruct (eval_ops env truthy is_and (c2 :: r2)) as [tr' o]. destruct IH as [Ht' Ho].
  split; [|exact Ho]. cbn [fst]. intros i Hi. rewrite app_assoc in Hi.
  apply in_app_or in Hi as [Hi|Hi]; auto.
Qed.

Lemma py_eval_good env truthy t : good env (names t) (py_eval env truthy t).
Proof.
  induction t as [k n cs IH] using pyast_ind'.
  rewrite py_eval_node, names_node.
  destruct (String.eqb k "Expression").
  { destruct cs as [|b [|? ?]]; try apply good_unsupported.
    apply (good_incl _ (names b)); [|exact (Forall_inv IH)].
    cbn [flat_map]. rewrite app_nil_r. apply incl_appr, incl_refl. }
  destruct (String.eqb k "Name").
  { destruct (env n) as [i|] eqn:E; (split; [intros j []|]); cbn; eauto. }
  destruct (String.eqb k "BoolOp"); [|apply good_unsupported].
  unfold eval_boolop.
  destruct cs as [|[op n0 [|? ?]] vs]; try apply good_unsupported.
  destruct (String.eqb op "And" || String.eqb op "Or"); [|apply good_unsupported].
  apply (good_incl _ (flat_map names vs)).
  - cbn [flat_map]. apply incl_appr, incl_appr, incl_refl.
  - apply eval_ops_good, (Forall_inv_tail IH).
Qed.

Lemma restricted_eval_accepted env truthy wl t :
  first_bad wl t = None -> in_fragment t = true ->
  restricted_eval env truthy wl (Some t) = py_eval env truthy t.
Proof. unfold restricted_eval. now intros -> ->. Qed.
