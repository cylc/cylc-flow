(* Proofs/StoreProofs.v — lemmas about Model/Store.v (C25): upd_node (ClearField then MergeFrom on a task-proxy
   node) is a monoid action (upd_assoc, upd_empty_l, upd_empty_r), idempotent up to `edges` (strip_upd_self); apply_delta read
   id by id (apply_get); the invariant INV that ties the client replica to the scheduler's store and the
   invariant J that ties the pending stores to the task pool. *)
From Coq Require Import List Bool NArith.
From Cylc Require Import Base.Util Gen.StoreTables Model.Store.
Import ListNotations.

Lemma oor_assoc {A} (a b c : option A) : oor a (oor b c) = oor (oor a b) c.
Proof. destruct a, b; reflexivity. Qed.
Lemma oor_none_r {A} (a : option A) : oor a None = a.
Proof. destruct a; reflexivity. Qed.
Lemma oor_self {A} (a : option A) : oor a a = a.
Proof. destruct a; reflexivity. Qed.

Lemma filter_filter {A} (f g : A -> bool) l : filter f (filter g l) = filter (fun x => g x && f x) l.
Proof.
  induction l as [|x r IH]; cbn; [reflexivity|].
  destruct (g x); cbn; [destruct (f x); cbn; rewrite IH; reflexivity|exact IH].
Qed.

(* the outputs map is read through [assoc]; a label is a key exactly when [assoc] finds it *)
Lemma mem_okeys k (b : list (N * bool)) :
  mem N.eqb k (okeys b) = match assoc N.eqb k b with Some _ => true | None => false end.
Proof. induction b as [|[k' v] r IH]; cbn; [reflexivity|]. destruct (N.eqb k k'); [reflexivity|exact IH]. Qed.
Lemma assoc_merge_outs k a b : assoc N.eqb k (merge_outs a b) = oor (assoc N.eqb k b) (assoc N.eqb k a).
Proof.
  unfold merge_outs, not_in_keys.
  rewrite assoc_app, (assoc_filter_key N.eqb N.eqb_eq (fun k => negb (mem N.eqb k (okeys b)))), mem_okeys.
  destruct (assoc N.eqb k b); reflexivity.
Qed.

Lemma merge_outs_nil_r a : merge_outs a [] = a.
Proof. unfold merge_outs; cbn. induction a as [|x r IH]; cbn; congruence. Qed.
Lemma merge_outs_nil_l b : merge_outs [] b = b.
Proof. apply app_nil_r. Qed.
Lemma merge_outs_self a : merge_outs a a = a.
Proof.
  unfold merge_outs. rewrite filter_all_false; [apply app_nil_r|].
  intros x H. apply negb_false_iff, (mem_In N.eqb N.eqb_eq), in_map, H.
Qed.
Lemma nik_merge b c x : not_in_keys (merge_outs b c) x = not_in_keys b x && not_in_keys c x.
Proof.
  unfold not_in_keys. rewrite !mem_okeys, assoc_merge_outs.
  destruct (assoc N.eqb (fst x) c), (assoc N.eqb (fst x) b); reflexivity.
Qed.
Lemma merge_outs_assoc a b c : merge_outs (merge_outs a b) c = merge_outs a (merge_outs b c).
Proof.
  unfold merge_outs. rewrite filter_app, <- app_assoc. do 2 apply f_equal.
  rewrite filter_filter. apply filter_ext. intros x. symmetry. exact (nik_merge b c x).
Qed.

(* the tables this development was proved for (Gen/StoreTables.v) *)
Lemma tables : clear_outputs = false /\ clear_prerequisites = true /\ clear_edges = false
               /\ reset_task_proxies = true
               /\ rule_is_held = true /\ rule_is_queued = true /\ rule_is_runahead = true.
Proof. repeat split; reflexivity. Qed.

(* a repeated field listed in CLEAR_FIELD_MAP: an update that sets it replaces it *)
Definition selp {A} (u n : list A) : list A := if nonempty u then u else n.
(* upd_node with the tables put in, field by field *)
Definition merged (n u : node) : node :=
  mkNode (oor (n_state u) (n_state n)) (oor (n_held u) (n_held n)) (oor (n_queued u) (n_queued n))
         (oor (n_runahead u) (n_runahead n)) (oor (n_flows u) (n_flows n))
         (merge_outs (n_outputs n) (n_outputs u)) (selp (n_prereqs u) (n_prereqs n))
         (n_edges n ++ n_edges u).
Lemma upd_node_eq n u : upd_node n u = merged n u.
Proof.
  unfold upd_node, merge_from, clear_listed, merged, selp; cbn.
  change clear_outputs with false; change clear_prerequisites with true; change clear_edges with false; cbn.
  destruct (n_prereqs u); cbn; [rewrite app_nil_r|]; reflexivity.
Qed.
(* after [rewrite upd_node_eq]: the fields of the merged nodes *)
Ltac nproj := unfold merged in *; cbn [n_state n_held n_queued n_runahead n_flows n_outputs n_prereqs n_edges] in *.

Lemma selp_assoc {A} (a b c : list A) : selp a (selp b c) = selp (selp a b) c.
Proof. unfold selp. destruct a, b; reflexivity. Qed.
Lemma selp_self {A} (a : list A) : selp a a = a.
Proof. unfold selp; destruct a; reflexivity. Qed.
Lemma selp_nil {A} (u n : list A) : selp u n = [] -> n = [].
Proof. unfold selp. destruct u; cbn; [auto|discriminate]. Qed.
Lemma selp_nil_inv {A} (u n : list A) : selp u n = [] -> n = [] \/ (u = [] /\ n = []).
Proof. intros H. left. exact (selp_nil u n H). Qed.

Lemma upd_assoc n u v : upd_node (upd_node n u) v = upd_node n (upd_node u v).
Proof.
  rewrite !upd_node_eq; nproj. rewrite !oor_assoc, merge_outs_assoc, selp_assoc, app_assoc. reflexivity.
Qed.
Lemma upd_empty_r n : upd_node n empty_node = n.
Proof.
  rewrite upd_node_eq; unfold empty_node; nproj. rewrite merge_outs_nil_r, app_nil_r.
  destruct n; reflexivity.
Qed.
Lemma upd_empty_l u : upd_node empty_node u = u.
Proof.
  rewrite upd_node_eq; unfold empty_node; nproj. rewrite !oor_none_r, merge_outs_nil_l. unfold selp.
  destruct u as [a b c d e f g h]; nproj. destruct g; reflexivity.
Qed.
Lemma fold_upd l n : fold_left upd_node l n = upd_node n (fold_left upd_node l empty_node).
Proof.
  revert n. induction l as [|u r IH]; intros n; cbn; [symmetry; apply upd_empty_r|].
  rewrite IH. rewrite (IH (upd_node empty_node u)). rewrite upd_empty_l, upd_assoc. reflexivity.
Qed.

(* everything but the repeated non-cleared field *)
Definition strip (n : node) : node :=
  mkNode (n_state n) (n_held n) (n_queued n) (n_runahead n) (n_flows n) (n_outputs n) (n_prereqs n) [].
Lemma strip_upd a b : strip (upd_node a b) = upd_node (strip a) (strip b).
Proof. rewrite !upd_node_eq. reflexivity. Qed.
Lemma strip_idem a : strip (strip a) = strip a.
Proof. reflexivity. Qed.
Lemma strip_edges_only a b c d e f g h h' : strip (mkNode a b c d e f g h) = strip (mkNode a b c d e f g h').
Proof. reflexivity. Qed.
Lemma strip_upd_self u : strip (upd_node u u) = strip u.
Proof.
  rewrite upd_node_eq; unfold strip; nproj. rewrite !oor_self, merge_outs_self, selp_self. reflexivity.
Qed.
Lemma strip_fold l n : strip (fold_left upd_node l n) = fold_left upd_node (map strip l) (strip n).
Proof. revert n; induction l as [|u r IH]; intros n; cbn; [reflexivity|]. rewrite IH, strip_upd. reflexivity. Qed.
Lemma fold_twice l n : strip (fold_left upd_node l (fold_left upd_node l n)) = strip (fold_left upd_node l n).
Proof.
  rewrite (fold_upd l n). rewrite (fold_upd l (upd_node n _)).
  rewrite upd_assoc, strip_upd, strip_upd_self, <- strip_upd. reflexivity.
Qed.

Lemma sget_sset {A} i j (n : A) s : sget i (sset j n s) = if N.eqb i j then Some n else sget i s.
Proof.
  induction s as [|[k m] r IH]; cbn; [reflexivity|].
  destruct (N.eqb_spec j k) as [->|Ne]; cbn.
  - destruct (N.eqb i k); reflexivity.
  - rewrite IH. destruct (N.eqb_spec i k) as [->|_]; [|reflexivity].
    apply not_eq_sym, N.eqb_neq in Ne. rewrite Ne. reflexivity.
Qed.
Lemma sget_sdel {A} i j (s : list (id * A)) : sget i (sdel j s) = if N.eqb i j then None else sget i s.
Proof.
  induction s as [|[k m] r IH]; cbn; [destruct (N.eqb i j); reflexivity|].
  destruct (N.eqb_spec j k) as [->|Ne]; cbn; rewrite IH.
  - destruct (N.eqb i k); reflexivity.
  - destruct (N.eqb_spec i k) as [->|_]; [|reflexivity].
    apply not_eq_sym, N.eqb_neq in Ne. rewrite Ne. reflexivity.
Qed.

Fixpoint last_of (i : id) (l : list (id * node)) : option node :=
  match l with
  | [] => None
  | (j, a) :: r => match last_of i r with Some x => Some x | None => if N.eqb j i then Some a else None end
  end.

Lemma sget_adds i l s : sget i (fold_left add_step l s) = oor (last_of i l) (sget i s).
Proof.
  revert s; induction l as [|[j a] r IH]; intros s; cbn; [reflexivity|].
  rewrite IH. destruct (last_of i r); [reflexivity|].
  unfold add_step; cbn. rewrite sget_sset, N.eqb_sym. destruct (N.eqb j i); reflexivity.
Qed.

Lemma sel_cons i j u l : sel i ((j, u) :: l) = if N.eqb j i then u :: sel i l else sel i l.
Proof. unfold sel; cbn. destruct (N.eqb j i); reflexivity. Qed.

Lemma sget_upds i l s :
  sget i (fold_left upd_step l s) = option_map (fold_left upd_node (sel i l)) (sget i s).
Proof.
  revert s; induction l as [|[j u] r IH]; intros s; cbn [fold_left].
  - destruct (sget i s); reflexivity.
  - rewrite IH, sel_cons. unfold upd_step; cbn [fst snd].
    destruct (N.eqb_spec j i) as [->|Ne].
    + destruct (sget i s) as [n|] eqn:G; [rewrite sget_sset, N.eqb_refl|rewrite G]; reflexivity.
    + destruct (sget j s) as [n|]; [|reflexivity].
      apply not_eq_sym, N.eqb_neq in Ne. rewrite sget_sset, Ne. reflexivity.
Qed.

Lemma sget_prunes i l s :
  sget i (fold_left prune_step l s) = if mem N.eqb i l then None else sget i s.
Proof.
  revert s; induction l as [|j r IH]; intros s; cbn; [reflexivity|].
  rewrite IH. unfold prune_step. rewrite sget_sdel.
  destruct (N.eqb i j), (mem N.eqb i r); reflexivity.
Qed.

Lemma apply_get i d s :
  sget i (apply_delta d s) =
  if mem N.eqb i (d_pruned d) then None
  else option_map (fold_left upd_node (sel i (d_updated d))) (oor (last_of i (d_added d)) (sget i s)).
Proof. unfold apply_delta. rewrite sget_prunes, sget_upds, sget_adds. reflexivity. Qed.

(* equality of stores up to the non-cleared repeated field, and plain *)
Definition seq (a b : store) : Prop := forall i, option_map strip (sget i a) = option_map strip (sget i b).
Definition seq_strict (a b : store) : Prop := forall i, sget i a = sget i b.
Lemma seq_refl a : seq a a. Proof. intros i; reflexivity. Qed.
Lemma seq_trans a b c : seq a b -> seq b c -> seq a c.
Proof. intros H1 H2 i. exact (eq_trans (H1 i) (H2 i)). Qed.
Lemma seq_sym a b : seq a b -> seq b a.
Proof. intros H i. symmetry. apply H. Qed.

Lemma apply_congr d a b : seq a b -> seq (apply_delta d a) (apply_delta d b).
Proof.
  intros H i. rewrite !apply_get. destruct (mem N.eqb i (d_pruned d)); [reflexivity|].
  destruct (last_of i (d_added d)); [reflexivity|]. cbn [oor]. specialize (H i).
  destruct (sget i a), (sget i b); cbn [option_map] in *; try discriminate H; [|reflexivity].
  rewrite !strip_fold. congruence.
Qed.

Lemma last_of_none_mem i l : last_of i l = None <-> mem N.eqb i (map fst l) = false.
Proof.
  induction l as [|[j a] r IH]; cbn; [split; reflexivity|].
  rewrite (N.eqb_sym i j). destruct (N.eqb j i); cbn; [destruct (last_of i r); split; discriminate|].
  destruct (last_of i r); [split; [discriminate|intros H; apply IH in H; discriminate H]|exact IH].
Qed.

Lemma last_of_alias i l us :
  last_of i (alias_added l us) =
  option_map (fold_left upd_node (alias_merges (sel i us))) (last_of i l).
Proof.
  induction l as [|[j a] r IH]; cbn [alias_added last_of]; [reflexivity|].
  destruct (mem N.eqb j (map fst r)) eqn:M; cbn [last_of]; rewrite IH;
    (destruct (last_of i r) eqn:E; cbn; [reflexivity|]);
    (destruct (N.eqb_spec j i) as [->|_]; [|reflexivity]).
  - (* an earlier element with the same id is never the last one *)
    apply last_of_none_mem in E. congruence.
  - reflexivity.
Qed.

Lemma alias_absorbed l a :
  strip (fold_left upd_node l (fold_left upd_node (alias_merges l) a)) = strip (fold_left upd_node l a).
Proof.
  unfold alias_merges. destruct reset_task_proxies; [|apply fold_twice].
  destruct l as [|u r]; [reflexivity|]. change (firstn 1 (u :: r)) with [u]. change (u :: r) with ([u] ++ r).
  rewrite !fold_left_app, !(strip_fold r), fold_twice. reflexivity.
Qed.

Lemma apply_alias d s : seq (apply_delta (alias_delta d) s) (apply_delta d s).
Proof.
  intros i. rewrite !apply_get. unfold alias_delta; cbn [d_pruned d_updated d_added].
  destruct (mem N.eqb i (d_pruned d)); [reflexivity|].
  rewrite last_of_alias.
  destruct (last_of i (d_added d)) as [a|]; cbn; [|reflexivity].
  apply f_equal, alias_absorbed.
Qed.

Lemma apply_twice d s : seq (apply_delta d (apply_delta d s)) (apply_delta d s).
Proof.
  intros i. rewrite (apply_get i d (apply_delta d s)), (apply_get i d s).
  destruct (mem N.eqb i (d_pruned d)); [reflexivity|].
  destruct (last_of i (d_added d)); [reflexivity|].
  destruct (sget i s); cbn; [|reflexivity]. apply f_equal, fold_twice.
Qed.

Lemma replica_snoc q d : replica (q ++ [d]) = client_apply (replica q) d.
Proof. unfold replica. rewrite fold_left_app. reflexivity. Qed.

Lemma client_congr d a b : seq a b -> seq (client_apply a d) (client_apply b d).
Proof. intros H. unfold client_apply. destruct (d_reloaded d); [apply seq_refl|apply apply_congr, H]. Qed.
Lemma client_twice d r : seq (client_apply (client_apply r d) d) (client_apply r d).
Proof. unfold client_apply. destruct (d_reloaded d); [apply seq_refl|apply apply_twice]. Qed.

(* what the client will have been sent once everything outstanding is put; the invariant is about
   this, the delta sent last and the scheduler's store *)
Definition feed (s : mgr) : list delta := s_queue s ++ outstanding s.
Definition pubview (s : mgr) := (feed s, s_pub s, s_data s).
Definition INV (s : mgr) : Prop :=
  seq (replica (feed s)) (s_data s) /\ exists q, feed s = q ++ [s_pub s].

Lemma INV_view s s' : pubview s' = pubview s -> INV s -> INV s'.
Proof. unfold INV. intros [= -> -> ->] H. exact H. Qed.

Lemma INV_init : INV (init_mgr []).
Proof. split; [apply seq_refl|exists []; reflexivity]. Qed.

(* on a delta op every branch of [step] is s, with_err s, set_added, set_updated or a new batch: none
   touches the fields of pubview *)
Lemma pubview_delta s o : is_delta_op o = true -> pubview (step s o) = pubview s.
Proof.
  destruct o; try discriminate; intros _; cbn [step]; try reflexivity.
  1: destruct (shas i (s_data s) || shas i (s_added s)); [|destruct p]; reflexivity.
  1: destruct (sget i (s_added s)); reflexivity.
  all: destruct (fetch s i); reflexivity.
Qed.

(* _publish_deltas: nothing new reaches the client, nothing stays outstanding *)
Lemma pubview_put s : pubview (step s (OpPut false)) = pubview s.
Proof.
  unfold pubview, feed, outstanding. cbn [step].
  destruct (s_pubpend s) eqn:P; cbn; [rewrite app_nil_r|rewrite P]; reflexivity.
Qed.
Lemma put_clears s : s_pubpend (step s (OpPut false)) = false.
Proof. cbn. destruct (s_pubpend s) eqn:P; [reflexivity|exact P]. Qed.
(* Scheduler.update_data_structure and _update_workflow_state end in _publish_deltas *)
Lemma nothing_outstanding s o : (exists b, o = SUpdate b) \/ o = SWfState -> outstanding (run s (expand1 o)) = [].
Proof. intros [[b ->]| ->]; unfold outstanding; cbn [expand1 run fold_left]; rewrite put_clears; reflexivity. Qed.

(* the unconditional put sends the last delta once more *)
Lemma INV_put s f : INV s -> INV (step s (OpPut f)).
Proof.
  destruct f; [|apply INV_view, pubview_put]. intros [H [q Q]].
  assert (F : feed (step s (OpPut true)) = feed s ++ [s_pub s]).
  { unfold feed, outstanding; cbn. destruct (s_pubpend s); rewrite ?app_nil_r; reflexivity. }
  unfold INV. rewrite F. split; [|exists (feed s); reflexivity].
  rewrite replica_snoc. rewrite Q, replica_snoc in *.
  eapply seq_trans; [apply client_twice|exact H].
Qed.

Lemma INV_batch s upd dd : s_pubpend s = false -> INV s -> INV (batch_apply_publish s upd dd).
Proof.
  intros P [H _]. unfold INV, feed, outstanding in *. rewrite P, app_nil_r in H.
  unfold batch_apply_publish. cbn [s_data s_queue s_pub s_pubpend app].
  split; [|exists (s_queue s); reflexivity].
  rewrite replica_snoc. eapply seq_trans; [apply apply_alias|]. apply apply_congr, H.
Qed.

Lemma INV_update s b : s_pubpend s = false -> INV s -> INV (step s (OpUpdate b)).
Proof.
  intros P I. cbn [step]. destruct b.
  - exact (INV_batch s (dedupe s) [] P I).
  - destruct (s_pending s); exact I.
Qed.

(* initiate_data_model(reloaded=True): the snapshot it publishes makes the client start again *)
Lemma INV_reinit s : INV (step s (OpInit false)).
Proof.
  split; [|exists (s_queue s); reflexivity].
  unfold feed, outstanding. cbn [step init_mgr s_data s_queue s_pub s_pubpend]. rewrite replica_snoc. apply seq_refl.
Qed.

Lemma run_app s a b : run s (a ++ b) = run (run s a) b.
Proof. apply fold_left_app. Qed.

Lemma INV_sop s o : INV s -> INV (run s (expand1 o)).
Proof.
  intros I. destruct o as [o|b| | |]; cbn [expand1 run fold_left].
  - destruct (is_delta_op o) eqn:D; [apply (INV_view s), I; apply pubview_delta, D|exact I].
  - apply INV_put, INV_update; [apply put_clears|apply INV_put, I].
  - apply INV_put, INV_batch; [apply put_clears|apply INV_put, I].
  - apply INV_reinit.
  - apply INV_put, I.
Qed.

Lemma INV_run p s : INV s -> INV (run s (expand p)).
Proof.
  revert s; induction p as [|o r IH]; intros s I; [exact I|].
  unfold expand; cbn [flat_map]. rewrite run_app. apply IH, INV_sop, I.
Qed.

(* the store element [n] shows the pool's task proxy [p], field by field ([n_edges] is not read) *)
Definition reflects (n : node) (p : pv) : Prop :=
  n_state n = Some (p_state p) /\ getb (n_held n) = p_held p /\ getb (n_queued n) = p_queued p
  /\ getb (n_runahead n) = p_runahead p /\ n_flows n = Some (p_flows p)
  /\ (forall k, assoc N.eqb k (n_outputs n) = assoc N.eqb k (p_outputs p))
  /\ n_prereqs n = p_prereqs p.
(* the part that delta_task_state leaves alone *)
Definition reflects_rest (n : node) (p : pv) : Prop :=
  n_flows n = Some (p_flows p)
  /\ (forall k, assoc N.eqb k (n_outputs n) = assoc N.eqb k (p_outputs p))
  /\ n_prereqs n = p_prereqs p.
Lemma reflects_strip_eq n n' p : strip n = strip n' -> reflects n p -> reflects n' p.
Proof. (* [reflects n' p] and [reflects (strip n') p] are convertible *)
  intros E H. change (reflects (strip n') p). rewrite <- E. exact H. Qed.
Lemma reflects_rest_strip_eq n n' p : strip n = strip n' -> reflects_rest n p -> reflects_rest n' p.
Proof. intros E H. change (reflects_rest (strip n') p). rewrite <- E. exact H. Qed.

(* the rule of delta_task_state never loses an update *)
Lemma rule_flag_ok t d v : getb (oor (rule_flag true t d v) t) = v.
Proof.
  unfold rule_flag. destruct (Bool.eqb (getb t) v) eqn:E1; cbn; [|reflexivity].
  destruct (Bool.eqb (getb d) v) eqn:E2; cbn; [|reflexivity].
  apply eqb_prop in E1, E2. destruct d; cbn in *; assumption.
Qed.
Lemma rule_state_ok t d v : oor (rule_state t d v) t = Some v.
Proof.
  unfold rule_state. destruct (option_eqb N.eqb t (Some v)) eqn:E1; cbn; [|reflexivity].
  destruct (option_eqb N.eqb d (Some v)) eqn:E2; cbn; [|reflexivity].
  apply (option_eqb_spec N.eqb N.eqb_eq) in E2. subst. reflexivity.
Qed.

Lemma keys_within_assoc_none a b : keys_within a b = true ->
  forall k, assoc N.eqb k b = None -> assoc N.eqb k a = None.
Proof.
  unfold keys_within. induction a as [|[k' v] r IH]; cbn; [reflexivity|].
  intros H k E. apply andb_true_iff in H as [H1 H2].
  destruct (N.eqb_spec k k') as [->|_]; [|apply IH; assumption].
  rewrite mem_okeys, E in H1. discriminate.
Qed.

(* process(itask, node) reflects the task's flows, outputs and prerequisites when the node's output
   labels are the task's, and commutes with MergeFrom unless it would have to clear prerequisites *)
Lemma process_reflects p n : keys_within (n_outputs n) (p_outputs p) = true -> reflects_rest (process p n) p.
Proof.
  intros K. repeat split. intros k. cbn. rewrite assoc_merge_outs.
  destruct (assoc N.eqb k (p_outputs p)) eqn:E; [reflexivity|]. exact (keys_within_assoc_none _ _ K k E).
Qed.
Lemma upd_process a p d :
  nonempty (p_prereqs p) || negb (nonempty (n_prereqs (upd_node a d))) = true ->
  upd_node a (process p d) = process p (upd_node a d).
Proof.
  rewrite !upd_node_eq. unfold process. nproj. cbn [oor]. intros K.
  replace (selp (p_prereqs p) (n_prereqs a)) with (p_prereqs p); [rewrite merge_outs_assoc; reflexivity|].
  destruct (p_prereqs p); [|reflexivity]. destruct (selp (n_prereqs d) (n_prereqs a)) eqn:S; [|discriminate K].
  symmetry. exact (selp_nil _ _ S).
Qed.

Lemma sget_none_notin {A} i (s : list (id * A)) : sget i s = None <-> ~ In i (map fst s).
Proof.
  induction s as [|[k m] r IH]; cbn; [split; [intros _ []|reflexivity]|].
  destruct (N.eqb_spec i k) as [->|Ne].
  - split; [discriminate|]. intros H. elim H. left. reflexivity.
  - rewrite IH. split; [intros H [E|E]; [exact (Ne (eq_sym E))|exact (H E)]|intros H E; exact (H (or_intror E))].
Qed.
Lemma keys_sset {A} i (n : A) s :
  map fst (sset i n s) = match sget i s with Some _ => map fst s | None => map fst s ++ [i] end.
Proof.
  induction s as [|[k m] r IH]; cbn; [reflexivity|].
  destruct (N.eqb_spec i k) as [->|_]; cbn; [reflexivity|]. rewrite IH. destruct (sget i r); reflexivity.
Qed.
Lemma NoDup_sset {A} i (n : A) s : NoDup (map fst s) -> NoDup (map fst (sset i n s)).
Proof.
  intros H. rewrite keys_sset. destruct (sget i s) eqn:E; [exact H|].
  apply NoDup_snoc; [exact H|apply sget_none_notin, E].
Qed.
(* in a store that holds each id once, the elements addressed to i are the one stored for it *)
Lemma once_per_id i l : NoDup (map fst l) ->
  last_of i l = sget i l /\ sel i l = match sget i l with Some u => [u] | None => [] end.
Proof.
  induction l as [|[j a] r IH]; [split; reflexivity|]. cbn [map fst sget last_of]. intros H.
  inversion H as [|x l' Hn Hr]; subst. destruct (IH Hr) as [IH1 IH2].
  rewrite sel_cons, IH1, IH2, (N.eqb_sym i j). destruct (N.eqb_spec j i) as [->|_].
  - apply sget_none_notin in Hn. rewrite Hn. split; reflexivity.
  - split; [destruct (sget i r)|]; reflexivity.
Qed.
Lemma sel_filter i f l : (forall e, In e l -> fst e = i -> f e = true) -> sel i (filter f l) = sel i l.
Proof.
  induction l as [|[j a] r IH]; intros H; cbn [filter]; [reflexivity|].
  assert (Hr : forall e, In e r -> fst e = i -> f e = true) by (intros e He; apply H; right; exact He).
  rewrite sel_cons. destruct (N.eqb_spec j i) as [->|Ne].
  - rewrite (H (i, a) (or_introl eq_refl) eq_refl), sel_cons, N.eqb_refl, (IH Hr). reflexivity.
  - apply N.eqb_neq in Ne. destruct (f (j, a)); [rewrite sel_cons, Ne|]; apply IH, Hr.
Qed.

Lemma pending_set_updated s i u j :
  pending_delta (set_updated s i u) j = if N.eqb j i then u else pending_delta s j.
Proof. unfold pending_delta, set_updated; cbn [s_updated]. rewrite sget_sset. destruct (N.eqb j i); reflexivity. Qed.
Lemma fetch_set_added s i a j : fetch (set_added s i a) j = if N.eqb j i then Some a else fetch s j.
Proof. unfold fetch, set_added; cbn [s_added s_data]. rewrite sget_sset. destruct (N.eqb j i); reflexivity. Qed.

Lemma eff_set_updated_same s i u t : fetch s i = Some t -> eff (set_updated s i u) i = Some (upd_node t u).
Proof.
  intros F. unfold eff. rewrite pending_set_updated, N.eqb_refl. change (fetch (set_updated s i u) i) with (fetch s i).
  rewrite F. reflexivity.
Qed.
(* a new pending delta for i leaves the other ids alone, and i too when it differs from the old one in
   its edges only *)
Lemma eff_set_updated s i u j : j <> i \/ strip u = strip (pending_delta s i) ->
  option_map strip (eff (set_updated s i u) j) = option_map strip (eff s j).
Proof.
  intros H. unfold eff. rewrite pending_set_updated. change (fetch (set_updated s i u) j) with (fetch s j).
  destruct (N.eqb_spec j i) as [->|_]; [|reflexivity]. destruct H as [H|H]; [contradiction|].
  destruct (fetch s i); cbn [option_map]; [|reflexivity]. rewrite !strip_upd, H. reflexivity.
Qed.
Lemma eff_set_added_same s i a : eff (set_added s i a) i = Some (upd_node a (pending_delta s i)).
Proof. unfold eff. rewrite fetch_set_added, N.eqb_refl. reflexivity. Qed.
Lemma eff_set_added_other s i a j : j <> i -> eff (set_added s i a) j = eff s j.
Proof. intros Ne. apply N.eqb_neq in Ne. unfold eff. rewrite fetch_set_added, Ne. reflexivity. Qed.

(* The invariant between main-loop updates.  [Jrest]: no batch is open; ids are
   listed once in `added` and in `updated`; a pending delta for an id that the
   store does not hold carries nothing but edges (OpFlows and OpEdge create such
   deltas; [J_add_new] needs them empty when the task is added).  [Jpool]: what
   data[id] becomes at the next batch ([eff]) reflects the task in the pool. *)
Definition Jrest (s : mgr) : Prop :=
  (s_batch s = empty_delta /\ s_dedupe s = [])
  /\ (NoDup (map fst (s_added s)) /\ NoDup (map fst (s_updated s)))
  /\ (forall i, fetch s i = None -> strip (pending_delta s i) = empty_node).
Definition Jpool (pl : pool) (s : mgr) : Prop :=
  forall i p, sget i pl = Some p -> exists n, eff s i = Some n /\ reflects n p.
Definition J (pl : pool) (s : mgr) : Prop := Jrest s /\ Jpool pl s.

Lemma Jrest_set_updated s i u :
  Jrest s -> (fetch s i <> None \/ strip u = strip (pending_delta s i)) -> Jrest (set_updated s i u).
Proof.
  intros (A & (D1 & D2) & E) H. split; [exact A|]. split.
  - split; [exact D1|]. apply NoDup_sset, D2.
  - intros j Fj. change (fetch s j = None) in Fj. rewrite pending_set_updated.
    destruct (N.eqb_spec j i) as [->|_]; [|apply E, Fj].
    destruct H as [H|H]; [contradiction|]. rewrite H. apply E, Fj.
Qed.
Lemma Jrest_set_added s i a : Jrest s -> Jrest (set_added s i a).
Proof.
  intros (A & (D1 & D2) & E). split; [exact A|]. split.
  - split; [|exact D2]. apply NoDup_sset, D1.
  - intros j Fj. rewrite fetch_set_added in Fj. destruct (N.eqb j i); [discriminate|apply E, Fj].
Qed.
Lemma Jrest_with_err s : Jrest s -> Jrest (with_err s).
Proof. intros H; exact H. Qed.
Lemma Jrest_flushed s :
  s_batch s = empty_delta -> s_dedupe s = [] -> s_added s = [] -> s_updated s = [] -> Jrest s.
Proof.
  intros B D A U. unfold Jrest, pending_delta. rewrite A, U.
  split; [split; assumption|]. split; [split; constructor|]. intros i _. reflexivity.
Qed.

Lemma Jpool_fetch pl s i p : Jpool pl s -> sget i pl = Some p ->
  exists t, fetch s i = Some t /\ reflects (merged t (pending_delta s i)) p.
Proof.
  intros Jp G. destruct (Jp i p G) as (n & En & R). unfold eff in En.
  destruct (fetch s i) as [t|]; [|discriminate]. injection En as <-. rewrite upd_node_eq in R. eauto.
Qed.
Lemma Jpool_keep s s' j p :
  option_map strip (eff s' j) = option_map strip (eff s j) ->
  (exists n, eff s j = Some n /\ reflects n p) -> exists n, eff s' j = Some n /\ reflects n p.
Proof.
  intros E (n & En & R). rewrite En in E. destruct (eff s' j) as [n'|]; [|discriminate].
  exists n'. split; [reflexivity|]. apply (reflects_strip_eq n); [|exact R]. cbn [option_map] in E. congruence.
Qed.
Lemma pool_other (pl : pool) i j p : shas i pl = false -> sget j pl = Some p -> j <> i.
Proof. unfold shas. intros Sh G ->. rewrite G in Sh. discriminate. Qed.

(* the three ways a delta_* call changes the pending stores *)
Lemma J_set_added pl s i a : shas i pl = false -> J pl s -> J pl (set_added s i a).
Proof.
  intros Sh [Jr Jp]. split; [apply Jrest_set_added, Jr|].
  intros j p G. rewrite (eff_set_added_other s i a j (pool_other pl i j p Sh G)). apply Jp, G.
Qed.
Lemma J_set_updated pl s i u :
  (shas i pl = false /\ fetch s i <> None) \/ strip u = strip (pending_delta s i) ->
  J pl s -> J pl (set_updated s i u).
Proof.
  intros H [Jr Jp]. split; [apply Jrest_set_updated; [exact Jr|tauto]|].
  intros j p G. apply (Jpool_keep s); [|apply Jp, G]. apply eff_set_updated.
  destruct H as [[Sh _]|E]; [left; exact (pool_other pl i j p Sh G)|right; exact E].
Qed.
Lemma J_set_updated_at pl s i u t p :
  fetch s i = Some t -> reflects (merged t u) p -> J pl s -> J (sset i p pl) (set_updated s i u).
Proof.
  intros F R [Jr Jp]. rewrite <- upd_node_eq in R. split; [apply Jrest_set_updated; [exact Jr|left; congruence]|].
  intros j q G. rewrite sget_sset in G. destruct (N.eqb_spec j i) as [->|Ne].
  - injection G as <-. exists (upd_node t u). split; [apply eff_set_updated_same, F|exact R].
  - apply (Jpool_keep s); [apply eff_set_updated; left; exact Ne|apply Jp, G].
Qed.

(* a data-store call about an id that is not in the pool, or an edge *)
Lemma J_other pl s o : other_ok pl s o = true -> J pl s -> J pl (step s o).
Proof.
  intros K Js.
  (* the shape of delta_task_state, _held, _outputs, _prerequisite and delta_from_task_proxy *)
  assert (U : forall i f, negb (shas i pl) = true ->
                J pl (match fetch s i with Some t => set_updated s i (f t) | None => s end)).
  { intros i f Sh. apply negb_true_iff in Sh. destruct (fetch s i) eqn:F; [|exact Js].
    apply J_set_updated; [left; split; [exact Sh|congruence]|exact Js]. }
  destruct o; try discriminate K; cbn [other_ok] in K; cbn [step]; try exact (U _ _ K).
  - apply negb_true_iff in K.
    destruct (shas i (s_data s) || shas i (s_added s)); [exact Js|apply J_set_added; assumption].
  - apply negb_true_iff in K. destruct (sget i (s_added s)); [apply J_set_added; assumption|exact Js].
  - apply andb_true_iff in K as [K F]. apply negb_true_iff in K.
    apply J_set_updated; [left; split; [exact K|]|exact Js]. destruct (fetch s i); discriminate.
  - (* generate_edge: only the edges of two pending deltas change *)
    apply J_set_updated; [right|apply J_set_updated; [right|exact Js]].
    + destruct (pending_delta _ p); reflexivity.
    + destruct (pending_delta s c); reflexivity.
Qed.

Lemma J_state pl s i p t :
  fetch s i = Some t -> reflects_rest (merged t (pending_delta s i)) p -> J pl s ->
  J (sset i p pl) (step s (OpState i p)).
Proof.
  intros F R Js. cbn [step]. rewrite F. apply (J_set_updated_at pl s i _ t _ F); [|exact Js].
  change rule_is_held with true; change rule_is_queued with true; change rule_is_runahead with true.
  repeat split; try apply R; [apply rule_state_ok|apply rule_flag_ok..].
Qed.

Lemma J_outputs pl s i p outs :
  sget i pl = Some p -> keys_within (p_outputs p) outs = true -> J pl s ->
  J (sset i (set_outputs p outs) pl) (step s (OpOutputs i (set_outputs p outs))).
Proof.
  intros G K Js. destruct (Jpool_fetch pl s i p (proj2 Js) G) as (t & F & R1 & R2 & R3 & R4 & R5 & R6 & R7).
  cbn [step]. rewrite F. apply (J_set_updated_at pl s i _ t _ F); [|exact Js].
  repeat split; try assumption. intros k. nproj. cbn [set_outputs p_outputs].
  rewrite <- merge_outs_assoc, assoc_merge_outs, R6.
  destruct (assoc N.eqb k outs) eqn:E; [reflexivity|]. exact (keys_within_assoc_none _ _ K k E).
Qed.

Lemma J_prereqs pl s i p ps :
  sget i pl = Some p -> nonempty ps || negb (nonempty (p_prereqs p)) = true -> J pl s ->
  J (sset i (set_prereqs p ps) pl) (step s (OpPrereqs i (set_prereqs p ps))).
Proof.
  intros G K Js. destruct (Jpool_fetch pl s i p (proj2 Js) G) as (t & F & R1 & R2 & R3 & R4 & R5 & R6 & R7).
  cbn [step]. rewrite F. apply (J_set_updated_at pl s i _ t _ F); [|exact Js].
  repeat split; try assumption. nproj. cbn [set_prereqs p_prereqs].
  (* an empty list cannot overwrite: allowed only when nothing was there *)
  destruct ps; [|reflexivity]. rewrite <- R7 in K. destruct (selp _ _) eqn:S in K; [|discriminate K].
  exact (selp_nil _ _ S).
Qed.

Lemma J_flows pl s i p f :
  sget i pl = Some p -> J pl s -> J (sset i (set_flows p f) pl) (step s (OpFlows i f)).
Proof.
  intros G Js. destruct (Jpool_fetch pl s i p (proj2 Js) G) as (t & F & R1 & R2 & R3 & R4 & R5 & R6 & R7).
  cbn [step]. apply (J_set_updated_at pl s i _ t _ F); [|exact Js].
  repeat split; assumption.
Qed.

(* add_to_pool: a new node ... *)
Lemma J_add_new pl s i p h0 :
  shas i pl = false -> eff s i = None -> J pl s ->
  J (sset i p pl) (step (step s (OpGhost i h0 (Some p))) (OpState i p)).
Proof.
  intros Sh En Js.
  assert (F : fetch s i = None) by (unfold eff in En; destruct (fetch s i); [discriminate|reflexivity]).
  set (a := process p (mkNode None (Some h0) None None (Some []) [] [] [])).
  assert (S1 : step s (OpGhost i h0 (Some p)) = set_added s i a).
  { cbn [step]. unfold fetch, shas in *. destruct (sget i (s_added s)); [discriminate|]. rewrite F. reflexivity. }
  rewrite S1. apply (J_state _ _ i p a).
  - rewrite fetch_set_added, N.eqb_refl. reflexivity.
  - change (pending_delta (set_added s i a) i) with (pending_delta s i). rewrite <- upd_node_eq.
    apply (reflects_rest_strip_eq a); [|apply process_reflects; reflexivity].
    destruct Js as [(_ & _ & E) _]. rewrite strip_upd, (E i F), upd_empty_r. reflexivity.
  - apply J_set_added; assumption.
Qed.

(* ... or an n-window ghost that becomes active.  The ghost was made from the same task definition *)
Lemma J_add_existing pl s i p n :
  shas i pl = false -> eff s i = Some n -> keys_within (n_outputs n) (p_outputs p) = true ->
  nonempty (p_prereqs p) || negb (nonempty (n_prereqs n)) = true -> J pl s ->
  J (sset i p pl) (step (step s (OpFromProxy i p)) (OpState i p)).
Proof.
  intros Sh En K1 K2 Js. unfold eff in En. destruct (fetch s i) as [t|] eqn:F; [|discriminate]. injection En as <-.
  assert (S1 : step s (OpFromProxy i p) = set_updated s i (process p (pending_delta s i)))
    by (cbn [step]; rewrite F; reflexivity).
  rewrite S1. apply J_state with (t := t).
  - exact F.
  - rewrite <- upd_node_eq, pending_set_updated, N.eqb_refl, upd_process by exact K2. apply process_reflects, K1.
  - apply J_set_updated; [left; split; [exact Sh|congruence]|exact Js].
Qed.

(* the batch stores what [eff] predicted, for ids that are neither pruned nor deduplicated *)
Lemma apply_pending s i f ids :
  NoDup (map fst (s_added s)) -> NoDup (map fst (s_updated s)) -> mem N.eqb i ids = false ->
  (forall e, In e (s_updated s) -> fst e = i -> f e = true) ->
  sget i (apply_delta (mkDelta (s_added s) (filter f (s_updated s)) ids false) (s_data s)) = eff s i.
Proof.
  intros N1 N2 M Hf. rewrite apply_get. cbn [d_pruned d_updated d_added].
  rewrite M, (sel_filter i f _ Hf), (proj1 (once_per_id i _ N1)), (proj2 (once_per_id i _ N2)).
  unfold eff, pending_delta. replace (fetch s i) with (oor (sget i (s_added s)) (sget i (s_data s)))
    by (unfold fetch; destruct (sget i (s_added s)); reflexivity).
  destruct (oor _ _); [|reflexivity].
  destruct (sget i (s_updated s)); cbn; [|rewrite upd_empty_r]; reflexivity.
Qed.

Lemma eff_flushed s i : s_added s = [] -> s_updated s = [] -> eff s i = sget i (s_data s).
Proof.
  unfold eff, fetch, pending_delta. intros -> ->. cbn.
  destruct (sget i (s_data s)); cbn; [rewrite upd_empty_r|]; reflexivity.
Qed.

(* J does not look at what the puts change *)
Lemma J_put pl s f : J pl s -> J pl (step s (OpPut f)).
Proof. intros Js. cbn [step]. destruct f; [exact Js|]. destruct (s_pubpend s); exact Js. Qed.

Lemma forallb_not_in pl l i (p : pv) :
  forallb (fun j => negb (shas j pl)) l = true -> sget i pl = Some p -> mem N.eqb i l = false.
Proof.
  rewrite forallb_forall. intros H G. destruct (mem N.eqb i l) eqn:M; [|reflexivity].
  apply (mem_In N.eqb N.eqb_eq), H in M. unfold shas in M. rewrite G in M. discriminate.
Qed.

Lemma J_update pl s ids dd :
  forallb (fun j => negb (shas j pl)) (ids ++ dd) = true -> J pl s ->
  J pl (run s [OpPut false; OpPrune ids dd; OpUpdate true; OpPut false]).
Proof.
  intros Hn Js. cbn [run fold_left]. apply J_put.
  apply (J_put pl s false) in Js. set (s0 := step s (OpPut false)) in *.
  destruct Js as [((B & _) & (N1 & N2) & _) Jp].
  rewrite forallb_app in Hn. apply andb_true_iff in Hn as [Hi Hd]. split.
  - apply Jrest_flushed; reflexivity.
  - intros i p G. rewrite eff_flushed by reflexivity.
    cbn [step batch_apply_publish s_data s_added s_updated s_batch s_dedupe]. rewrite B.
    cbn [d_added d_updated d_pruned empty_delta app]. unfold dedupe. cbn [s_dedupe s_updated s_data s_added].
    rewrite (apply_pending s0); [apply Jp, G|assumption..| |].
    + exact (forallb_not_in pl ids i p Hi G).
    + intros [j a] _ E. cbn [fst] in *. rewrite E, (forallb_not_in pl dd i p Hd G). reflexivity.
Qed.

Lemma pstep_J pl s o :
  J pl s -> match pstep (pl, s) o with Some (pl', s') => J pl' s' | None => True end.
Proof.
  intros Js. destruct o as [i p h0|i st h q r|i outs|i ps|i f|i|o|ids dd]; cbn [pstep].
  - destruct (shas i pl) eqn:Sh; [exact I|]. destruct (eff s i) as [n|] eqn:En.
    + destruct (keys_within _ _ && _) eqn:K; [|exact I]. apply andb_true_iff in K as [K1 K2].
      exact (J_add_existing pl s i p n Sh En K1 K2 Js).
    + exact (J_add_new pl s i p h0 Sh En Js).
  - destruct (sget i pl) as [p|] eqn:G; [|exact I].
    destruct (Jpool_fetch pl s i p (proj2 Js) G) as (t & F & _ & _ & _ & _ & R).
    exact (J_state pl s i (set_flags p st h q r) t F R Js).
  - destruct (sget i pl) as [p|] eqn:G; [|exact I].
    destruct (keys_within (p_outputs p) outs) eqn:K; [|exact I]. exact (J_outputs pl s i p outs G K Js).
  - destruct (sget i pl) as [p|] eqn:G; [|exact I].
    destruct (nonempty ps || negb (nonempty (p_prereqs p))) eqn:K; [|exact I]. exact (J_prereqs pl s i p ps G K Js).
  - destruct (sget i pl) as [p|] eqn:G; [|exact I]. exact (J_flows pl s i p f G Js).
  - split; [apply Js|].
    intros j p G. rewrite sget_sdel in G. destruct (N.eqb j i); [discriminate|]. apply Js, G.
  - destruct (other_ok pl s o) eqn:K; [|exact I]. exact (J_other pl s o K Js).
  - destruct (forallb (fun j => negb (shas j pl)) (ids ++ dd)) eqn:K; [|exact I]. exact (J_update pl s ids dd K Js).
Qed.

Lemma J_init : J [] (init_mgr []).
Proof. split; [apply Jrest_flushed; reflexivity|]. intros i p G. discriminate G. Qed.

Lemma prun_J prog : forall pl s pl' s', J pl s -> prun (pl, s) prog = Some (pl', s') -> J pl' s'.
Proof.
  induction prog as [|o r IH]; intros pl s pl' s' Js H; cbn [prun] in H.
  - injection H as <- <-. exact Js.
  - pose proof (pstep_J pl s o Js) as K. destruct (pstep (pl, s) o) as [[pl1 s1]|]; [|discriminate].
    exact (IH _ _ _ _ K H).
Qed.

Lemma prun_app st a b : prun st (a ++ b) = match prun st a with Some st' => prun st' b | None => None end.
Proof.
  revert st; induction a as [|o r IH]; intros st; cbn [prun app]; [reflexivity|].
  destruct (pstep st o); [apply IH|reflexivity].
Qed.

(* update_data_structure leaves the pending stores empty *)
Lemma prun_update_flushed st prog ids dd pl s :
  prun st (prog ++ [PUpdate ids dd]) = Some (pl, s) -> s_added s = [] /\ s_updated s = [].
Proof.
  rewrite prun_app. destruct (prun st prog) as [[pl0 s0]|]; [|discriminate]. cbn [prun].
  (* the equation is inverted only after the step has been replaced by a variable: [injection] would
     unfold the four steps of the update *)
  assert (Fl : match pstep (pl0, s0) (PUpdate ids dd) with
               | Some (_, s1) => s_added s1 = [] /\ s_updated s1 = [] | None => True end)
    by (cbn [pstep]; destruct (forallb _ _); [split; reflexivity|exact I]).
  destruct (pstep (pl0, s0) (PUpdate ids dd)) as [[pl1 s1]|]; [|discriminate]. intros [= _ <-]. exact Fl.
Qed.
