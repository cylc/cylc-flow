(* Proofs/FlowProofs.v — lemmas about Model/Flow.v: the invariant [Inv] relating the counter,
   the keys of .flows and the recorded numbers ([used]), kept by every operation ([keeps]);
   the skip loop has fuel enough. *)
From Coq Require Import List Bool ZArith Lia.
From Cylc Require Import Base.Util Model.Flow.
Import ListNotations.
Open Scope Z_scope.

Lemma zmem_In x l : zmem x l = true <-> In x l.
Proof. apply mem_Z_In. Qed.

Lemma zmem_false x l : zmem x l = false <-> ~ In x l.
Proof. apply mem_Z_false. Qed.

Lemma next_free_spec : forall fuel c flows n,
  next_free fuel c flows = Some n -> c <= n /\ ~ In n flows.
Proof.
  induction fuel as [|f IH]; intros c flows n; cbn [next_free]; [discriminate|].
  destruct (zmem c flows) eqn:E.
  - intros H. apply IH in H. destruct H. split; [lia|assumption].
  - intros [= <-]. split; [lia|]. now apply zmem_false.
Qed.

(* the measure of the skip loop: the keys at or above the candidate; one fewer each time the
   candidate is taken, so fuel (number of keys + 1) suffices *)
Definition above (c : Z) (flows : list Z) : nat := length (filter (fun x => c <=? x) flows).

Lemma above_step c flows :
  (above (c + 1) flows + (if zmem c flows then 1 else 0) <= above c flows)%nat.
Proof.
  unfold above, zmem. induction flows as [|x r IH]; cbn [filter mem length]; [lia|].
  destruct (Z.eqb_spec c x) as [<-|Hne]; cbn [orb].
  - destruct (Z.leb_spec (c + 1) c); [lia|]. destruct (Z.leb_spec c c); [|lia].
    destruct (mem Z.eqb c r); cbn [length]; lia.
  - destruct (Z.leb_spec (c + 1) x), (Z.leb_spec c x); cbn [length]; lia.
Qed.

Lemma next_free_fuel : forall fuel c flows,
  (above c flows < fuel)%nat -> next_free fuel c flows <> None.
Proof.
  induction fuel as [|f IH]; intros c flows H; [lia|]. cbn [next_free].
  pose proof (above_step c flows) as Hs.
  destruct (zmem c flows); [|discriminate]. apply IH. lia.
Qed.

Lemma next_free_total c flows : next_free (S (length flows)) c flows <> None.
Proof.
  apply next_free_fuel. unfold above.
  pose proof (filter_length_le (fun x => c <=? x) flows). lia.
Qed.

Lemma zunion_In a b x : In x (zunion a b) <-> In x a \/ In x b.
Proof.
  unfold zunion. revert a. induction b as [|y r IH]; intros a; cbn [fold_left]; [cbn; tauto|].
  rewrite IH. destruct (zmem y a) eqn:E.
  - apply zmem_In in E. cbn. split; [tauto|]. intros [H|[<-|H]]; auto.
  - rewrite in_app_iff. cbn. tauto.
Qed.

Lemma fold_max_ge : forall l m x, x <= m \/ In x l -> x <= fold_left Z.max l m.
Proof.
  induction l as [|y r IH]; intros m x; cbn [fold_left In].
  - intros [H|[]]. exact H.
  - intros [H|[<-|H]]; apply IH; [left; lia|left; lia|right; exact H].
Qed.

Lemma zmax_list_ge l m : zmax_list l = Some m -> forall x, In x l -> x <= m.
Proof.
  destruct l as [|y r]; cbn; [discriminate|].
  intros [= <-] x [->|H]; apply fold_max_ge; [left; lia|right; exact H].
Qed.

Lemma In_zsorted x l : In x (zsorted l) <-> In x l.
Proof. unfold zsorted. now rewrite In_sort_by, (In_dedup Z.eqb Z.eqb_eq). Qed.

Lemma zsorted_nil l : zsorted l = [] -> l = [].
Proof.
  destruct l as [|y r]; [reflexivity|]. intros E.
  assert (H : In y (zsorted (y :: r))) by (apply In_zsorted; now left).
  rewrite E in H. destruct H.
Qed.

(* every flow number recorded so far (queued or in the table) *)
Definition used (st : fstate) : list Z := f_pending st ++ f_db st.

Record Inv (st : fstate) : Prop := {
  inv_flows : forall x, In x (f_flows st) -> In x (used st);
  inv_counter : forall c, f_counter st = Some c ->
                forall r, In r (used st) -> r <= c \/ In r (f_flows st)
}.

Lemma Inv_init : Inv f_init.
Proof. constructor; cbn; [tauto|]. intros c _ r []. Qed.

Definition grows (st st' : fstate) : Prop := forall x, In x (used st) -> In x (used st').

(* What every operation does: the invariant is kept, no recorded number is forgotten, and the
   numbers it returns are recorded. *)
Definition keeps (st st' : fstate) (nums : list Z) : Prop :=
  Inv st' /\ grows st st' /\ incl nums (used st').

Lemma keeps_refl st : Inv st -> keeps st st [].
Proof. intros H. split; [exact H|]. split; intros x Hx; [exact Hx|destruct Hx]. Qed.

Lemma keeps_trans a b c l l' : keeps a b l -> keeps b c l' -> keeps a c (l ++ l').
Proof.
  intros (_ & G1 & N1) (I2 & G2 & N2). split; [exact I2|]. split.
  - intros x Hx. apply G2, G1, Hx.
  - intros x Hx. apply in_app_iff in Hx. destruct Hx as [Hx|Hx]; [apply G2, N1, Hx|apply N2, Hx].
Qed.

Lemma keeps_incl st st' l l' : keeps st st' l -> incl l' l -> keeps st st' l'.
Proof. intros (I & G & N) H. split; [exact I|]. split; [exact G|]. intros x Hx. apply N, H, Hx. Qed.

(* the branch of get_flow that records a number not yet a key of .flows *)
Definition st_rec (st : fstate) (n : Z) (cnt : option Z) : fstate :=
  {| f_counter := cnt; f_flows := f_flows st ++ [n];
     f_pending := f_pending st ++ [n]; f_db := f_db st |}.

Lemma used_rec st n cnt x : In x (used (st_rec st n cnt)) <-> In x (used st) \/ n = x.
Proof. unfold used, st_rec. cbn. rewrite !in_app_iff. cbn. tauto. Qed.

Lemma flows_rec st n cnt x : In x (f_flows (st_rec st n cnt)) <-> In x (f_flows st) \/ n = x.
Proof. unfold st_rec. cbn. rewrite in_app_iff. cbn. tauto. Qed.

Lemma st_rec_keeps st n cnt :
  Inv st ->
  (forall c, cnt = Some c -> forall r, In r (used st) -> r <= c \/ In r (f_flows st)) ->
  keeps st (st_rec st n cnt) [n].
Proof.
  intros [H1 H2] Hc. split; [constructor|split].
  - intros x Hx. apply flows_rec in Hx. apply used_rec. destruct Hx as [Hx|Hx]; auto.
  - intros c Ec r Hr. apply used_rec in Hr. rewrite flows_rec.
    destruct Hr as [Hr|Hr]; [|auto]. destruct (Hc c Ec r Hr); auto.
  - intros x Hx. apply used_rec. auto.
  - intros x [<-|[]]. apply used_rec. auto.
Qed.

Lemma get_flow_given st n st' r :
  get_flow st (Some n) = (st', r) -> Inv st -> r = RNum n /\ keeps st st' [n].
Proof.
  unfold get_flow. destruct (zmem n (f_flows st)) eqn:E; intros [= <- <-] Hi; (split; [reflexivity|]).
  - apply zmem_In in E. destruct Hi as [H1 H2]. split; [constructor; assumption|].
    split; [intros x Hx; exact Hx|]. intros x [<-|[]]. exact (H1 _ E).
  - apply (st_rec_keeps st n (f_counter st) Hi). exact (inv_counter _ Hi).
Qed.

Lemma get_flow_new st st' r :
  get_flow st None = (st', r) -> Inv st ->
  match r with
  | RNum n => ~ In n (used st) /\ keeps st st' [n]
  | RTypeError => f_counter st = None /\ st' = st
  | ROutOfFuel => False
  end.
Proof.
  unfold get_flow. destruct (f_counter st) as [c|] eqn:Ec.
  - destruct (next_free (S (length (f_flows st))) (c + 1) (f_flows st)) as [n|] eqn:En.
    + destruct (next_free_spec _ _ _ _ En) as [Hc Hn].
      rewrite (proj2 (zmem_false n (f_flows st)) Hn). intros [= <- <-] Hi. split.
      * intros Hu. destruct (inv_counter _ Hi c Ec n Hu); [lia|contradiction].
      * apply (st_rec_keeps st n (Some n) Hi).
        intros c' [= <-] r Hr. destruct (inv_counter _ Hi c Ec r Hr); [left; lia|auto].
    + destruct (next_free_total _ _ En).
  - intros [= <- <-] _. auto.
Qed.

Lemma flush_keeps st : Inv st -> keeps st (flush st) [].
Proof.
  intros [H1 H2]. unfold keeps, flush, used, grows, incl in *. cbn. repeat split; cbn.
  - intros x Hx. apply H1 in Hx. apply zunion_In. apply in_app_iff in Hx. tauto.
  - intros c Hc r Hr. apply zunion_In in Hr. apply (H2 c Hc). apply in_app_iff. tauto.
  - intros x Hx. apply zunion_In. apply in_app_iff in Hx. tauto.
  - intros x [].
Qed.

Lemma restart_keeps st sel : Inv st -> keeps st (restart st sel) [].
Proof.
  intros [H1 H2]. unfold keeps, restart, used, grows, incl in *. cbn. repeat split; cbn.
  - intros x Hx. apply filter_In in Hx. tauto.
  - intros c Hc r Hr. left. eapply zmax_list_ge; eauto.
  - intros x Hx. apply zunion_In. apply in_app_iff in Hx. tauto.
  - intros x [].
Qed.

Lemma get_flow_given_res st n : snd (get_flow st (Some n)) = RNum n.
Proof. unfold get_flow. destruct (zmem n (f_flows st)); reflexivity. Qed.

Lemma get_all_res : forall l st acc st' res, get_all st l acc = (st', res) -> res = acc ++ l.
Proof.
  induction l as [|n r IH]; intros st acc st' res; cbn [get_all].
  - intros [= _ <-]. now rewrite app_nil_r.
  - pose proof (get_flow_given_res st n) as H. destruct (get_flow st (Some n)) as [st1 r1]. cbn in H. subst r1.
    intros E. apply IH in E. rewrite E, <- app_assoc. reflexivity.
Qed.

Lemma get_all_keeps : forall l st acc st' res,
  get_all st l acc = (st', res) -> Inv st -> keeps st st' l.
Proof.
  induction l as [|n r IH]; intros st acc st' res; cbn [get_all].
  - intros [= <- _] Hi. apply keeps_refl, Hi.
  - destruct (get_flow st (Some n)) as [st1 r1] eqn:E. intros H Hi.
    destruct (get_flow_given _ _ _ _ E Hi) as (-> & K1).
    exact (keeps_trans _ _ _ _ _ K1 (IH _ _ _ _ H (proj1 K1))).
Qed.

Definition obs_nums (o : fobs) : list Z := match o with ObNums l => l | _ => [] end.

Definition is_new (o : fop) : bool :=
  match o with OGet None => true | OCli CNew => true | _ => false end.

(* get_flow() and --flow=new are the same call *)
Lemma fstep_new st o : is_new o = true -> fstep st o = fstep st (OGet None).
Proof. destruct o as [[n|]|[| |l]| |sel]; try discriminate; reflexivity. Qed.

Lemma fstep_get_new_keeps st st' ob :
  fstep st (OGet None) = (st', ob) -> Inv st -> keeps st st' (obs_nums ob) /\ ob <> ObFuel.
Proof.
  cbn [fstep]. destruct (get_flow st None) as [st1 r] eqn:E. intros [= <- <-] Hi.
  pose proof (get_flow_new _ _ _ E Hi) as H. destruct r as [n| |]; [| |destruct H].
  - split; [apply H|discriminate].
  - destruct H as [_ ->]. split; [apply keeps_refl, Hi|discriminate].
Qed.

Lemma fstep_keeps st o st' ob :
  fstep st o = (st', ob) -> Inv st -> keeps st st' (obs_nums ob) /\ ob <> ObFuel.
Proof.
  destruct o as [[n|]|[| |l]| |sel]; [|apply fstep_get_new_keeps| |apply fstep_get_new_keeps|..];
    cbn [fstep].
  - destruct (get_flow st (Some n)) as [st1 r] eqn:E. intros [= <- <-] Hi.
    destruct (get_flow_given _ _ _ _ E Hi) as (-> & K). split; [exact K|discriminate].
  - intros [= <- <-] Hi. split; [apply keeps_refl, Hi|discriminate].
  - destruct (get_all st l []) as [st1 res] eqn:E. intros [= <- <-] Hi. split; [|discriminate].
    rewrite (get_all_res _ _ _ _ _ E). apply (keeps_incl _ _ l); [exact (get_all_keeps _ _ _ _ _ E Hi)|].
    intros x Hx. exact (proj1 (In_zsorted x l) Hx).
  - intros [= <- <-] Hi. split; [apply flush_keeps, Hi|discriminate].
  - intros [= <- <-] Hi. split; [apply restart_keeps, Hi|discriminate].
Qed.

(* THE freshness step: a number handed out for a new flow is not recorded anywhere *)
Lemma fstep_new_fresh st o st' n :
  is_new o = true -> fstep st o = (st', ObNums [n]) -> Inv st -> ~ In n (used st).
Proof.
  intros Hn. rewrite (fstep_new st o Hn). cbn [fstep].
  destruct (get_flow st None) as [st1 r] eqn:E. intros H Hi.
  pose proof (get_flow_new _ _ _ E Hi) as G. destruct r as [k| |]; try discriminate.
  injection H as <- <-. apply G.
Qed.

Lemma frun_keeps : forall ops st st' obs,
  frun st ops = (st', obs) -> Inv st -> keeps st st' (flat_map obs_nums obs) /\ ~ In ObFuel obs.
Proof.
  induction ops as [|o r IH]; intros st st' obs; cbn [frun].
  - intros [= <- <-] Hi. split; [apply keeps_refl, Hi|intros []].
  - destruct (fstep st o) as [st1 ob] eqn:Es. destruct (frun st1 r) as [st2 obs2] eqn:Er.
    intros [= <- <-] Hi.
    destruct (fstep_keeps _ _ _ _ Es Hi) as (K1 & F1).
    destruct (IH _ _ _ Er (proj1 K1)) as (K2 & F2).
    split; [exact (keeps_trans _ _ _ _ _ K1 K2)|]. intros [H|H]; auto.
Qed.

Lemma frun_app : forall a b st,
  frun st (a ++ b) =
    let (st1, o1) := frun st a in let (st2, o2) := frun st1 b in (st2, o1 ++ o2).
Proof.
  induction a as [|o r IH]; intros b st; cbn [frun app].
  - destruct (frun st b). reflexivity.
  - destruct (fstep st o) as [st1 ob]. rewrite IH.
    destruct (frun st1 r) as [st2 o2]. destruct (frun st2 b) as [st3 o3]. reflexivity.
Qed.

Lemma flow_union_In mine other x : In x (flow_union mine other) <-> In x mine \/ In x other.
Proof. unfold flow_union. rewrite In_zsorted, in_app_iff. tauto. Qed.
