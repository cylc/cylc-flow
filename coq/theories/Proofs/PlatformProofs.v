(* Proofs/PlatformProofs.v — lemmas about Model/Platform.v, for any pattern matchers and any
   host selection: a lookup returns the [last_defined] matching platform; a group member is
   [usable] when its platform has a host outside the bad set. *)
From Coq Require Import List Bool PeanoNat.
From Cylc Require Import Base.Util Model.Platform.
Import ListNotations.

Lemma is_bad_In bad h : is_bad bad h = true <-> In h bad.
Proof. apply mem_nat_In. Qed.

Lemma is_bad_false bad h : is_bad bad h = false <-> ~ In h bad.
Proof. apply mem_nat_false. Qed.

Lemma good_hosts_In bad hosts h :
  In h (good_hosts bad hosts) <-> In h hosts /\ ~ In h bad.
Proof.
  unfold good_hosts. rewrite filter_In, negb_true_iff, is_bad_false. reflexivity.
Qed.

Lemma good_hosts_nil bad hosts :
  good_hosts bad hosts = [] <-> (forall h, In h hosts -> In h bad).
Proof.
  split.
  - intros E h Hh. destruct (is_bad bad h) eqn:B; [now apply is_bad_In|].
    assert (In h (good_hosts bad hosts)) by (apply good_hosts_In; split; [auto|now apply is_bad_false]).
    rewrite E in H. destruct H.
  - intros H. destruct (good_hosts bad hosts) as [|x l] eqn:E; [reflexivity|].
    assert (Hx : In x (good_hosts bad hosts)) by (rewrite E; now left).
    apply good_hosts_In in Hx. destruct Hx as [H1 H2]. elim H2. auto.
Qed.

Lemma all_bad_spec bad hosts :
  if all_bad bad hosts then forall h, In h hosts -> In h bad
  else exists h, In h hosts /\ ~ In h bad.
Proof.
  unfold all_bad. induction hosts as [|x l IH]; cbn; [intros ? []|].
  destruct (is_bad bad x) eqn:B; cbn.
  - revert IH. destruct (forallb (is_bad bad) l); intros IH.
    + intros h [<-|H]; [now apply is_bad_In|auto].
    + destruct IH as (h & H1 & H2). eauto.
  - exists x. split; [now left|now apply is_bad_false].
Qed.

Lemma find_rev_last {A} (f : A -> bool) l x :
  find f (rev l) = Some x <->
  exists pre post, l = pre ++ x :: post /\ f x = true /\ forall y, In y post -> f y = false.
Proof.
  split.
  - intros H. destruct (find_first _ _ _ H) as (a & b & E & Hx & Ha).
    exists (rev b), (rev a). split.
    + rewrite <- (rev_involutive l), E, rev_app_distr. cbn. now rewrite <- app_assoc.
    + split; [exact Hx|]. intros y Hy. apply Ha. apply (proj2 (in_rev a y)). exact Hy.
  - intros (pre & post & -> & Hx & Hp). rewrite rev_app_distr. cbn. rewrite <- app_assoc.
    rewrite find_app, (proj2 (find_none_iff f (rev post))); [cbn; now rewrite Hx|].
    intros y Hy. apply Hp. apply (proj2 (in_rev post y)). exact Hy.
Qed.

Lemma find_rev_none {A} (f : A -> bool) l :
  find f (rev l) = None <-> forall y, In y l -> f y = false.
Proof.
  rewrite find_none_iff. split; intros H y Hy; apply H; [apply (proj1 (in_rev l y)); exact Hy|apply (proj2 (in_rev l y)); exact Hy].
Qed.

Section Proofs.
  Variable pmatch gmatch : pat -> name -> bool.
  Variable clash : pat -> bool.
  Variable jobless : name -> bool.
  Variable local : pat.
  Variable local_name : name.

  Notation resolve := (resolve pmatch clash jobless local local_name).
  Notation last_match := (last_match pmatch).

  (* the platform pattern [d] is the last-defined one that matches [n] *)
  Definition last_defined (ps : list pdef) (n : name) (d : pdef) : Prop :=
    exists pre post, ps = pre ++ d :: post /\ pmatch (d_pat d) n = true /\
                     forall q, In q post -> pmatch (d_pat q) n = false.

  Lemma last_match_spec ps n d : last_match ps n = Some d <-> last_defined ps n d.
  Proof. unfold Platform.last_match, last_defined. exact (find_rev_last (fun d0 => pmatch (d_pat d0) n) ps d). Qed.

  Lemma last_match_none ps n :
    last_match ps n = None <-> forall q, In q ps -> pmatch (d_pat q) n = false.
  Proof. unfold Platform.last_match. exact (find_rev_none (fun d0 => pmatch (d_pat d0) n) ps). Qed.

  (* what a successful lookup returns *)
  Lemma resolve_ok ps n rp :
    resolve ps n = Ok rp ->
    (forall q, In q ps -> clash (d_pat q) = false) /\
    ((exists d, last_defined ps n d /\ rp = fill d n) \/
     ((forall q, In q ps -> pmatch (d_pat q) n = false) /\ jobless n = true /\ r_name rp = local_name)).
  Proof.
    unfold Platform.resolve. destruct (existsb (fun d => clash (d_pat d)) ps) eqn:Ec; [discriminate|].
    intros H. split; [exact (proj1 (existsb_false _ _) Ec)|].
    destruct (last_match ps n) as [d|] eqn:El.
    - inversion H; subst. left. exists d. split; [now apply last_match_spec|reflexivity].
    - right. split; [now apply last_match_none|].
      destruct (jobless n); [|discriminate]. split; [reflexivity|].
      destruct (find (fun d => Nat.eqb (d_pat d) local) ps); [|discriminate].
      inversion H; reflexivity.
  Qed.

  Lemma resolve_err ps n e : resolve ps n = Err e -> e = ELookup.
  Proof.
    unfold Platform.resolve. destruct (existsb _ ps); [congruence|].
    destruct (last_match ps n); [discriminate|]. destruct (jobless n); [|congruence].
    destruct (find _ ps); [discriminate|congruence].
  Qed.

  Lemma fill_hosts_nonempty d n : r_hosts (fill d n) <> [].
  Proof. unfold fill. cbn. destruct (d_hosts d); discriminate. Qed.

  Section WithCfg.
    Variable cfg : config.
    Notation resolve_member := (resolve_member pmatch gmatch clash jobless local local_name cfg).
    Notation candidates := (candidates pmatch gmatch clash jobless local local_name cfg).
    Notation group_names := (group_names pmatch gmatch clash jobless local local_name cfg).
    Notation last_group := (last_group gmatch cfg).

    (* a member is usable when its platform has a host outside the bad set *)
    Definition usable (bad : list name) (m : name) : Prop :=
      exists rp h, resolve_member m = Ok rp /\ In h (r_hosts rp) /\ ~ In h bad.

    Lemma resolve_member_err m e : resolve_member m = Err e -> e = ELookup \/ e = ENested.
    Proof.
      unfold Platform.resolve_member. destruct (last_group m); [intros [= <-]; auto|].
      intros H. left. eapply resolve_err; eauto.
    Qed.

    (* a member none of whose hosts is usable; one that does not resolve never
       gets as far as the test *)
    Definition dead (bad : list name) (m : name) : bool :=
      match resolve_member m with Ok rp => all_bad bad (r_hosts rp) | Err _ => true end.

    Lemma dead_usable bad m : dead bad m = false <-> usable bad m.
    Proof.
      unfold dead, usable. destruct (resolve_member m) as [rp|e].
      - pose proof (all_bad_spec bad (r_hosts rp)) as Hb. destruct (all_bad bad (r_hosts rp)); split.
        + discriminate.
        + intros (rp' & h & [= <-] & Hh & Hn). elim Hn. auto.
        + intros _. destruct Hb as (h & Hb). eauto.
        + reflexivity.
      - split; [discriminate|]. intros (rp & h & [=] & _).
    Qed.

    (* when every member resolves, the comprehension is a filter *)
    Lemma candidates_filter bad ms l :
      candidates bad ms = Ok l ->
      (forall m, In m ms -> exists rp, resolve_member m = Ok rp) /\
      l = filter (fun m => negb (dead bad m)) ms.
    Proof.
      revert l; induction ms as [|m r IH]; cbn [Platform.candidates filter]; intros l.
      - intros [= <-]. split; [intros ? []|reflexivity].
      - unfold dead at 1. destruct (resolve_member m) as [rp|e] eqn:Er; cbn [bind]; [|discriminate].
        destruct (candidates bad r) as [l'|e]; cbn [bind]; [|discriminate].
        destruct (IH _ eq_refl) as [IH1 ->]. intros [= <-]. split.
        + intros x [<-|Hx]; eauto.
        + destruct (all_bad bad (r_hosts rp)); reflexivity.
    Qed.

    Lemma candidates_spec bad ms l :
      candidates bad ms = Ok l ->
      (forall m, In m ms -> exists rp, resolve_member m = Ok rp) /\
      (forall m, In m l <-> In m ms /\ usable bad m).
    Proof.
      intros H. apply candidates_filter in H. destruct H as [H1 ->]. split; [exact H1|].
      intros m. rewrite filter_In, negb_true_iff, dead_usable. reflexivity.
    Qed.

    Lemma candidates_err bad ms e : candidates bad ms = Err e -> e = ELookup \/ e = ENested.
    Proof.
      induction ms as [|m r IH]; cbn [Platform.candidates]; [discriminate|].
      destruct (resolve_member m) as [rp|e'] eqn:Er; cbn [bind].
      - destruct (candidates bad r) as [l'|e'']; cbn [bind]; [discriminate|].
        intros [= <-]. now apply IH.
      - intros [= <-]. eapply resolve_member_err; eauto.
    Qed.

    Lemma candidates_total bad ms :
      (forall m, In m ms -> exists rp, resolve_member m = Ok rp) ->
      exists l, candidates bad ms = Ok l.
    Proof.
      induction ms as [|m r IH]; cbn [Platform.candidates]; intros H; [eauto|].
      destruct (H m (or_introl eq_refl)) as [rp ->]. cbn [bind].
      destruct IH as [l ->]; [intros x Hx; apply H; now right|]. cbn [bind]. eauto.
    Qed.

    Lemma candidates_nil bad ms :
      candidates bad ms = Ok [] <->
      (forall m, In m ms -> exists rp, resolve_member m = Ok rp) /\ (forall m, In m ms -> ~ usable bad m).
    Proof.
      split.
      - intros H. destruct (candidates_spec _ _ _ H) as [H1 H2]. split; [exact H1|].
        intros m Hm Hu. apply (H2 m). auto.
      - intros [H1 H2]. destruct (candidates_total bad ms H1) as [[|x l] E]; [exact E|].
        destruct (candidates_spec _ _ _ E) as [_ H3]. destruct (H2 x); apply (H3 x); now left.
    Qed.

    Section WithSelect.
      Variable select : list name -> name.
      Hypothesis select_in : forall l, l <> [] -> In (select l) l.

      Notation pick := (pick select).
      Notation get_host := (get_host select).
      Notation from_group := (from_group pmatch gmatch clash jobless local local_name cfg select).
      Notation from_name := (from_name pmatch gmatch clash jobless local local_name cfg select).

      Lemma pick_in m l h : l <> [] -> pick m l = Ok h -> In h l.
      Proof.
        intros Hl. destruct m; cbn; intros [= <-].
        - destruct l; [congruence|now left].
        - now apply select_in.
      Qed.

      Lemma pick_err m l e : pick m l = Err e -> e = ECylc /\ m = Other.
      Proof. destruct m; cbn; intros [= <-]; auto. Qed.

      (* the deterministic answer is one of the allowed answers *)
      Lemma get_host_allowed rp bad :
        host_ok (host_allowed rp bad) (get_host rp bad) = true.
      Proof.
        unfold host_allowed, Platform.get_host.
        destruct (good_hosts bad (r_hosts rp)) as [|x l]; [reflexivity|].
        destruct (r_method rp); cbn [Platform.pick pick_allowed host_ok].
        - cbn. now rewrite Nat.eqb_refl.
        - apply (proj2 (mem_nat_In _ _)). apply select_in. discriminate.
        - reflexivity.
      Qed.

      Lemma group_names_ok g bad l :
        group_names g bad = Ok l ->
        l <> [] /\ (forall m, In m l -> In m (g_members g)) /\
        (bad <> [] -> forall m, In m l -> usable bad m).
      Proof.
        unfold Platform.group_names. destruct bad as [|b bad'].
        - destruct (g_members g) as [|m r] eqn:E; [discriminate|]. intros [= <-].
          split; [discriminate|]. split; [auto|congruence].
        - destruct (candidates (b :: bad') (g_members g)) as [l'|e] eqn:Ec; cbn [bind]; [|discriminate].
          destruct l' as [|x l'']; [discriminate|]. intros [= <-].
          destruct (candidates_spec _ _ _ Ec) as [_ H2].
          split; [discriminate|]. split; intros; apply H2; auto.
      Qed.

      Lemma from_group_noplatforms g bad :
        from_group g bad = Err ENoPlatforms <->
        (bad = [] /\ g_members g = []) \/
        (bad <> [] /\ (forall m, In m (g_members g) -> exists rp, resolve_member m = Ok rp) /\
         forall m, In m (g_members g) -> ~ usable bad m).
      Proof.
        unfold Platform.from_group, Platform.group_names. destruct bad as [|b bad'].
        - destruct (g_members g) as [|m r]; cbn [bind].
          + split; [intros _; left; auto|reflexivity].
          + split.
            * intros H. apply pick_err in H. destruct H; discriminate.
            * intros [[_ H]|[H _]]; congruence.
        - (* the error means that the comprehension gave the empty list *)
          transitivity (candidates (b :: bad') (g_members g) = Ok []).
          + destruct (candidates (b :: bad') (g_members g)) as [[|x l]|e] eqn:Ec; cbn [bind].
            * split; reflexivity.
            * split; [|discriminate]. intros H. apply pick_err in H. destruct H; discriminate.
            * split; [|discriminate]. intros [= ->]. apply candidates_err in Ec. destruct Ec; discriminate.
          + eapply iff_trans; [apply candidates_nil|]. split.
            * intros H. right. split; [discriminate|exact H].
            * intros [[H _]|[_ H]]; [discriminate|exact H].
      Qed.

      Lemma from_name_allowed_ok n bad :
        In (from_name n bad)
           (from_name_allowed pmatch gmatch clash jobless local local_name cfg n bad).
      Proof.
        unfold Platform.from_name, from_name_allowed, Platform.from_group.
        destruct (last_group n) as [g|]; [|now left].
        destruct (group_names g bad) as [l|e] eqn:Eg; cbn [bind]; [|now left].
        destruct (group_names_ok _ _ _ Eg) as (Hne & _ & _).
        destruct (g_method g); cbn [Platform.pick pick_allowed bind].
        - destruct l as [|x l]; [congruence|]. cbn. now left.
        - apply in_map. now apply select_in.
        - now left.
      Qed.
    End WithSelect.
  End WithCfg.
End Proofs.
