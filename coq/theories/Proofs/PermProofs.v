(* Proofs/PermProofs.v — the start-up sequences of Model/Perm.v run from an
   arbitrary initial state: what they leave of the private files; the database
   sequence leaves the keys alone, and both leave the umask as found. *)
From Coq Require Import List ZArith Bool.
From Cylc Require Import Base.Util Gen.PermConsts Model.Perm.
Import ListNotations.
Open Scope Z_scope.

(* a file created under a umask that denies all group/other bits has none,
   whatever mode the creating call asked for *)
Lemma open_masked : forall u req,
  Z.land u go_bits = go_bits -> Z.land (mode_after_open u req) go_bits = 0.
Proof.
  intros u req H. unfold mode_after_open. apply Z.bits_inj'. intros n Hn.
  rewrite !Z.land_spec, Z.lnot_spec, Z.bits_0 by exact Hn.
  assert (E : Z.testbit (Z.land u go_bits) n = Z.testbit go_bits n) by (rewrite H; reflexivity).
  rewrite Z.land_spec in E.
  destruct (Z.testbit go_bits n), (Z.testbit u n), (Z.testbit req n); cbn in *; congruence.
Qed.

Lemma key_umask_covers_go : Z.land KEY_UMASK go_bits = go_bits.
Proof. reflexivity. Qed.

Lemma perm_private_owner_only : Z.land PERM_PRIVATE go_bits = 0.
Proof. reflexivity. Qed.

Lemma mkstemp_owner_only : Z.land 384 go_bits = 0.
Proof. reflexivity. Qed.

Lemma key_open_private : forall req, Z.land (mode_after_open KEY_UMASK req) go_bits = 0.
Proof. intros req. apply open_masked. exact key_umask_covers_go. Qed.

(* run the sequence on a destructed initial state, leaving the mode arithmetic folded *)
Ltac crunch := cbv -[mode_after_open Z.land go_bits].

(* the witness is the mode the run left; it is PERM_PRIVATE or a mode created under KEY_UMASK *)
Ltac finish :=
  eexists; split; [reflexivity|];
  first [ exact perm_private_owner_only | apply key_open_private ].

(* Keys: whatever was there before and whatever the umask, both private keys
   exist afterwards and carry no group/other bit. *)
Lemma keys_private : forall s0 req_py f,
  f = SrvSec \/ f = CliSec ->
  exists m, modes (run (keys_seq req_py) s0) f = Some m /\ Z.land m go_bits = 0.
Proof.
  intros [[a1 a2 a3 a4 a5 a6 a7] u0 su0 sm0] req_py f [-> | ->]; crunch; finish.
Qed.

(* Private DB: fresh start or restart, whatever mode it had or sqlite asks for.  The
   sequence inspects only DbPri and DbPub before overwriting them: split on whether
   those two exist, then everything computes. *)
Lemma db_private : forall s0 is_restart req_db req_py,
  exists m, modes (run (db_seq is_restart req_db req_py) s0) DbPri = Some m /\
            Z.land m go_bits = 0.
Proof.
  intros [[[a1|] [a2|] a3 a4 a5 a6 a7] u0 su0 sm0] [|] req_db req_py; crunch; finish.
Qed.

(* the DB sequence does not touch the keys *)
Lemma db_seq_frame : forall s0 is_restart req_db req_py f,
  f = SrvSec \/ f = CliSec ->
  modes (run (db_seq is_restart req_db req_py) s0) f = modes s0 f.
Proof.
  intros [[[a1|] [a2|] a3 a4 a5 a6 a7] u0 su0 sm0] [|] req_db req_py f [-> | ->]; crunch; reflexivity.
Qed.

Lemma run_app : forall a b s, run (a ++ b) s = run b (run a s).
Proof. intros a b s. unfold run. apply fold_left_app. Qed.

Lemma keys_umask : forall s0 req_py, umask (run (keys_seq req_py) s0) = umask s0.
Proof. intros [[a1 a2 a3 a4 a5 a6 a7] u0 su0 sm0] req_py; crunch; reflexivity. Qed.

Lemma db_umask : forall s0 is_restart req_db req_py,
  umask (run (db_seq is_restart req_db req_py) s0) = umask s0.
Proof.
  intros [[[a1|] [a2|] a3 a4 a5 a6 a7] u0 su0 sm0] [|] req_db req_py; crunch; reflexivity.
Qed.

Definition fresh : list (option Z) := [].
Definition loose : list (option Z) :=   (* everything pre-exists world-accessible *)
  [Some 511; Some 511; Some 511; Some 511; Some 511; Some 511].
