(* Lemmas about Model/Id.v (C23): what the parsers return on the strings that
   detokenise prints, one equation for detokenise ([detok_spec]), the round trip
   [detok_tok] from [valid_tokens] to their canonical tokens [canon], and the
   two legacy forms. *)
From Coq Require Import List ZArith Bool Lia.
From Cylc Require Import Base.Util Model.Id.
Import ListNotations.
Open Scope Z_scope.

Lemma codes_eqb_eq a b : codes_eqb a b = true <-> a = b.
Proof. apply list_eqb_spec. intros x y. apply Z.eqb_eq. Qed.

Definition stops (p : Z -> bool) (r : codes) : Prop :=
  match r with [] => True | c :: _ => p c = false end.

Lemma span_app p a r :
  forallb p a = true -> stops p r -> span p (a ++ r) = (a, r).
Proof.
  intros Ha Hr. induction a as [|c a IH]; cbn [app].
  - destruct r as [|d r]; [reflexivity|]. cbn in *. now rewrite Hr.
  - cbn in Ha. apply andb_true_iff in Ha. destruct Ha as [Hc Ha].
    cbn [span]. rewrite Hc, (IH Ha). reflexivity.
Qed.

Lemma span_spec p s :
  let (a, b) := span p s in s = a ++ b /\ forallb p a = true /\ stops p b.
Proof.
  induction s as [|c s IH]; cbn [span]; [now repeat split|].
  destruct (p c) eqn:Ec; [|now repeat split].
  destruct (span p s) as [a b]. destruct IH as (-> & Ha & Hb). cbn. now rewrite Ec, Ha.
Qed.

Lemma span_all p a : forallb p a = true -> span p a = (a, []).
Proof. intros H. rewrite <- (app_nil_r a) at 1. now apply span_app. Qed.

Lemma forallb_rev {A} (p : A -> bool) l : forallb p (rev l) = forallb p l.
Proof.
  induction l as [|x l IH]; [reflexivity|]. cbn. rewrite forallb_app, IH. cbn.
  rewrite andb_true_r. apply andb_comm.
Qed.

Lemma nonempty_true s : nonempty s = true <-> s <> [].
Proof. destruct s; cbn; split; congruence. Qed.

Lemma c_sel_spec c :
  c_sel c = true <-> (c =? 47) = false /\ (c =? 58) = false /\ (c =? 10) = false.
Proof.
  unfold c_sel. split.
  - intros H. apply negb_true_iff in H.
    apply orb_false_elim in H. destruct H as [H H3]. apply orb_false_elim in H. tauto.
  - intros (-> & -> & ->). reflexivity.
Qed.
Lemma c_user_spec c : c_user c = true <-> c_sel c = true /\ (c =? 126) = false.
Proof.
  unfold c_user, c_sel. rewrite negb_orb. split.
  - intros H. apply andb_prop in H. destruct H as [H1 H2]. now apply negb_true_iff in H2.
  - intros [-> ->]. reflexivity.
Qed.

Lemma c_user_sel c : c_user c = true -> c_sel c = true.
Proof. intros H. now apply c_user_spec in H. Qed.
Lemma c_user_cyc c : c_user c = true -> c_cyc c = true.
Proof.
  intros H. apply c_user_spec in H. destruct H as [H H4]. apply c_sel_spec in H.
  destruct H as (H1 & _ & H3). unfold c_cyc. now rewrite H1, H3, H4.
Qed.
Lemma c_sel_not_slash c : c_sel c = true -> not_slash c = true.
Proof. intros H. apply c_sel_spec in H. unfold not_slash. now destruct H as (-> & _). Qed.
Lemma c_sel_not_colon c : c_sel c = true -> not_colon c = true.
Proof. intros H. apply c_sel_spec in H. unfold not_colon. now destruct H as (_ & -> & _). Qed.
Lemma c_sel_not_nl c : c_sel c = true -> negb (c =? 10) = true.
Proof. intros H. apply c_sel_spec in H. now destruct H as (_ & _ & ->). Qed.
Lemma c_user_not_colon c : c_user c = true -> not_colon c = true.
Proof. intros H. now apply c_sel_not_colon, c_user_sel. Qed.
Lemma l_cyc_user c : l_cyc c = true -> c_user c = true.
Proof. unfold l_cyc. intros H. apply andb_true_iff in H. tauto. Qed.
Lemma l_cyc_not_dot c : l_cyc c = true -> not_dot c = true.
Proof. unfold l_cyc, not_dot. intros H. apply andb_true_iff in H. tauto. Qed.
Lemma digit_sel c : is_ascii_digit c = true -> c_sel c = true.
Proof.
  unfold is_ascii_digit. intros H. apply andb_true_iff in H. destruct H as [H1 H2].
  apply Z.leb_le in H1, H2. apply c_sel_spec. repeat split; apply Z.eqb_neq; lia.
Qed.

Definition nonl (s : codes) : bool := forallb (fun c => negb (c =? 10)) s.
Lemma c_sel_nonl s : forallb c_sel s = true -> nonl s = true.
Proof. apply forallb_impl, c_sel_not_nl. Qed.
Lemma c_user_nonl s : forallb c_user s = true -> nonl s = true.
Proof. intros H. apply c_sel_nonl, (forallb_impl c_user c_sel _ c_user_sel H). Qed.
Lemma nonl_app a b : nonl (a ++ b) = nonl a && nonl b.
Proof. apply forallb_app. Qed.
Lemma nonl_cons x l : nonl (x :: l) = negb (x =? 10) && nonl l.
Proof. reflexivity. Qed.

Lemma nonl_last s : nonl s = true -> last_is 10 s = false.
Proof.
  unfold last_is, nonl. rewrite <- forallb_rev. destruct (rev s) as [|x r]; [reflexivity|].
  cbn. intros H. apply andb_true_iff in H. destruct H as [H _].
  now apply negb_true_iff in H.
Qed.

Lemma drop_nl_id s : nonl s = true -> drop_nl s = s.
Proof. intros H. unfold drop_nl. now rewrite (nonl_last _ H). Qed.

Section Strip.
  Variable is_space : Z -> bool.

  (* non-empty, no white space at either end *)
  Definition edges_ok (v : codes) : bool :=
    match v with
    | [] => false
    | c :: _ => negb (is_space c) && negb (is_space (last v 0))
    end.

  Lemma rev_last (v : codes) : v <> [] -> exists r, rev v = last v 0 :: r.
  Proof.
    intros H. destruct (exists_last H) as (l & x & ->).
    rewrite rev_app_distr, last_last. cbn. eauto.
  Qed.

  Lemma strip_id v : edges_ok v = true -> strip is_space v = v.
  Proof.
    unfold edges_ok, strip. destruct v as [|c r]; [discriminate|].
    intros H. apply andb_true_iff in H. destruct H as [H1 H2].
    apply negb_true_iff in H1. apply negb_true_iff in H2.
    cbn [lstrip]. rewrite H1.
    destruct (rev_last (c :: r)) as [r' Hr]; [discriminate|].
    rewrite Hr. cbn [lstrip]. rewrite H2. rewrite <- Hr. apply rev_involutive.
  Qed.

  Lemma edges_ok_nonempty v : edges_ok v = true -> v <> [].
  Proof. destruct v; [discriminate|discriminate]. Qed.

  Lemma ostrip_id v : edges_ok v = true -> ostrip is_space (Some v) = Some v.
  Proof.
    intros H. unfold ostrip. destruct v as [|c r]; [discriminate|]. now rewrite strip_id.
  Qed.
End Strip.

Definition keep (sel : bool) (s : option codes) : option codes := if sel then s else None.
Definition optsel (s : option codes) : codes :=
  match s with Some v => 58 :: v | None => [] end.

(* an optional selector that is absent or a valid [^\/:\n]+ *)
Definition ok_osel (s : option codes) : Prop :=
  match s with None => True | Some v => v <> [] /\ forallb c_sel v = true end.

Lemma keep_ok sel s : ok_osel s -> ok_osel (keep sel s).
Proof. destruct sel; [auto|exact (fun _ => I)]. Qed.

Lemma with_sel_ok sel v s : ok_osel s -> with_sel sel v s = v ++ optsel (keep sel s).
Proof.
  unfold with_sel, keep. destruct sel; cbn [andb]; [|now rewrite app_nil_r].
  destruct s as [[|c r]|]; cbn; [intros [H _]; congruence|reflexivity|now rewrite app_nil_r].
Qed.

Lemma optsel_cls (p : Z -> bool) o :
  p 58 = true -> (forall c, c_sel c = true -> p c = true) -> ok_osel o ->
  forallb p (optsel o) = true.
Proof.
  intros H58 Hp. destruct o as [x|]; cbn; [|reflexivity]. intros [_ Hx].
  rewrite H58. apply (forallb_impl c_sel p _ Hp Hx).
Qed.

Lemma optsel_nonl o : ok_osel o -> nonl (optsel o) = true.
Proof. now apply optsel_cls; [|apply c_sel_not_nl]. Qed.

(* a printed segment name(:sel)? : non-empty, no "/", no newline *)
Definition seg_ok (x : codes) : Prop :=
  x <> [] /\ forallb not_slash x = true /\ nonl x = true.

Lemma seg_ok_print v o :
  v <> [] -> forallb c_sel v = true -> ok_osel o -> seg_ok (v ++ optsel o).
Proof.
  intros Hne Hv Ho. split; [|split].
  - intros E. apply app_eq_nil in E. tauto.
  - rewrite forallb_app, (forallb_impl c_sel not_slash _ c_sel_not_slash Hv).
    now apply optsel_cls; [|apply c_sel_not_slash|].
  - now rewrite nonl_app, (c_sel_nonl _ Hv), optsel_nonl.
Qed.

Lemma parse_namesel_print v o :
  v <> [] -> forallb c_sel v = true -> ok_osel o ->
  parse_namesel (v ++ optsel o) = Some (v, o).
Proof.
  intros Hne Hv Ho. unfold parse_namesel. apply nonempty_true in Hne.
  destruct o as [x|]; cbn [optsel].
  - destruct Ho as [Hx Hxc]. apply nonempty_true in Hx.
    rewrite (span_app c_sel v (58 :: x) Hv) by reflexivity.
    now rewrite Hne, Z.eqb_refl, Hx, Hxc.
  - now rewrite app_nil_r, (span_all _ _ Hv), Hne.
Qed.

(* a cycle without ":" : [^~\/:\n]+ *)
Lemma valid_cycle_re_user v : v <> [] -> forallb c_user v = true -> valid_cycle_re v = true.
Proof.
  destruct v as [|x r]; [congruence|]. intros _ H. cbn in H.
  apply andb_true_iff in H. destruct H as [H1 H2]. cbn. unfold c_cyc1. rewrite H1.
  apply (forallb_impl c_user c_cyc _ c_user_cyc H2).
Qed.

Lemma parse_cycle_print v o :
  v <> [] -> forallb c_user v = true -> ok_osel o ->
  parse_cycle (v ++ optsel o) = Some (v, o).
Proof.
  intros Hne Hv Ho. unfold parse_cycle.
  pose proof (valid_cycle_re_user v Hne Hv) as Hval.
  assert (Hnc : forallb not_colon (rev v) = true).
  { rewrite forallb_rev. apply (forallb_impl c_user not_colon _ c_user_not_colon Hv). }
  destruct o as [x|]; cbn [optsel].
  - destruct Ho as [Hx Hxc]. apply nonempty_true in Hx.
    rewrite rev_app_distr. cbn [rev]. rewrite <- app_assoc. cbn [app].
    rewrite (span_app not_colon (rev x) (58 :: rev v)).
    + now rewrite !rev_involutive, Hval, Hxc, Hx.
    + rewrite forallb_rev. apply (forallb_impl c_sel not_colon _ c_sel_not_colon Hxc).
    + reflexivity.
  - now rewrite app_nil_r, (span_all _ _ Hnc), Hval.
Qed.

(* cycle[/task[/job]] over any segments; [b] and [hj] say which are there *)
Lemma parse_rel_print (b hj : bool) C T J cy tk jb :
  seg_ok C -> parse_cycle C = Some cy ->
  (b = true -> seg_ok T /\ parse_namesel T = Some tk) ->
  (hj = true -> seg_ok J /\ parse_namesel J = Some jb) ->
  let body := C ++ (if b then 47 :: T ++ (if hj then 47 :: J else []) else []) in
  parse_rel body = Some (cy, if b then Some (tk, if hj then Some jb else None) else None)
  /\ nonl body = true.
Proof.
  intros (C1 & C2 & C3) PC HT HJ body. split.
  - subst body. unfold parse_rel.
    rewrite (span_app not_slash C _ C2) by now destruct b.
    rewrite PC. destruct b; [|reflexivity].
    destruct (HT eq_refl) as [(T1 & T2 & _) PT]. destruct T as [|x T']; [congruence|].
    rewrite (span_app not_slash (x :: T') _ T2) by now destruct hj.
    rewrite PT. destruct hj; [|reflexivity].
    destruct (HJ eq_refl) as [(J1 & J2 & _) PJ]. destruct J as [|y J']; [congruence|].
    now rewrite (span_all _ _ J2), PJ.
  - subst body. rewrite nonl_app, C3. destruct b; [|reflexivity].
    destruct (HT eq_refl) as [(_ & _ & T3) _]. rewrite nonl_cons, nonl_app, T3.
    destruct hj; [|reflexivity]. now destruct (HJ eq_refl) as [(_ & _ & J3) _].
Qed.

(* a relative part is not empty and does not start with "/" *)
Lemma parse_rel_head body r6 :
  parse_rel body = Some r6 -> exists c r, body = c :: r /\ (c =? 47) = false.
Proof.
  destruct body as [|c r]; [discriminate|]. intros H. exists c, r. split; [reflexivity|].
  destruct (c =? 47) eqn:E; [|reflexivity].
  unfold parse_rel in H. cbn [span] in H. unfold not_slash in H. rewrite E in H. discriminate H.
Qed.

(* the test wf_scan makes at [c] with [r] ahead ([wf_scan_step]) *)
Definition wf_at (c : Z) (r : codes) : bool :=
  c_wf c || (c =? 47) && match r with d :: _ => c_wf d | [] => false end.

Lemma wf_scan_step c r :
  wf_scan (c :: r) = if wf_at c r then let (a, b) := wf_scan r in (c :: a, b) else ([], c :: r).
Proof. reflexivity. Qed.

Definition wstops (r : codes) : Prop :=
  match r with [] => True | c :: r' => wf_at c r' = false end.

Lemma wf_scan_stop r : wstops r -> wf_scan r = ([], r).
Proof.
  destruct r as [|c r']; [reflexivity|]. cbn [wstops]. rewrite wf_scan_step.
  now intros ->.
Qed.

Lemma wf_scan_cons c W :
  wf_scan (c :: W) = (c :: W, []) -> wf_at c W = true /\ wf_scan W = (W, []).
Proof.
  rewrite wf_scan_step. destruct (wf_at c W); [|discriminate].
  destruct (wf_scan W) as [a b]. intros [= -> ->]. auto.
Qed.

(* a lookahead that succeeds inside the workflow does not see what follows it *)
Lemma wf_at_app c W r : wf_at c W = true -> wf_at c (W ++ r) = true.
Proof.
  destruct W; [|exact id]. unfold wf_at. rewrite andb_false_r, orb_false_r. now intros ->.
Qed.

Lemma wf_scan_app W : forall r,
  wf_scan W = (W, []) -> wstops r -> wf_scan (W ++ r) = (W, r).
Proof.
  induction W as [|c W IH]; intros r HW Hr; [now apply wf_scan_stop|].
  apply wf_scan_cons in HW. destruct HW as [Hc HW].
  cbn [app]. now rewrite wf_scan_step, (wf_at_app _ _ r Hc), (IH r HW Hr).
Qed.

(* seg(/seg)* with seg in [^/:\n~]+ *)
Definition wf_ok (w : codes) : Prop :=
  (match w with c :: _ => c_wf c = true | [] => False end) /\ wf_scan w = (w, []).

Lemma wf_ok_nonl w : wf_ok w -> nonl w = true.
Proof.
  intros [_ H]. induction w as [|c w IH]; [reflexivity|].
  apply wf_scan_cons in H. destruct H as [Hc H]. rewrite nonl_cons, (IH H), andb_true_r.
  apply orb_true_iff in Hc. destruct Hc as [E|E].
  - now apply c_sel_not_nl, c_user_sel.
  - apply andb_true_iff in E. destruct E as [E _]. apply Z.eqb_eq in E. now subst c.
Qed.

(* workflow[:sel], alone or followed by "//" and a relative part *)
Lemma parse_wf_print u W o (full : bool) body r6 :
  wf_ok W -> ok_osel o -> (full = true -> parse_rel body = Some r6) ->
  parse_wf u (W ++ optsel o ++ (if full then 47 :: 47 :: body else []))
  = Some (with_rel u (Some W) o (if full then Some r6 else None)).
Proof.
  intros [Hc HW] Ho Hp. destruct W as [|c W']; [destruct Hc|].
  unfold parse_wf. cbn [app]. rewrite Hc. cbn [negb].
  change (c :: W' ++ ?r) with ((c :: W') ++ r).
  rewrite (wf_scan_app _ _ HW).
  2:{ destruct o; [reflexivity|]. now destruct full. }
  destruct full.
  - specialize (Hp eq_refl). destruct (parse_rel_head _ _ Hp) as (b0 & b & -> & _).
    destruct o as [x|]; cbn [optsel app].
    + destruct Ho as [Hx Hxc]. apply nonempty_true in Hx.
      rewrite Z.eqb_refl, (span_app c_sel x (47 :: _) Hxc) by reflexivity.
      rewrite Hx. cbn [starts2 skipn Z.eqb andb]. now rewrite Hp.
    + cbn [Z.eqb starts2 skipn andb]. now rewrite Hp.
  - rewrite app_nil_r. destruct o as [x|]; cbn [optsel]; [|reflexivity]. destruct Ho as [Hx Hxc].
    apply nonempty_true in Hx. now rewrite Z.eqb_refl, (span_all _ _ Hxc), Hx.
Qed.

Lemma parse_univ_nouser c r :
  c_wf c = true -> parse_univ (c :: r) = parse_wf None (c :: r).
Proof.
  intros Hc. unfold parse_univ. replace (c =? 126) with false; [reflexivity|].
  symmetry. now apply c_user_spec in Hc.
Qed.

Lemma parse_univ_user U :
  U <> [] -> forallb c_user U = true ->
  parse_univ (126 :: U) = Some (with_rel (Some U) None None None).
Proof.
  intros Hne HU. unfold parse_univ. rewrite Z.eqb_refl, (span_all _ _ HU).
  apply nonempty_true in Hne. rewrite Hne. reflexivity.
Qed.

Lemma parse_univ_user_wf U rest :
  U <> [] -> forallb c_user U = true -> rest <> [] ->
  parse_univ (126 :: U ++ 47 :: rest) = parse_wf (Some U) rest.
Proof.
  intros Hne HU Hr. unfold parse_univ. rewrite Z.eqb_refl.
  rewrite (span_app c_user U (47 :: rest) HU) by reflexivity.
  apply nonempty_true in Hne. rewrite Hne. cbn [negb]. rewrite Z.eqb_refl.
  destruct rest; [congruence|reflexivity].
Qed.

Section Tokenise.
  Variable is_space : Z -> bool.

  Lemma tokenise_abs s t :
    nonl s = true -> parse_univ s = Some t ->
    tokenise is_space false s = Some (strip_tokens is_space t).
  Proof.
    intros Hn Hp. unfold tokenise. cbn [andb]. rewrite (drop_nl_id _ Hn), Hp. reflexivity.
  Qed.

  Lemma tokenise_rel_prefixed flag body r6 :
    nonl body = true -> parse_rel body = Some r6 ->
    tokenise is_space flag (47 :: 47 :: body)
    = Some (strip_tokens is_space (with_rel None None None (Some r6))).
  Proof.
    intros Hn Hp. unfold tokenise.
    replace (flag && negb (starts2 47 (47 :: 47 :: body))) with false
      by (cbn; now rewrite andb_false_r).
    rewrite drop_nl_id by (cbn; exact Hn).
    cbn [parse_univ parse_wf Z.eqb c_wf c_user negb orb]. cbn [starts2 Z.eqb andb skipn].
    rewrite Hp. reflexivity.
  Qed.

  Lemma tokenise_rel_bare body r6 :
    nonl body = true -> parse_rel body = Some r6 ->
    tokenise is_space true body
    = Some (strip_tokens is_space (with_rel None None None (Some r6))).
  Proof.
    intros Hn Hp. destruct (parse_rel_head _ _ Hp) as (c & b & -> & Hc).
    rewrite <- (tokenise_rel_prefixed true (c :: b) r6 Hn Hp).
    unfold tokenise. cbn [andb starts2]. destruct b as [|d b]; now rewrite ?Hc.
  Qed.
End Tokenise.

(* what formatting then re-parsing must give: gaps above the lowest token
   become "*", the job is zero padded, selectors survive only when asked for
   and only down to the lowest token *)
Definition canon (sel : bool) (t : tokens) : tokens :=
  let hu := truthy (user t) in let hw := truthy (workflow t) in
  let hc := truthy (cycle t) in let ht := truthy (task t) in let hj := truthy (job t) in
  let full := hc || ht || hj in
  let has_wf := (hu || hw) && (hw || full) in
  {| user := if hu then Some (val (user t)) else None;
     workflow := if has_wf then Some (val (workflow t)) else None;
     workflow_sel := if has_wf then keep sel (workflow_sel t) else None;
     cycle := if full then Some (val (cycle t)) else None;
     cycle_sel := if full then keep sel (cycle_sel t) else None;
     task := if ht || hj then Some (val (task t)) else None;
     task_sel := if ht || hj then keep sel (task_sel t) else None;
     job := if hj then fmt_job (val (job t)) else None;
     job_sel := if hj then keep sel (job_sel t) else None |}.

Definition is_abs (t : tokens) : bool := truthy (user t) || truthy (workflow t).
Definition is_full (t : tokens) : bool := truthy (cycle t) || truthy (task t) || truthy (job t).
Definition has_wf (t : tokens) : bool := is_abs t && (truthy (workflow t) || is_full t).

Definition jobfmt (t : tokens) : option codes :=
  if truthy (job t) then fmt_job (val (job t)) else Some [].

Definition upre (t : tokens) : codes :=
  if truthy (user t) then 126 :: val (user t) ++ [47] else [].
Definition uopt (t : tokens) : option codes :=
  if truthy (user t) then Some (val (user t)) else None.

Definition wpart (sel : bool) (t : tokens) : codes :=
  with_sel sel (val (workflow t)) (workflow_sel t).

Definition body_of (sel : bool) (t : tokens) (jv : codes) : codes :=
  with_sel sel (val (cycle t)) (cycle_sel t)
  ++ (if truthy (task t) || truthy (job t)
      then 47 :: with_sel sel (val (task t)) (task_sel t)
           ++ (if truthy (job t) then 47 :: with_sel sel jv (job_sel t) else [])
      else []).

Definition r6_of (sel : bool) (t : tokens) (jv : codes) : rel6 :=
  ((val (cycle t), keep sel (cycle_sel t)),
   if truthy (task t) || truthy (job t)
   then Some ((val (task t), keep sel (task_sel t)),
              if truthy (job t) then Some (jv, keep sel (job_sel t)) else None)
   else None).

(* the three shapes: [~user/]workflow[:sel][//body], ~user alone, and [//]body *)
Definition printed (sel rel : bool) (t : tokens) (jv : codes) : codes :=
  if is_abs t then
    if has_wf t
    then upre t ++ wpart sel t ++ (if is_full t then 47 :: 47 :: body_of sel t jv else [])
    else 126 :: val (user t)
  else (if rel then [] else [47; 47]) ++ body_of sel t jv.

Lemma user_only t :
  is_abs t = true -> has_wf t = false -> truthy (user t) = true /\ is_full t = false.
Proof.
  unfold has_wf. intros Ea Ew. rewrite Ea in Ew. apply orb_false_iff in Ew. destruct Ew as [Ew Ef].
  unfold is_abs in Ea. rewrite Ew, orb_false_r in Ea. auto.
Qed.

Lemma join_cons sep x y l : join_with sep (x :: y :: l) = x ++ sep :: join_with sep (y :: l).
Proof. reflexivity. Qed.

Lemma join_body (ht hj : bool) C T J :
  join_with 47 (C :: (if ht || hj then [T] else []) ++ (if hj then [J] else []))
  = C ++ (if ht || hj then 47 :: T ++ (if hj then 47 :: J else []) else []).
Proof. destruct ht, hj; cbn; rewrite ?app_nil_r; reflexivity. Qed.

Lemma detok_spec sel rel t :
  detokenise sel rel t =
  if is_abs t || is_full t then
    match jobfmt t with Some jv => DOk (printed sel rel t jv) | None => DBadJob end
  else DNoTokens.
Proof.
  unfold detokenise, printed, has_wf. rewrite <- !negb_orb.
  change (truthy (user t) || truthy (workflow t)) with (is_abs t).
  change (truthy (cycle t) || truthy (task t) || truthy (job t)) with (is_full t).
  change (if truthy (job t) then fmt_job (val (job t)) else Some []) with (jobfmt t).
  destruct (is_abs t) eqn:Ea, (is_full t); cbn [negb orb andb]; [| | |reflexivity];
    (destruct (jobfmt t) as [jv|]; [f_equal|reflexivity]).
  - rewrite !orb_true_r. unfold upre, wpart, body_of.
    destruct (truthy (user t)); cbn [app]; rewrite !join_cons, join_body, <- !app_assoc;
      reflexivity.
  - rewrite orb_false_r. unfold upre, wpart, is_abs in *.
    destruct (truthy (user t)), (truthy (workflow t)); try discriminate Ea; cbn;
      rewrite ?app_nil_r, <- ?app_assoc; reflexivity.
  - unfold body_of. destruct rel; cbn [app]; rewrite ?join_cons, join_body; reflexivity.
Qed.

Lemma detok_badjob sel rel t :
  truthy (user t) || truthy (workflow t) || truthy (cycle t) || truthy (task t)
  || truthy (job t) = true ->
  jobfmt t = None -> detokenise sel rel t = DBadJob.
Proof.
  intros Ha Hj. rewrite detok_spec, Hj. unfold is_abs, is_full. now rewrite !orb_assoc, Ha.
Qed.

Lemma canon_parsed sel t jv :
  jobfmt t = Some jv ->
  canon sel t =
  with_rel (uopt t) (if has_wf t then Some (val (workflow t)) else None)
           (if has_wf t then keep sel (workflow_sel t) else None)
           (if is_full t then Some (r6_of sel t jv) else None).
Proof.
  unfold jobfmt, canon. intros Hj.
  change ((truthy (user t) || truthy (workflow t))
          && (truthy (workflow t) || (truthy (cycle t) || truthy (task t) || truthy (job t))))
    with (has_wf t).
  change (truthy (cycle t) || truthy (task t) || truthy (job t)) with (is_full t).
  destruct (is_full t) eqn:Ef.
  - unfold with_rel, r6_of. destruct (truthy (job t)); [rewrite Hj|]; destruct (truthy (task t)); reflexivity.
  - apply orb_false_iff in Ef. destruct Ef as [Ef ->]. apply orb_false_iff in Ef.
    destruct Ef as [_ ->]. reflexivity.
Qed.

(* f'{n:02}' of the digits left after int() dropped the leading zeros *)
Definition pad2 (ds : codes) : codes :=
  match ds with [] => [48; 48] | [d] => [48; d] | d :: e :: r => d :: e :: r end.

Lemma fmt_job_digits v :
  v <> [] -> forallb is_ascii_digit v = true -> fmt_job v = Some (pad2 (drop_zeros v)).
Proof.
  intros Hne Hd. unfold fmt_job. destruct (codes_eqb v [78; 78]) eqn:E.
  - apply codes_eqb_eq in E. subst v. discriminate Hd.
  - apply nonempty_true in Hne. now rewrite Hne, Hd.
Qed.

Lemma drop_zeros_digits v :
  forallb is_ascii_digit v = true -> forallb is_ascii_digit (drop_zeros v) = true.
Proof.
  induction v as [|c r IH]; [auto|]. cbn [drop_zeros]. intros H.
  destruct (c =? 48); [|exact H]. cbn in H. apply andb_true_iff in H. now apply IH.
Qed.

Lemma drop_zeros_idem v : drop_zeros (drop_zeros v) = drop_zeros v.
Proof.
  induction v as [|c r IH]; [reflexivity|]. cbn [drop_zeros].
  destruct (c =? 48) eqn:E; [exact IH|]. cbn [drop_zeros]. now rewrite E.
Qed.

Lemma pad2_digits z :
  forallb is_ascii_digit z = true -> pad2 z <> [] /\ forallb is_ascii_digit (pad2 z) = true.
Proof. destruct z as [|d [|d' ds]]; cbn [pad2]; (split; [discriminate|]); auto. Qed.

(* padding only adds zeros in front *)
Lemma pad2_drop z : drop_zeros z = z -> drop_zeros (pad2 z) = z.
Proof.
  destruct z as [|d [|d' ds]]; cbn [pad2]; [reflexivity| |auto].
  intros H. exact H.
Qed.

Lemma fmt_job_some v jv :
  fmt_job v = Some jv ->
  jv = [78; 78] \/ forallb is_ascii_digit v = true /\ jv = pad2 (drop_zeros v).
Proof.
  unfold fmt_job. destruct (codes_eqb v [78; 78]) eqn:E.
  - apply codes_eqb_eq in E. subst v. intros [= <-]. now left.
  - destruct (nonempty v && forallb is_ascii_digit v) eqn:Ed; [|discriminate].
    apply andb_true_iff in Ed. intros [= <-]. right. split; [tauto|reflexivity].
Qed.

Lemma fmt_job_idem v jv : fmt_job v = Some jv -> fmt_job jv = Some jv /\ jv <> [].
Proof.
  intros H. destruct (fmt_job_some _ _ H) as [->|[Hd ->]]; [split; [reflexivity|discriminate]|].
  destruct (pad2_digits _ (drop_zeros_digits v Hd)) as [Hne Hp]. split; [|exact Hne].
  now rewrite (fmt_job_digits _ Hne Hp), (pad2_drop _ (drop_zeros_idem v)).
Qed.

Section Main.
  Variable is_space : Z -> bool.
  (* "*" and the ASCII digits are not white space *)
  Hypothesis Hstar : is_space 42 = false.
  Hypothesis Hdigit : forall c, is_ascii_digit c = true -> is_space c = false.

  (* Valid tokens: every present value is non-empty, has no white space at
     either end, and stays inside the character class of its field:
       user, cycle            [^/:\n~]+   (a cycle containing ":" is not valid: the
                                           regex admits one only through backtracking,
                                           and "//1:a" re-parses as cycle "1" + selector "a")
       workflow               [wf_ok]
       task, all selectors    [^/:\n]+
       job                    "NN" or ASCII digits *)
  Definition ok_field (cls : Z -> bool) (v : codes) : Prop :=
    edges_ok is_space v = true /\ forallb cls v = true.
  Definition ok_wfv (v : codes) : Prop := edges_ok is_space v = true /\ wf_ok v.
  Definition ok_jobv (v : codes) : Prop :=
    edges_ok is_space v = true /\ (v = [78; 78] \/ forallb is_ascii_digit v = true).
  Definition ok_opt (P : codes -> Prop) (o : option codes) : Prop :=
    match o with None => True | Some v => P v end.

  Record valid_tokens (t : tokens) : Prop := {
    v_user : ok_opt (ok_field c_user) (user t);
    v_wf : ok_opt ok_wfv (workflow t);
    v_wfs : ok_opt (ok_field c_sel) (workflow_sel t);
    v_cyc : ok_opt (ok_field c_user) (cycle t);
    v_cycs : ok_opt (ok_field c_sel) (cycle_sel t);
    v_task : ok_opt (ok_field c_sel) (task t);
    v_tasks : ok_opt (ok_field c_sel) (task_sel t);
    v_job : ok_opt ok_jobv (job t);
    v_jobs : ok_opt (ok_field c_sel) (job_sel t) }.

  Lemma star_edges : edges_ok is_space [42] = true.
  Proof. cbn. now rewrite Hstar. Qed.

  (* value-or-"*" of a valid optional field *)
  Lemma val_field cls o :
    cls 42 = true -> ok_opt (ok_field cls) o ->
    val o <> [] /\ forallb cls (val o) = true /\ edges_ok is_space (val o) = true.
  Proof.
    intros Hc. destruct o as [[|c r]|]; cbn [ok_opt val].
    - intros [H _]. discriminate H.
    - intros [H1 H2]. repeat split; auto. discriminate.
    - intros _. repeat split; [discriminate|cbn; now rewrite Hc|apply star_edges].
  Qed.

  Lemma val_wf o :
    ok_opt ok_wfv o -> wf_ok (val o) /\ edges_ok is_space (val o) = true.
  Proof.
    destruct o as [[|c r]|]; cbn [ok_opt val].
    - intros [H _]. discriminate H.
    - intros [H1 H2]. auto.
    - intros _. split; [split; reflexivity|apply star_edges].
  Qed.

  Lemma osel_field o : ok_opt (ok_field c_sel) o -> ok_osel o.
  Proof.
    destruct o as [v|]; cbn; [|auto]. intros [H1 H2]. split; [|exact H2].
    now apply (edges_ok_nonempty is_space).
  Qed.

  Lemma keep_edges sel o :
    ok_opt (ok_field c_sel) o -> ostrip is_space (keep sel o) = keep sel o.
  Proof.
    destruct sel; cbn [keep]; [|reflexivity]. destruct o as [v|]; cbn [ok_opt]; [|reflexivity].
    intros [H _]. now apply ostrip_id.
  Qed.

  Lemma truthy_some o v : truthy o = true -> val o = v -> o = Some v.
  Proof. destruct o as [[|c r]|]; cbn; try discriminate. now intros _ <-. Qed.

  Lemma digits_edges v :
    v <> [] -> forallb is_ascii_digit v = true -> edges_ok is_space v = true.
  Proof.
    intros Hne Hd. rewrite forallb_forall in Hd. unfold edges_ok.
    destruct v as [|c r]; [congruence|].
    rewrite (Hdigit c) by (apply Hd; now left).
    rewrite (Hdigit (last (c :: r) 0)); [reflexivity|].
    apply Hd. destruct (exists_last Hne) as (l & x & E). rewrite E, last_last.
    apply in_or_app. right. now left.
  Qed.

  Lemma fmt_job_ok v :
    ok_jobv v ->
    exists jv, fmt_job v = Some jv /\ jv <> [] /\ forallb c_sel jv = true
               /\ edges_ok is_space jv = true.
  Proof.
    intros [He [->|Hd]].
    - exists [78; 78]. repeat split; auto. discriminate.
    - pose proof (edges_ok_nonempty _ _ He) as Hne.
      destruct (pad2_digits _ (drop_zeros_digits v Hd)) as [Hp1 Hp2].
      exists (pad2 (drop_zeros v)). split; [now apply fmt_job_digits|]. split; [exact Hp1|].
      split; [apply (forallb_impl is_ascii_digit c_sel _ digit_sel Hp2)|now apply digits_edges].
  Qed.

  Lemma jobfmt_valid t :
    valid_tokens t ->
    exists jv, jobfmt t = Some jv /\
      (truthy (job t) = true ->
       jv <> [] /\ forallb c_sel jv = true /\ edges_ok is_space jv = true).
  Proof.
    intros V. unfold jobfmt. destruct (job t) as [[|c r]|] eqn:Ej; cbn [truthy val].
    - exists []. split; [reflexivity|discriminate].
    - pose proof (v_job t V) as Hj. rewrite Ej in Hj. cbn in Hj.
      destruct (fmt_job_ok _ Hj) as (jv & H1 & H2). exists jv. split; auto.
    - exists []. split; [reflexivity|discriminate].
  Qed.

  Lemma body_parse sel t jv :
    valid_tokens t ->
    (truthy (job t) = true -> jv <> [] /\ forallb c_sel jv = true) ->
    parse_rel (body_of sel t jv) = Some (r6_of sel t jv)
    /\ nonl (body_of sel t jv) = true.
  Proof.
    intros V Hjv.
    destruct (val_field c_user (cycle t) eq_refl (v_cyc t V)) as (Hc1 & Hc2 & _).
    destruct (val_field c_sel (task t) eq_refl (v_task t V)) as (Ht1 & Ht2 & _).
    pose proof (keep_ok sel _ (osel_field _ (v_cycs t V))) as Hcs.
    pose proof (keep_ok sel _ (osel_field _ (v_tasks t V))) as Hts.
    pose proof (keep_ok sel _ (osel_field _ (v_jobs t V))) as Hjs.
    unfold body_of, r6_of. rewrite !with_sel_ok by (apply osel_field, V).
    apply parse_rel_print.
    - apply seg_ok_print; [exact Hc1| |exact Hcs].
      apply (forallb_impl c_user c_sel _ c_user_sel Hc2).
    - now apply parse_cycle_print.
    - intros _. split; [now apply seg_ok_print|now apply parse_namesel_print].
    - intros Hj. destruct (Hjv Hj).
      split; [now apply seg_ok_print|now apply parse_namesel_print].
  Qed.

  Lemma ostrip_if (b : bool) o :
    (b = true -> ostrip is_space o = o) ->
    ostrip is_space (if b then o else None) = if b then o else None.
  Proof. destruct b; auto. Qed.

  Lemma strip_canon sel t :
    valid_tokens t -> strip_tokens is_space (canon sel t) = canon sel t.
  Proof.
    intros V. destruct (jobfmt_valid t V) as (jv & Hjf & Hjv). unfold jobfmt in Hjf.
    destruct (val_field c_user (user t) eq_refl (v_user t V)) as (_ & _ & Eu).
    destruct (val_wf _ (v_wf t V)) as (_ & Ew).
    destruct (val_field c_user (cycle t) eq_refl (v_cyc t V)) as (_ & _ & Ec).
    destruct (val_field c_sel (task t) eq_refl (v_task t V)) as (_ & _ & Et).
    unfold strip_tokens, canon.
    cbn [user workflow workflow_sel cycle cycle_sel task task_sel job job_sel].
    rewrite !ostrip_if; [reflexivity|..]; intros Hb;
      try first [apply ostrip_id; assumption | apply keep_edges; apply V].
    rewrite Hb in Hjf. rewrite Hjf. apply ostrip_id. now apply Hjv.
  Qed.

  Lemma upre_nonl t : valid_tokens t -> nonl (upre t) = true.
  Proof.
    intros V. unfold upre. destruct (truthy (user t)); [|reflexivity].
    destruct (val_field c_user (user t) eq_refl (v_user t V)) as (_ & H & _).
    now rewrite nonl_cons, nonl_app, (c_user_nonl _ H).
  Qed.

  Lemma parse_univ_pref t W rest :
    valid_tokens t -> wf_ok W ->
    parse_univ (upre t ++ W ++ rest) = parse_wf (uopt t) (W ++ rest).
  Proof.
    intros V [Hc _]. destruct W as [|c W']; [destruct Hc|].
    unfold upre, uopt. destruct (truthy (user t)).
    - destruct (val_field c_user (user t) eq_refl (v_user t V)) as (H1 & H2 & _).
      cbn [app]. rewrite <- app_assoc. cbn [app].
      apply parse_univ_user_wf; auto. discriminate.
    - exact (parse_univ_nouser c _ Hc).
  Qed.

  Theorem detok_tok sel rel t s :
    valid_tokens t -> detokenise sel rel t = DOk s ->
    tokenise is_space (rel && negb (truthy (user t) || truthy (workflow t))) s
    = Some (canon sel t).
  Proof.
    intros V Hd.
    destruct (jobfmt_valid t V) as (jv & Hjf & Hjv).
    rewrite detok_spec, Hjf in Hd.
    destruct (is_abs t || is_full t) eqn:E; [|discriminate Hd]. injection Hd as <-.
    destruct (val_wf _ (v_wf t V)) as (HW & _).
    pose proof (osel_field _ (v_wfs t V)) as Hws.
    destruct (body_parse sel t jv V) as (PB & NB).
    { intros H. destruct (Hjv H) as (A & B & _). auto. }
    (* the goal becomes: the printed string parses to [canon sel t] as a [with_rel] *)
    rewrite <- (strip_canon sel t V), (canon_parsed sel t jv Hjf).
    change (truthy (user t) || truthy (workflow t)) with (is_abs t).
    unfold printed, wpart. rewrite (with_sel_ok sel _ _ Hws).
    apply (keep_ok sel) in Hws.
    destruct (is_abs t) eqn:Ea; cbn [orb andb negb] in *.
    - rewrite andb_false_r.
      destruct (val_field c_user (user t) eq_refl (v_user t V)) as (U1 & U2 & _).
      destruct (has_wf t) eqn:Ew; apply tokenise_abs.
      + rewrite !nonl_app, (upre_nonl t V), (wf_ok_nonl _ HW), (optsel_nonl _ Hws).
        destruct (is_full t); [exact NB|reflexivity].
      + rewrite <- app_assoc, (parse_univ_pref t _ _ V HW). now apply parse_wf_print.
      + exact (c_user_nonl _ U2).
      + destruct (user_only t Ea Ew) as [Eu Ef]. unfold uopt. rewrite Eu, Ef.
        now apply parse_univ_user.
    - unfold has_wf, uopt. rewrite Ea, E. unfold is_abs in Ea. apply orb_false_iff in Ea.
      destruct Ea as [-> _]. rewrite andb_true_r. destruct rel; cbn [app].
      + now apply tokenise_rel_bare.
      + now apply tokenise_rel_prefixed.
  Qed.

  Lemma task_part_valid t : valid_tokens t -> valid_tokens (task_part t).
  Proof. intros V. destruct V. constructor; cbn; auto. Qed.
End Main.

Lemma task_part_canon sel t :
  is_full t = true -> task_part (canon sel t) = canon sel (task_part t).
Proof.
  unfold is_full. intros Hf. unfold task_part, canon.
  cbn [user workflow workflow_sel cycle cycle_sel task task_sel job job_sel truthy].
  cbn [orb andb]. reflexivity.
Qed.

Lemma truthy_ne (v : codes) : v <> [] -> truthy (Some v) = true.
Proof. destruct v; [congruence|reflexivity]. Qed.
Lemma val_ne (v : codes) : v <> [] -> val (Some v) = v.
Proof. destruct v; [congruence|reflexivity]. Qed.
Lemma truthy_val o : truthy (Some (val o)) = true.
Proof. destruct o as [[|c r]|]; reflexivity. Qed.
Lemma val_val o : val (Some (val o)) = val o.
Proof. destruct o as [[|c r]|]; reflexivity. Qed.
Lemma truthy_if (b : bool) o : truthy (if b then Some (val o) else None) = b.
Proof. destruct b; [apply truthy_val|reflexivity]. Qed.
Lemma with_sel_keep sel base s : with_sel sel base (keep sel s) = with_sel sel base s.
Proof. destruct sel; reflexivity. Qed.
Lemma with_sel_if sel v (b : bool) s :
  with_sel sel v (if b then keep sel s else None) = if b then with_sel sel v s else v.
Proof. destruct b; [apply with_sel_keep|]. unfold with_sel. now rewrite andb_false_r. Qed.

(* [canon sel t] has the flags of [t] closed downwards (a token above the lowest one
   is present) and the values [t] prints, so it prints as [t] does *)
Section Canon.
  Variables (sel : bool) (t : tokens) (jv : codes).
  Hypothesis Hjf : jobfmt t = Some jv.

  Lemma canon_job : job (canon sel t) = if truthy (job t) then Some jv else None.
  Proof.
    unfold jobfmt in Hjf. cbn [canon job]. destruct (truthy (job t)); [exact Hjf|reflexivity].
  Qed.

  Lemma canon_has_job : truthy (job (canon sel t)) = truthy (job t).
  Proof.
    rewrite canon_job. unfold jobfmt in Hjf. destruct (truthy (job t)); [|reflexivity].
    destruct (fmt_job_idem _ _ Hjf) as [_ Hne]. now apply truthy_ne.
  Qed.

  Lemma canon_jobfmt : jobfmt (canon sel t) = Some jv.
  Proof.
    unfold jobfmt. rewrite canon_has_job, canon_job. unfold jobfmt in Hjf.
    destruct (truthy (job t)); [|exact Hjf].
    destruct (fmt_job_idem _ _ Hjf) as [Hi Hne]. now rewrite (val_ne _ Hne).
  Qed.

  Lemma canon_has_wf : truthy (workflow (canon sel t)) = has_wf t.
  Proof. cbn [canon workflow]. apply truthy_if. Qed.

  Lemma canon_abs : is_abs (canon sel t) = is_abs t.
  Proof.
    unfold is_abs at 1. rewrite canon_has_wf. cbn [canon user]. rewrite truthy_if.
    unfold has_wf, is_abs. destruct (truthy (user t)), (truthy (workflow t)); reflexivity.
  Qed.

  Lemma canon_full : is_full (canon sel t) = is_full t.
  Proof.
    unfold is_full. rewrite canon_has_job. cbn [canon cycle task]. rewrite !truthy_if.
    destruct (truthy (cycle t)), (truthy (task t)), (truthy (job t)); reflexivity.
  Qed.

  Lemma canon_upre : upre (canon sel t) = upre t.
  Proof.
    unfold upre. cbn [canon user]. rewrite truthy_if.
    destruct (truthy (user t)); [now rewrite val_val|reflexivity].
  Qed.

  Lemma canon_wpart : has_wf t = true -> wpart sel (canon sel t) = wpart sel t.
  Proof.
    intros H. unfold wpart. cbn [canon workflow workflow_sel]. fold (is_abs t) (is_full t) (has_wf t).
    now rewrite H, val_val, with_sel_keep.
  Qed.

  Lemma canon_body : is_full t = true -> body_of sel (canon sel t) jv = body_of sel t jv.
  Proof.
    intros H. unfold body_of. rewrite canon_has_job.
    cbn [canon cycle cycle_sel task task_sel job_sel]. fold (is_full t).
    rewrite H, !truthy_if, !val_val, !with_sel_keep, !with_sel_if.
    destruct (truthy (task t)), (truthy (job t)); cbn [orb]; rewrite ?val_val; reflexivity.
  Qed.

  Lemma canon_wf_flag : has_wf (canon sel t) = has_wf t.
  Proof.
    unfold has_wf at 1. rewrite canon_abs, canon_has_wf, canon_full. unfold has_wf.
    destruct (is_abs t), (truthy (workflow t)), (is_full t); reflexivity.
  Qed.

  Lemma detok_canon rel : detokenise sel rel (canon sel t) = detokenise sel rel t.
  Proof.
    rewrite !detok_spec, canon_abs, canon_full, canon_jobfmt, Hjf.
    unfold printed. rewrite canon_abs, canon_full, canon_wf_flag.
    destruct (is_abs t) eqn:Ea; [destruct (has_wf t) eqn:Ew|].
    - rewrite canon_upre, (canon_wpart Ew).
      destruct (is_full t) eqn:Ef; [now rewrite canon_body|reflexivity].
    - destruct (user_only t Ea Ew) as [Eu _]. cbn [canon user]. now rewrite Eu, val_val.
    - destruct (is_full t) eqn:Ef; [now rewrite canon_body|reflexivity].
  Qed.
End Canon.

(* task.cycle[:sel]  and  cycle/task[:sel]  (the latter is also the new relative form) *)
Definition dot_form (tk cyc : codes) (sel : option codes) : codes := tk ++ 46 :: cyc ++ optsel sel.
Definition slash_form (tk cyc : codes) (sel : option codes) : codes := cyc ++ 47 :: tk ++ optsel sel.

Lemma split_sel_print body sel :
  forallb not_colon body = true -> ok_osel sel ->
  split_sel (body ++ optsel sel) = Some (body, sel).
Proof.
  intros Hb Hs. unfold split_sel. destruct sel as [v|]; cbn [optsel].
  - destruct Hs as [Hne Hv]. rewrite (span_app not_colon body (58 :: v) Hb) by reflexivity.
    apply nonempty_true in Hne. now rewrite Hne, Hv.
  - rewrite app_nil_r, (span_all _ _ Hb). reflexivity.
Qed.

(* both legacy forms are  a x b [:sel]  with a, b in [^~:/\n]+ and x a separator *)
Lemma form_split_sel a x b o :
  forallb c_user a = true -> forallb c_user b = true -> not_colon x = true -> ok_osel o ->
  split_sel (a ++ x :: b ++ optsel o) = Some (a ++ x :: b, o).
Proof.
  intros Ha Hb Hx Ho.
  replace (a ++ x :: b ++ optsel o) with ((a ++ x :: b) ++ optsel o)
    by (rewrite <- app_assoc; reflexivity).
  apply split_sel_print; [|exact Ho].
  rewrite forallb_app, (forallb_impl c_user not_colon _ c_user_not_colon Ha).
  cbn [forallb andb]. rewrite Hx. apply (forallb_impl c_user not_colon _ c_user_not_colon Hb).
Qed.

Lemma form_nonl a x b o :
  forallb c_user a = true -> forallb c_user b = true -> (x =? 10) = false -> ok_osel o ->
  nonl (a ++ x :: b ++ optsel o) = true.
Proof.
  intros Ha Hb Hx Ho.
  now rewrite nonl_app, nonl_cons, nonl_app, (c_user_nonl _ Ha), (c_user_nonl _ Hb), Hx,
    (optsel_nonl _ Ho).
Qed.

Section Legacy.
  Variable is_space is_digit : Z -> bool.
  Hypothesis Hstar : is_space 42 = false.
  Hypothesis Hdigit : forall c, is_ascii_digit c = true -> is_space c = false.
  (* what the regex engine's \d matches lies inside the legacy cycle class *)
  Hypothesis Hd_cls : forall c, is_digit c = true -> l_cyc c = true.

  Record legacy_ok (tk : codes) (d : Z) (cr : codes) (sel : option codes) : Prop := {
    lo_task : ok_field is_space l_task tk;
    lo_digit : is_digit d = true;
    lo_cyc : forallb l_cyc cr = true;
    lo_edge : edges_ok is_space (d :: cr) = true;
    lo_sel : ok_opt (ok_field is_space c_sel) sel }.

  (* what the "." pattern accepts is  task "." cycle  over [^~:/\n] *)
  Lemma legacy_accept_cls d cr tsk :
    is_digit d && forallb l_cyc cr && nonempty tsk && forallb l_task tsk = true ->
    forallb c_user (tsk ++ 46 :: d :: cr) = true.
  Proof.
    intros H. apply andb_true_iff in H. destruct H as [H Ht]. apply andb_true_iff in H.
    destruct H as [H _]. apply andb_true_iff in H. destruct H as [Hd Hc].
    unfold l_task in Ht. rewrite forallb_app, Ht. cbn [forallb andb].
    rewrite (l_cyc_user _ (Hd_cls d Hd)). exact (forallb_impl l_cyc c_user _ l_cyc_user Hc).
  Qed.

  Section Fields.
    Variables (tk : codes) (d : Z) (cr : codes) (sel : option codes).
    Hypothesis L : legacy_ok tk d cr sel.

    Let cyc := d :: cr.
    Let lt := legacy_tokens tk cyc sel.

    Lemma lg_cyc_cls : forallb l_cyc cyc = true.
    Proof. subst cyc. cbn. now rewrite (Hd_cls d (lo_digit _ _ _ _ L)), (lo_cyc _ _ _ _ L). Qed.

    Lemma lg_cyc_user : forallb c_user cyc = true.
    Proof. apply (forallb_impl l_cyc c_user _ l_cyc_user lg_cyc_cls). Qed.

    Lemma lg_task : tk <> [] /\ forallb c_user tk = true.
    Proof.
      destruct (lo_task _ _ _ _ L) as [H1 H2]. split; [|exact H2].
      now apply (edges_ok_nonempty is_space).
    Qed.

    Lemma lg_sel : ok_osel sel.
    Proof. apply (osel_field is_space). exact (lo_sel _ _ _ _ L). Qed.

    Lemma lg_valid : valid_tokens is_space lt.
    Proof.
      subst lt. constructor; cbn; auto.
      - split; [exact (lo_edge _ _ _ _ L)|exact lg_cyc_user].
      - destruct (lo_task _ _ _ _ L) as [H1 H2]. split; [exact H1|].
        apply (forallb_impl c_user c_sel _ c_user_sel H2).
      - exact (lo_sel _ _ _ _ L).
    Qed.

    Lemma lg_strip : strip_tokens is_space lt = lt.
    Proof.
      subst lt cyc. unfold strip_tokens, legacy_tokens.
      cbn [user workflow workflow_sel cycle cycle_sel task task_sel job job_sel].
      destruct (lo_task _ _ _ _ L) as [H1 _].
      rewrite (ostrip_id _ _ (lo_edge _ _ _ _ L)), (ostrip_id _ _ H1).
      pose proof (keep_edges is_space true sel (lo_sel _ _ _ _ L)) as H3. cbn [keep] in H3.
      now rewrite H3.
    Qed.

    Lemma lg_canon : canon true lt = lt.
    Proof.
      subst lt. destruct lg_task as [Hne _].
      unfold canon, legacy_tokens.
      cbn [user workflow workflow_sel cycle cycle_sel task task_sel job job_sel].
      rewrite (truthy_ne _ Hne), (val_ne _ Hne). reflexivity.
    Qed.

    Lemma lg_detok rel :
      detokenise true rel lt = DOk ((if rel then [] else [47; 47]) ++ slash_form tk cyc sel).
    Proof.
      rewrite detok_spec.
      unfold printed, is_abs, is_full, jobfmt, body_of, slash_form. subst lt.
      destruct lg_task as [Hne _].
      cbn [legacy_tokens user workflow cycle cycle_sel task task_sel job job_sel].
      rewrite (truthy_ne _ Hne), (val_ne _ Hne). cbn [truthy orb]. rewrite app_nil_r.
      change (with_sel true (val (Some cyc)) None) with cyc.
      now rewrite (with_sel_ok true tk sel lg_sel).
    Qed.

    Lemma lg_tok_new rel :
      tokenise is_space rel ((if rel then [] else [47; 47]) ++ slash_form tk cyc sel) = Some lt.
    Proof.
      pose proof (detok_tok is_space Hstar Hdigit true rel lt _ lg_valid (lg_detok rel)) as H.
      rewrite lg_canon in H. rewrite <- H. subst lt. cbn [legacy_tokens user workflow truthy orb negb].
      now rewrite andb_true_r.
    Qed.

    Lemma lg_accept :
      is_digit d && forallb l_cyc cr && nonempty tk && forallb l_task tk = true.
    Proof.
      destruct lg_task as [Hne Ht]. apply nonempty_true in Hne. unfold l_task.
      now rewrite (lo_digit _ _ _ _ L), (lo_cyc _ _ _ _ L), Hne, Ht.
    Qed.

    Lemma lg_parse_dot : parse_legacy_dot is_digit (dot_form tk cyc sel) = Some lt.
    Proof.
      destruct lg_task as [_ Ht]. unfold parse_legacy_dot, dot_form.
      rewrite (form_split_sel tk 46 cyc sel Ht lg_cyc_user eq_refl lg_sel).
      rewrite rev_app_distr. cbn [rev]. rewrite <- !app_assoc. cbn [app].
      rewrite (span_app not_dot (rev cyc) (46 :: rev tk)); [| |reflexivity].
      - rewrite !rev_involutive. subst cyc. cbv beta iota zeta. now rewrite lg_accept.
      - rewrite forallb_rev. apply (forallb_impl l_cyc not_dot _ l_cyc_not_dot lg_cyc_cls).
    Qed.

    Lemma lg_tokenise_dot : legacy_tokenise is_space is_digit (dot_form tk cyc sel) = Some lt.
    Proof.
      destruct lg_task as [_ Ht]. unfold legacy_tokenise.
      rewrite drop_nl_id by exact (form_nonl tk 46 cyc sel Ht lg_cyc_user eq_refl lg_sel).
      now rewrite lg_parse_dot, lg_strip.
    Qed.

    Lemma lg_body_slash : split_sel (slash_form tk cyc sel) = Some (cyc ++ 47 :: tk, sel).
    Proof.
      destruct lg_task as [_ Ht]. exact (form_split_sel cyc 47 tk sel lg_cyc_user Ht eq_refl lg_sel).
    Qed.

    Lemma lg_parse_slash : parse_legacy_slash is_digit (slash_form tk cyc sel) = Some lt.
    Proof.
      unfold parse_legacy_slash. rewrite lg_body_slash.
      rewrite (span_app not_slash cyc (47 :: tk)); [| |reflexivity].
      - subst cyc. cbv beta iota zeta. now rewrite lg_accept.
      - apply (forallb_impl c_user not_slash _
                 (fun c H => c_sel_not_slash c (c_user_sel c H)) lg_cyc_user).
    Qed.

    (* the "." pattern is tried first; it cannot match an identifier with a "/" *)
    Lemma lg_dot_rejects_slash : parse_legacy_dot is_digit (slash_form tk cyc sel) = None.
    Proof.
      unfold parse_legacy_dot. rewrite lg_body_slash.
      pose proof (span_spec not_dot (rev (cyc ++ 47 :: tk))) as H.
      destruct (span not_dot (rev (cyc ++ 47 :: tk))) as [cycr [|x taskr]]; [reflexivity|].
      destruct H as (E & _ & Hx). apply negb_false_iff, Z.eqb_eq in Hx. subst x.
      destruct (rev cycr) as [|d' cr'] eqn:Er; [reflexivity|].
      destruct (is_digit d' && _ && _ && _) eqn:Ea; [exfalso|reflexivity].
      (* the accepted  task "." cycle  is the whole body, which has a "/" *)
      apply legacy_accept_cls in Ea.
      assert (Eb : rev taskr ++ 46 :: d' :: cr' = cyc ++ 47 :: tk).
      { rewrite <- Er, <- (rev_involutive (cyc ++ 47 :: tk)), E, rev_app_distr. cbn [rev].
        now rewrite <- app_assoc. }
      rewrite Eb, forallb_app in Ea. cbn in Ea. rewrite andb_false_r in Ea. discriminate Ea.
    Qed.

    Lemma lg_tokenise_slash :
      legacy_tokenise is_space is_digit (slash_form tk cyc sel) = Some lt.
    Proof.
      destruct lg_task as [_ Ht]. unfold legacy_tokenise.
      rewrite drop_nl_id by exact (form_nonl cyc 47 tk sel lg_cyc_user Ht eq_refl lg_sel).
      rewrite lg_dot_rejects_slash, lg_parse_slash. cbn [option_map]. now rewrite lg_strip.
    Qed.

    (* any identifier that legacy_tokenise maps to [lt] is upgraded to the new form,
       which parses to [lt] again *)
    Lemma lg_upgrade s w :
      legacy_tokenise is_space is_digit s = Some lt ->
      upgrade_legacy_ids is_space is_digit false [w; s] = [w; 47 :: 47 :: slash_form tk cyc sel]
      /\ upgrade_legacy_ids is_space is_digit true [s] = [slash_form tk cyc sel]
      /\ tokenise is_space false (47 :: 47 :: slash_form tk cyc sel) = Some lt
      /\ tokenise is_space true (slash_form tk cyc sel) = Some lt.
    Proof.
      intros H. unfold upgrade_legacy_ids, upgrade_all. rewrite H, !lg_detok.
      repeat split; [exact (lg_tok_new false)|exact (lg_tok_new true)].
    Qed.
  End Fields.
End Legacy.
