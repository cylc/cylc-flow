(* Proofs/FamTrigProofs.v — C15: family nodes on the left expand to the AND/OR
   over the members of the documented member output; family nodes on the
   right give every member the trigger and the declared optionality.
   First: the token evaluator [ev]/[eval_toks] of
   Model/GraphBase.v reads the printing of a well-shaped tree back with the
   tree's own value (print/evaluate round trip); this and [expand_left_print]
   also serve the C14 proofs. *)
From Coq Require Import List Bool Arith String Lia.
From Cylc Require Import Base.Util Gen.FamTables Model.GraphBase Model.GraphExpr.
Import ListNotations.

(* With fuel B or more, [ev] at level lvl reads the value and the remaining
   tokens r off l.  Stated for all larger fuels, so that the bounds of
   sub-expressions add up without an argument about fuel. *)
Definition reads (v : atom -> bool) (B lvl : nat) (l : list tok) (r : bool * list tok) : Prop :=
  forall f, B <= f -> ev f v lvl l = Some r.

Lemma reads_le v B B' lvl l r : B <= B' -> reads v B lvl l r -> reads v B' lvl l r.
Proof. intros Hle H f Hf. apply H. lia. Qed.

(* one rule for each production of the grammar *)
Lemma reads_node v n r : reads v 1 2 (TN n :: r) (v (node_atom n), r).
Proof. intros [|f] Hf; [lia|reflexivity]. Qed.

Lemma reads_par v B l b r : reads v B 0 l (b, TRp :: r) -> reads v (S B) 2 (TLp :: l) (b, r).
Proof. intros H [|f] Hf; [lia|]. cbn [ev]. rewrite (H f (le_S_n _ _ Hf)). reflexivity. Qed.

Lemma reads_and v B B' l b r b' r' :
  reads v B 2 l (b, TAnd :: r) -> reads v B' 1 r (b', r') -> reads v (S (B + B')) 1 l (b && b', r').
Proof. intros H H' [|f] Hf; [lia|]. cbn [ev]. rewrite H, H' by lia. reflexivity. Qed.

Lemma reads_or v B B' l b r b' r' :
  reads v B 1 l (b, TOr :: r) -> reads v B' 0 r (b', r') -> reads v (S (B + B')) 0 l (b || b', r').
Proof. intros H H' [|f] Hf; [lia|]. cbn [ev]. rewrite H, H' by lia. reflexivity. Qed.

(* what may follow an expression at each level *)
Definition ok_rest (lvl : nat) (rest : list tok) : Prop :=
  match lvl, rest with
  | 0, (TAnd :: _ | TOr :: _) => False
  | 1, TAnd :: _ => False
  | _, _ => True
  end.

Lemma ok_rest_0_1 rest : ok_rest 0 rest -> ok_rest 1 rest.
Proof. destruct rest as [|[] r]; cbn; tauto. Qed.

(* a term is an expression, a factor a term, when the next token does not
   continue it *)
Lemma reads_lift v B lvl l b rest :
  lvl < 2 -> reads v B (S lvl) l (b, rest) -> ok_rest lvl rest -> reads v (S B) lvl l (b, rest).
Proof.
  intros Hl H Hr [|f] Hf; [lia|].
  destruct lvl as [|[|lvl]]; [| |lia]; cbn [ev]; rewrite (H f (le_S_n _ _ Hf));
    destruct rest as [|[] r]; try reflexivity; destruct Hr.
Qed.

Lemma reads_factor v B lvl l b rest :
  lvl <= 2 -> reads v B 2 l (b, rest) -> ok_rest lvl rest -> reads v (2 + B) lvl l (b, rest).
Proof.
  intros Hl H Hr. destruct lvl as [|[|lvl]].
  - apply reads_lift; [lia| |exact Hr]. apply reads_lift; [lia|exact H|now apply ok_rest_0_1].
  - apply (reads_le v (S B)); [lia|]. apply reads_lift; [lia|exact H|exact Hr].
  - replace lvl with 0 by lia. apply (reads_le v B); [lia|exact H].
Qed.

Lemma ev_print v : forall e lvl rest,
  lvl <= 2 -> wf_lvl lvl e = true -> ok_rest lvl rest ->
  reads v (3 * List.length (print_e e)) lvl (print_e e ++ rest)
    (eval_e (fun n => v (node_atom n)) e, rest).
Proof.
  induction e as [n|e IH|a IHa b IHb|a IHa b IHb]; intros lvl rest Hl Hwf Hr;
    cbn [print_e eval_e wf_lvl] in *.
  - apply (reads_factor v 1); [exact Hl|apply reads_node|exact Hr].
  - apply (reads_le v (2 + S (3 * List.length (print_e e))));
      [cbn [List.length]; rewrite app_length; cbn [List.length]; lia|].
    apply reads_factor; [exact Hl| |exact Hr].
    cbn [app]. rewrite <- app_assoc. apply reads_par. apply IH; [lia|exact Hwf|exact I].
  - apply andb_true_iff in Hwf. destruct Hwf as [Hwf Hb].
    apply andb_true_iff in Hwf. destruct Hwf as [Hl1 Ha]. apply Nat.leb_le in Hl1.
    assert (Hr1 : ok_rest 1 rest) by (destruct lvl as [|[|?]]; [now apply ok_rest_0_1|exact Hr|lia]).
    rewrite <- app_assoc. cbn [app].
    assert (F : reads v (S (3 * List.length (print_e a) + 3 * List.length (print_e b))) 1
                  (print_e a ++ TAnd :: print_e b ++ rest)
                  (eval_e (fun n => v (node_atom n)) a && eval_e (fun n => v (node_atom n)) b, rest))
      by (eapply reads_and; [apply IHa; [lia|exact Ha|exact I]|apply IHb; [lia|exact Hb|exact Hr1]]).
    rewrite app_length. cbn [List.length].
    destruct lvl as [|[|lvl]]; [| |lia].
    + eapply reads_le; [|apply reads_lift; [lia|exact F|exact Hr]]. lia.
    + eapply reads_le; [|exact F]. lia.
  - apply andb_true_iff in Hwf. destruct Hwf as [Hwf Hb].
    apply andb_true_iff in Hwf. destruct Hwf as [Hl0 Ha]. apply Nat.eqb_eq in Hl0. subst lvl.
    rewrite <- app_assoc. cbn [app].
    eapply reads_le; [|eapply reads_or; [apply IHa; [lia|exact Ha|exact I]|apply IHb; [lia|exact Hb|exact Hr]]].
    rewrite app_length. cbn [List.length]. lia.
Qed.

Theorem eval_toks_print v e :
  wf_lvl 0 e = true ->
  eval_toks v (print_e e) = Some (eval_e (fun n => v (node_atom n)) e).
Proof.
  intros Hwf. unfold eval_toks.
  pose proof (ev_print v e 0 [] (Nat.le_0_l 2) Hwf I) as H. rewrite app_nil_r in H.
  rewrite H by lia. reflexivity.
Qed.

(* a tree that is well shaped at a level is well shaped at every lower level *)
Lemma wf_lvl_le e : forall l1 l2, l2 <= l1 -> wf_lvl l1 e = true -> wf_lvl l2 e = true.
Proof.
  destruct e; cbn; intros l1 l2 Hle H; auto.
  - apply andb_true_iff in H. destruct H as [H Hb]. apply andb_true_iff in H. destruct H as [Hl Ha].
    apply Nat.leb_le in Hl. rewrite Ha, Hb. replace (l2 <=? 1) with true; [reflexivity|].
    symmetry. apply Nat.leb_le. lia.
  - apply andb_true_iff in H. destruct H as [H Hb]. apply andb_true_iff in H. destruct H as [Hl Ha].
    apply Nat.eqb_eq in Hl. subst. replace l2 with 0 by lia. cbn. now rewrite Ha, Hb.
Qed.

Definition sb_eqb (a b : string * bool) : bool := String.eqb (fst a) (fst b) && Bool.eqb (snd a) (snd b).

(* the left-hand table entry of family qualifier k is the documented one *)
Definition fam_entry_ok (k : string) : bool :=
  match assoc String.eqb k doc_fam_table with
  | Some d => option_eqb sb_eqb (assoc String.eqb (std_name k) fam_to_mem_trigger_map) (Some d)
  | None => false
  end.

(* the right-hand table entry of family qualifier k is the documented one *)
Definition out_entry_ok (k : string) : bool :=
  match assoc String.eqb k doc_fam_table with
  | Some (o, _) =>
      option_eqb (list_eqb String.eqb) (assoc String.eqb k fam_to_mem_output_map) (Some (doc_outputs o))
      && Bool.eqb (String.prefix "finish" k) (String.eqb o TASK_OUTPUT_FINISHED)
  | None => false
  end.

Lemma sb_eqb_eq a b : sb_eqb a b = true -> a = b.
Proof.
  destruct a, b. unfold sb_eqb. cbn. intros H. apply andb_true_iff in H. destruct H as [H1 H2].
  apply String.eqb_eq in H1. apply Bool.eqb_prop in H2. congruence.
Qed.

Lemma fam_entry_ok_inv k : fam_entry_ok k = true ->
  exists o all, assoc String.eqb k doc_fam_table = Some (o, all)
                /\ assoc String.eqb (std_name k) fam_to_mem_trigger_map = Some (o, all).
Proof.
  unfold fam_entry_ok. destruct (assoc String.eqb k doc_fam_table) as [[o all]|]; [|discriminate].
  destruct (assoc String.eqb (std_name k) fam_to_mem_trigger_map) as [d|]; cbn; [|discriminate].
  intros H. apply sb_eqb_eq in H. subst. eauto.
Qed.

Lemma out_entry_ok_inv k : out_entry_ok k = true ->
  exists o all, assoc String.eqb k doc_fam_table = Some (o, all)
    /\ assoc String.eqb k fam_to_mem_output_map = Some (doc_outputs o)
    /\ String.prefix "finish" k = String.eqb o TASK_OUTPUT_FINISHED.
Proof.
  unfold out_entry_ok. destruct (assoc String.eqb k doc_fam_table) as [[o all]|]; [|discriminate].
  intros H. apply andb_true_iff in H. destruct H as [H1 H2].
  destruct (assoc String.eqb k fam_to_mem_output_map) as [l|]; [|discriminate].
  cbn in H1. apply (list_eqb_spec String.eqb String.eqb_eq) in H1. subst l.
  apply Bool.eqb_prop in H2. eauto.
Qed.

(* a property of all the qualifiers <q>-all and <q>-any is decided by running
   over the table of the <q> *)
Lemma forallb_both {A B} (P : A -> B -> bool -> bool) (l : list (A * B)) :
  forallb (fun x => P (fst x) (snd x) true && P (fst x) (snd x) false) l = true ->
  forall a b c, In (a, b) l -> P a b c = true.
Proof.
  intros F a b c H. rewrite forallb_forall in F. apply F, andb_true_iff in H. destruct c; apply H.
Qed.

(* every documented qualifier <q>-all / <q>-any is found in the documented table *)
Lemma doc_table_lookup q o all :
  In (q, o) alt_qualifiers -> assoc String.eqb (fam_qual q all) doc_fam_table = Some (o, all).
Proof.
  intros H.
  apply (forallb_both (fun q o all =>
           option_eqb sb_eqb (assoc String.eqb (fam_qual q all) doc_fam_table) (Some (o, all))))
    with (c := all) in H; [|vm_compute; reflexivity].
  destruct (assoc String.eqb (fam_qual q all) doc_fam_table); [|discriminate].
  apply sb_eqb_eq in H. now subst.
Qed.

Lemma std_name_doc_keys k o all :
  assoc String.eqb k doc_fam_table = Some (o, all) -> std_name k = k.
Proof.
  assert (F : forallb (fun kd => String.eqb (std_name (fst kd)) (fst kd)) doc_fam_table = true)
    by (vm_compute; reflexivity).
  revert F. generalize doc_fam_table. induction l as [|[k' d] r IH]; cbn; [discriminate|].
  intros F. apply andb_true_iff in F. destruct F as [F1 F2].
  destruct (String.eqb_spec k k') as [->|_]; [intros _; now apply String.eqb_eq|now apply IH].
Qed.

(* a left-hand node that the parser accepts and whose table entry is the documented one *)
Definition left_node_ok (fm : family_map) (n : node) : bool :=
  node_accepted fm n
  && match fam_members fm (n_name n) with
     | Some _ => match n_qual n with Some q => fam_entry_ok q | None => false end
     | None => true
     end.

Lemma member_expr_print off out m :
  print_e (member_expr off out m) = fst (fin_expand m off out).
Proof. unfold member_expr, fin_expand. destruct (String.eqb out TASK_OUTPUT_FINISHED); reflexivity. Qed.

Lemma member_expr_wf off out m : wf_lvl 2 (member_expr off out m) = true.
Proof. unfold member_expr. destruct (String.eqb out TASK_OUTPUT_FINISHED); reflexivity. Qed.

Lemma member_expr_eval v off out m :
  eval_e (fun n => v (node_atom n)) (member_expr off out m) = member_holds v off out m.
Proof. unfold member_expr, member_holds. destruct (String.eqb out TASK_OUTPUT_FINISHED); reflexivity. Qed.

Lemma big_op_cons2 all x y r :
  big_op all (x :: y :: r) = if all then LAnd x (big_op all (y :: r)) else LOr x (big_op all (y :: r)).
Proof. reflexivity. Qed.
Lemma join_toks_cons2 sep x y r : join_toks sep (x :: y :: r) = x ++ sep :: join_toks sep (y :: r).
Proof. reflexivity. Qed.

Lemma big_op_print all (l : list lexpr) : l <> [] ->
  print_e (big_op all l) = join_toks (if all then TAnd else TOr) (map print_e l).
Proof.
  induction l as [|x [|y r] IH]; intros Hne; [congruence|reflexivity|].
  rewrite big_op_cons2. cbn [map] in *. rewrite join_toks_cons2, <- IH by discriminate.
  destruct all; reflexivity.
Qed.

Lemma big_op_wf all (l : list lexpr) : l <> [] ->
  (forall x, In x l -> wf_lvl 2 x = true) -> wf_lvl 0 (big_op all l) = true.
Proof.
  intros Hne Hall.
  (* an AND of factors is a term, and has to be one to go under the next AND *)
  apply (wf_lvl_le _ (if all then 1 else 0)); [lia|].
  induction l as [|x [|y r] IH]; [congruence| |].
  - apply (wf_lvl_le x 2); [destruct all; lia|]. apply Hall. now left.
  - rewrite big_op_cons2. specialize (IH ltac:(discriminate) (fun z Hz => Hall z (or_intror Hz))).
    pose proof (Hall x (or_introl eq_refl)) as Hx.
    destruct all; cbn [wf_lvl]; rewrite IH; [now rewrite Hx|].
    now rewrite (wf_lvl_le x 2 1) by (lia || exact Hx).
Qed.

Lemma big_op_eval {A} f all (g : A -> lexpr) (h : A -> bool) (l : list A) : l <> [] ->
  (forall x, eval_e f (g x) = h x) ->
  eval_e f (big_op all (map g l)) = if all then forallb h l else existsb h l.
Proof.
  intros Hne Hg. induction l as [|x [|y r] IH]; [congruence| |].
  - cbn. rewrite Hg. destruct all; [now rewrite andb_true_r|now rewrite orb_false_r].
  - cbn [map] in *. rewrite big_op_cons2.
    destruct all; cbn [eval_e]; rewrite IH, Hg by discriminate; reflexivity.
Qed.

Lemma expand_node_print fm n : node_accepted fm n = true ->
  exists atoms, expand_node fm n = Ok (print_e (expand_node_e fm n), atoms).
Proof.
  unfold node_accepted, expand_node, expand_node_e.
  destruct (fam_members fm (n_name n)) as [ms|].
  - intros H. apply andb_true_iff in H. destruct H as [Hne H].
    destruct (n_qual n) as [q|]; [|discriminate].
    destruct (assoc String.eqb (std_name q) fam_to_mem_trigger_map) as [[ttype all]|]; [|discriminate].
    eexists. cbn [print_e]. rewrite big_op_print by (destruct ms; discriminate).
    now rewrite !map_map, (map_ext _ _ (member_expr_print (n_off n) ttype)).
  - intros H. fold (task_out n). destruct (is_fam_qual (task_out n)); [discriminate|].
    rewrite member_expr_print. destruct (fin_expand (n_name n) (n_off n) (task_out n)). eauto.
Qed.

Lemma expand_node_wf fm n : node_accepted fm n = true -> wf_lvl 2 (expand_node_e fm n) = true.
Proof.
  unfold node_accepted, expand_node_e.
  destruct (fam_members fm (n_name n)) as [ms|]; [|intros _; apply member_expr_wf].
  intros H. apply andb_true_iff in H. destruct H as [Hne H].
  destruct (n_qual n) as [q|]; [|discriminate].
  destruct (assoc String.eqb (std_name q) fam_to_mem_trigger_map) as [[ttype all]|]; [|discriminate].
  cbn [wf_lvl]. apply big_op_wf.
  - destruct ms; discriminate.
  - intros x Hx. apply in_map_iff in Hx. destruct Hx as [m [<- _]]. apply member_expr_wf.
Qed.

Lemma expand_node_eval fm v n : left_node_ok fm n = true ->
  eval_e (fun x => v (node_atom x)) (expand_node_e fm n) = doc_node fm v n.
Proof.
  unfold left_node_ok, node_accepted, expand_node_e, doc_node.
  destruct (fam_members fm (n_name n)) as [ms|]; [|intros _; apply member_expr_eval].
  intros H. apply andb_true_iff in H. destruct H as [H Hok].
  apply andb_true_iff in H. destruct H as [Hne _].
  destruct (n_qual n) as [q|]; [|discriminate].
  destruct (fam_entry_ok_inv q Hok) as [o [all [Hd Ht]]].
  rewrite Ht, Hd. cbn [eval_e].
  rewrite (big_op_eval _ _ _ (member_holds v (n_off n) o)).
  - destruct all; reflexivity.
  - destruct ms; discriminate.
  - apply member_expr_eval.
Qed.

(* the tokens after the printing are expanded first: [tr], [ar] is what they give *)
Lemma expand_left_print_app fm e :
  forallb (node_accepted fm) (nodes_e e) = true ->
  forall rest tr ar, expand_left fm rest = Ok (tr, ar) ->
  exists atoms, expand_left fm (print_e e ++ rest) = Ok (print_e (expand_e fm e) ++ tr, atoms ++ ar).
Proof.
  induction e as [n|e IH|a IHa b IHb|a IHa b IHb]; cbn [nodes_e print_e expand_e]; intros H rest tr ar Hr.
  - cbn in H. rewrite andb_true_r in H.
    destruct (expand_node_print fm n H) as [atoms E].
    exists atoms. cbn [app expand_left]. rewrite Hr. cbn [bind]. rewrite E. reflexivity.
  - destruct (IH H (TRp :: rest) (TRp :: tr) ar) as [atoms E]; [cbn [expand_left]; now rewrite Hr|].
    exists atoms. cbn [app]. rewrite <- !app_assoc. cbn [app expand_left]. rewrite E. reflexivity.
  - rewrite forallb_app in H. apply andb_true_iff in H. destruct H as [Ha Hb].
    destruct (IHb Hb rest tr ar Hr) as [ab Eb].
    destruct (IHa Ha (TAnd :: print_e b ++ rest) (TAnd :: print_e (expand_e fm b) ++ tr) (ab ++ ar))
      as [aa Ea]; [cbn [expand_left]; now rewrite Eb|].
    exists (aa ++ ab). rewrite <- !app_assoc. exact Ea.
  - rewrite forallb_app in H. apply andb_true_iff in H. destruct H as [Ha Hb].
    destruct (IHb Hb rest tr ar Hr) as [ab Eb].
    destruct (IHa Ha (TOr :: print_e b ++ rest) (TOr :: print_e (expand_e fm b) ++ tr) (ab ++ ar))
      as [aa Ea]; [cbn [expand_left]; now rewrite Eb|].
    exists (aa ++ ab). rewrite <- !app_assoc. exact Ea.
Qed.

Lemma expand_left_print fm e :
  forallb (node_accepted fm) (nodes_e e) = true ->
  exists atoms, expand_left fm (print_e e) = Ok (print_e (expand_e fm e), atoms).
Proof.
  intros H. destruct (expand_left_print_app fm e H [] [] [] eq_refl) as [atoms E].
  rewrite !app_nil_r in E. eauto.
Qed.

Lemma expand_e_wf fm e : forall lvl, lvl <= 2 ->
  forallb (node_accepted fm) (nodes_e e) = true ->
  wf_lvl lvl e = true -> wf_lvl lvl (expand_e fm e) = true.
Proof.
  induction e as [n|e IH|a IHa b IHb|a IHa b IHb]; cbn [nodes_e expand_e wf_lvl]; intros lvl Hl H Hwf.
  - cbn in H. rewrite andb_true_r in H. apply (wf_lvl_le _ 2 lvl Hl). now apply expand_node_wf.
  - apply IH; auto.
  - rewrite forallb_app in H. apply andb_true_iff in H. destruct H as [Ha Hb].
    apply andb_true_iff in Hwf. destruct Hwf as [Hwf Hwb]. apply andb_true_iff in Hwf. destruct Hwf as [Hl1 Hwa].
    rewrite Hl1, (IHa 2), (IHb 1); auto.
  - rewrite forallb_app in H. apply andb_true_iff in H. destruct H as [Ha Hb].
    apply andb_true_iff in Hwf. destruct Hwf as [Hwf Hwb]. apply andb_true_iff in Hwf. destruct Hwf as [Hl1 Hwa].
    rewrite Hl1, (IHa 1), (IHb 0); auto.
Qed.

Lemma expand_e_eval fm v e :
  forallb (left_node_ok fm) (nodes_e e) = true ->
  eval_e (fun x => v (node_atom x)) (expand_e fm e) = eval_e (doc_node fm v) e.
Proof.
  induction e as [n|e IH|a IHa b IHb|a IHa b IHb]; cbn [nodes_e expand_e eval_e]; intros H.
  - cbn in H. rewrite andb_true_r in H. now apply expand_node_eval.
  - auto.
  - rewrite forallb_app in H. apply andb_true_iff in H. destruct H. now rewrite IHa, IHb.
  - rewrite forallb_app in H. apply andb_true_iff in H. destruct H. now rewrite IHa, IHb.
Qed.

Theorem left_expression_meaning fm e v :
  wf_lvl 0 e = true ->
  forallb (left_node_ok fm) (nodes_e e) = true ->
  exists toks atoms,
    expand_left fm (print_e e) = Ok (toks, atoms)
    /\ eval_toks v toks = Some (eval_e (doc_node fm v) e).
Proof.
  intros Hwf Hok.
  assert (Hacc : forallb (node_accepted fm) (nodes_e e) = true).
  { rewrite forallb_forall in *. intros x Hx. apply Hok, andb_true_iff in Hx. apply Hx. }
  destruct (expand_left_print fm e Hacc) as [atoms E].
  exists (print_e (expand_e fm e)), atoms. split; [exact E|].
  rewrite eval_toks_print by (apply expand_e_wf; auto).
  now rewrite expand_e_eval.
Qed.

(* the single family node, spelled out *)
Theorem family_lhs fm F ms off q o all opt v :
  In (q, o) alt_qualifiers ->
  fam_entry_ok (fam_qual q all) = true ->
  fam_members fm F = Some ms -> ms <> [] ->
  exists toks atoms,
    expand_left fm [TN (mkNode F off (Some (fam_qual q all)) opt)] = Ok (toks, atoms)
    /\ eval_toks v toks
       = Some (if all then forallb (member_holds v off o) ms
               else existsb (member_holds v off o) ms).
Proof.
  intros Hq Hok Hf Hne.
  set (n := mkNode F off (Some (fam_qual q all)) opt).
  assert (Hn : forallb (left_node_ok fm) (nodes_e (LN n)) = true).
  { cbn. rewrite andb_true_r. unfold left_node_ok, node_accepted. cbn [n n_name n_qual]. rewrite Hf.
    destruct (fam_entry_ok_inv _ Hok) as [o' [all' [_ Ht]]]. rewrite Ht, Hok.
    destruct ms; [congruence|reflexivity]. }
  destruct (left_expression_meaning fm (LN n) v eq_refl Hn) as [toks [atoms [E Ev]]].
  exists toks, atoms. split; [exact E|]. rewrite Ev. f_equal.
  cbn [eval_e]. unfold doc_node. cbn [n n_name n_qual n_off]. rewrite Hf.
  rewrite (doc_table_lookup q o all Hq). destruct all; reflexivity.
Qed.

Lemma upd_fresh {V} m (v : V) l : assoc Nat.eqb m l = None -> upd Nat.eqb m v l = l ++ [(m, v)].
Proof.
  induction l as [|[k w] r IH]; cbn; [reflexivity|].
  destruct (Nat.eqb m k); [discriminate|]. intros H. now rewrite IH.
Qed.

Lemma optkey_eqb_true a b : optkey_eqb a b = true <-> a = b.
Proof.
  destruct a as [n1 s1], b as [n2 s2]. unfold optkey_eqb. cbn.
  rewrite andb_true_iff, Nat.eqb_eq, String.eqb_eq. split; [intros []; congruence|intros [= -> ->]; auto].
Qed.

Lemma optkey_eqb_false a b : a <> b -> optkey_eqb a b = false.
Proof. intros H. destruct (optkey_eqb a b) eqn:E; [apply optkey_eqb_true in E; contradiction|reflexivity]. Qed.

(* The last part of _set_output_opt ("Check opposite output where appropriate"),
   which [set_opt1] runs on the map with the entry for [output] in place.  It
   raises or lets the map through. *)
Definition opp_check (n : name) (output : string) (fam : bool) (om1 : optmap) : res optmap :=
  match opposite output with
  | None => Ok om1
  | Some opp =>
      match assoc optkey_eqb (n, opp) om1 with
      | None => Ok om1
      | Some (oo, od, ofx) =>
          match assoc optkey_eqb (n, output) om1 with
          | None => Unmod
          | Some (o, _, _) =>
              if fam || negb ofx then
                (if negb o || negb od then GErr
                 else if negb o || negb oo then GErr
                 else Ok om1)
              else if negb o || negb oo then GErr
              else Ok om1
          end
      end
  end.

Lemma opp_check_ok n o fam om om' : opp_check n o fam om = Ok om' -> om' = om.
Proof.
  unfold opp_check. destruct (opposite o) as [opp|]; [|congruence].
  destruct (assoc optkey_eqb (n, opp) om) as [[[oo od] ofx]|]; [|congruence].
  destruct (assoc optkey_eqb (n, o) om) as [[[o1 o2] o3]|]; [|discriminate].
  destruct (fam || negb ofx), (negb o1 || negb od), (negb o1 || negb oo); congruence.
Qed.

Lemma set_opt1_new_inv om m o optional fam om' :
  assoc optkey_eqb (m, o) om = None ->
  set_opt1 om m o optional fam = Ok om' ->
  om' = om ++ [((m, o), (optional, optional, negb fam))].
Proof.
  unfold set_opt1. intros Hn. rewrite Hn.
  destruct ((String.eqb o TASK_OUTPUT_EXPIRED || String.eqb o TASK_OUTPUT_SUBMIT_FAILED) && negb optional);
    [discriminate|].
  (* what is left of [set_opt1] is [opp_check], word for word *)
  exact (opp_check_ok m o fam _ om').
Qed.

(* the family defaults that a right-hand family node sets for member m *)
Definition fam_entries (m : name) (optional : bool) (outs : list string) : optmap :=
  map (fun o => ((m, o), (optional, optional, false))) outs.

Lemma assoc_fam_entries_same m optional outs o :
  In o outs -> assoc optkey_eqb (m, o) (fam_entries m optional outs) = Some (optional, optional, false).
Proof.
  induction outs as [|o1 r IH]; cbn; [tauto|].
  destruct (optkey_eqb (m, o) (m, o1)) eqn:E; [reflexivity|].
  intros [->|Hin]; [|auto]. rewrite (proj2 (optkey_eqb_true _ _) eq_refl) in E. discriminate.
Qed.

Lemma assoc_fam_entries_other m m2 optional outs o :
  m2 <> m -> assoc optkey_eqb (m2, o) (fam_entries m optional outs) = None.
Proof.
  intros Hne. induction outs as [|o1 r IH]; cbn; [reflexivity|].
  rewrite optkey_eqb_false; [exact IH|]. intros [= -> _]. contradiction.
Qed.

Lemma opt_fold_fresh m optional : forall outs om om',
  NoDup outs ->
  (forall o, In o outs -> String.eqb o TASK_OUTPUT_FINISHED = false) ->
  (forall o, In o outs -> assoc optkey_eqb (m, o) om = None) ->
  fold_res (fun om o => set_opt om m o optional false true) outs om = Ok om' ->
  om' = om ++ fam_entries m optional outs.
Proof.
  induction outs as [|o r IH]; intros om om' Hnd Hfin Hfresh H.
  - cbn in H. inversion H. now rewrite app_nil_r.
  - cbn [fold_res] in H. unfold set_opt at 1 in H. cbn [negb] in H.
    rewrite (Hfin o (or_introl eq_refl)) in H.
    destruct (set_opt1 om m o optional true) as [om1| |] eqn:E1; try discriminate.
    cbn [bind] in H.
    apply set_opt1_new_inv in E1; [|apply Hfresh; now left]. cbn [negb] in E1. subst om1.
    inversion Hnd as [|? ? Hnotin Hnd']; subst.
    apply IH in H; auto.
    + rewrite H. unfold fam_entries. cbn [map]. now rewrite <- app_assoc.
    + intros o2 Ho2. apply Hfin. now right.
    + intros o2 Ho2. rewrite assoc_app, Hfresh by now right.
      cbn. rewrite optkey_eqb_false; [reflexivity|]. intros [= ->]. contradiction.
Qed.

Lemma fold_suicide m optional outs : forall om,
  fold_res (fun om o => set_opt om m o optional true true) outs om = Ok om.
Proof. induction outs as [|o r IH]; intros om; cbn; [reflexivity|]. apply IH. Qed.

(* body of the loop over the members in proc_right, for a family node without offset *)
Definition fam_step (expr : list tok) (atoms : list atom) (suicide optional : bool)
    (outs : list string) (st : pstate) (m : name) : res pstate :=
  bind (bind (set_trig (ps_trig st) m (mkTrig expr atoms suicide))
          (fun tm => Ok (mkState tm (ps_opt st) (ps_lefts st) (ps_rights st) (ps_ct st))))
    (fun st1 =>
       bind (fold_res (fun om o => set_opt om m o optional suicide true) outs (ps_opt st1))
         (fun om => Ok (mkState (ps_trig st1) om (ps_lefts st1) (ps_rights st1) (ps_ct st1)))).

Definition fresh_member (st : pstate) (m : name) : Prop :=
  assoc Nat.eqb m (ps_trig st) = None /\ forall o, assoc optkey_eqb (m, o) (ps_opt st) = None.

(* a suicide trigger sets no optionality: it counts as a node without outputs *)
Lemma fam_step_fresh expr atoms suicide optional outs st m st' :
  NoDup outs -> (forall o, In o outs -> String.eqb o TASK_OUTPUT_FINISHED = false) ->
  fresh_member st m ->
  fam_step expr atoms suicide optional outs st m = Ok st' ->
  ps_trig st' = ps_trig st ++ [(m, [mkTrig expr atoms suicide])]
  /\ ps_opt st' = ps_opt st ++ fam_entries m optional (if suicide then [] else outs).
Proof.
  intros Hnd Hfin [Ft Fo] H. unfold fam_step, set_trig in H. rewrite Ft in H.
  cbn [find_trig put_trig bind ps_opt ps_trig] in H. rewrite (upd_fresh _ _ _ Ft) in H.
  destruct suicide.
  - rewrite fold_suicide in H. injection H as <-. cbn. now rewrite app_nil_r.
  - destruct (fold_res _ outs (ps_opt st)) as [om| |] eqn:E; try discriminate.
    apply opt_fold_fresh in E; auto. injection H as <-. cbn. auto.
Qed.

(* A right-hand family node whose members are new to the graph appends, member
   by member, the trigger and the family defaults. *)
Lemma fam_fold_fresh expr atoms suicide optional outs :
  NoDup outs -> (forall o, In o outs -> String.eqb o TASK_OUTPUT_FINISHED = false) ->
  forall ms st st',
  NoDup ms -> (forall m, In m ms -> fresh_member st m) ->
  fold_res (fam_step expr atoms suicide optional outs) ms st = Ok st' ->
  ps_trig st' = ps_trig st ++ map (fun m => (m, [mkTrig expr atoms suicide])) ms
  /\ ps_opt st' = ps_opt st ++ flat_map (fun m => fam_entries m optional (if suicide then [] else outs)) ms.
Proof.
  intros Hnd Hfin. induction ms as [|m r IH]; intros st st' Hndm Hfresh H.
  - injection H as <-. cbn. now rewrite !app_nil_r.
  - cbn [fold_res] in H.
    destruct (fam_step expr atoms suicide optional outs st m) as [st1| |] eqn:E; try discriminate.
    apply fam_step_fresh in E; [|exact Hnd|exact Hfin|apply Hfresh; now left]. destruct E as [Et Eo].
    inversion Hndm as [|? ? Hnotin Hndr]; subst.
    apply IH in H; [|exact Hndr|].
    + destruct H as [-> ->]. rewrite Et, Eo, <- !app_assoc. auto.
    + intros m2 Hm2. destruct (Hfresh m2 (or_intror Hm2)) as [Ft2 Fo2].
      assert (Hne : m2 <> m) by (intros ->; contradiction).
      split.
      * rewrite Et, assoc_app, Ft2. cbn. now rewrite (proj2 (Nat.eqb_neq _ _) Hne).
      * intros o. rewrite Eo, assoc_app, Fo2. now apply assoc_fam_entries_other.
Qed.

Lemma assoc_app_members {V} (v : V) m ms l :
  assoc Nat.eqb m l = None -> In m ms -> assoc Nat.eqb m (l ++ map (fun m => (m, v)) ms) = Some v.
Proof.
  intros Hl Hm. rewrite assoc_app, Hl.
  induction ms as [|a r IH]; cbn; [contradiction|].
  destruct (Nat.eqb_spec m a) as [_|Hne]; [reflexivity|]. destruct Hm; [congruence|auto].
Qed.

Lemma assoc_app_fam_entries m ms o outs d om :
  assoc optkey_eqb (m, o) om = None -> In m ms -> In o outs ->
  assoc optkey_eqb (m, o) (om ++ flat_map (fun m => fam_entries m d outs) ms) = Some (d, d, false).
Proof.
  intros Hl Hm Ho. rewrite assoc_app, Hl.
  induction ms as [|a r IH]; cbn [flat_map]; [contradiction|].
  destruct (Nat.eq_dec m a) as [<-|Hne].
  - now rewrite assoc_app, assoc_fam_entries_same.
  - rewrite assoc_app, assoc_fam_entries_other by exact Hne. destruct Hm; [congruence|auto].
Qed.

Lemma doc_outputs_nodup o : NoDup (doc_outputs o).
Proof.
  unfold doc_outputs. destruct (String.eqb o TASK_OUTPUT_FINISHED).
  - repeat constructor; cbn; intuition discriminate.
  - repeat constructor. intros [].
Qed.

Lemma doc_outputs_not_finished o o' : In o' (doc_outputs o) -> String.eqb o' TASK_OUTPUT_FINISHED = false.
Proof.
  unfold doc_outputs. destruct (String.eqb o TASK_OUTPUT_FINISHED) eqn:E.
  - intros [<-|[<-|[]]]; reflexivity.
  - intros [<-|[]]. exact E.
Qed.

Definition starts_finish (qual : option string) : bool :=
  match qual with Some q => String.prefix "finish" q | None => false end.

(* proc_right on a (possibly suicide-marked) family node, with a family
   qualifier or (on the right of a non-empty trigger) without qualifier: the
   loop over the members *)
Lemma proc_right_family fm eoc expr atoms st F ms qual opt (suicide : bool) outs :
  fam_members fm F = Some ms ->
  match qual with
  | Some k => assoc String.eqb k fam_to_mem_output_map = Some outs
  | None => expr <> [] /\ outs = []
  end ->
  proc_right fm eoc expr atoms st ((if suicide then [TBang] else []) ++ [TN (mkNode F 0 qual opt)])
  = if starts_finish qual && opt then GErr
    else fold_res (fam_step expr atoms suicide (if starts_finish qual then true else opt) outs) ms st.
Proof.
  intros Hf Ho. unfold proc_right.
  assert (Hs : parse_rhs (strip_parens ((if suicide then [TBang] else []) ++ [TN (mkNode F 0 qual opt)]))
               = Some (suicide, mkNode F 0 qual opt)) by (destruct suicide; reflexivity).
  rewrite Hs. cbn [n_name n_qual n_opt n_off]. rewrite Hf. fold (starts_finish qual).
  destruct (starts_finish qual && opt); [reflexivity|].
  destruct qual as [k|].
  - rewrite Ho. reflexivity.
  - destruct Ho as [Hne ->]. destruct expr; [congruence|reflexivity].
Qed.

(* The state after a right-hand family node FAM:q-all / FAM:q-any whose table
   entry is the documented one and whose members are new to the graph. *)
Theorem family_rhs fm eoc expr atoms st F ms q o all opt (suicide : bool) st' :
  In (q, o) alt_qualifiers -> out_entry_ok (fam_qual q all) = true ->
  fam_members fm F = Some ms -> NoDup ms -> (forall m, In m ms -> fresh_member st m) ->
  proc_right fm eoc expr atoms st
    ((if suicide then [TBang] else []) ++ [TN (mkNode F 0 (Some (fam_qual q all)) opt)]) = Ok st' ->
  let d := if String.eqb o TASK_OUTPUT_FINISHED then true else opt in
  ps_trig st' = ps_trig st ++ map (fun m => (m, [mkTrig expr atoms suicide])) ms
  /\ ps_opt st' = ps_opt st ++ flat_map (fun m => fam_entries m d (if suicide then [] else doc_outputs o)) ms.
Proof.
  intros Hq Hok Hf Hnd Hfresh H.
  destruct (out_entry_ok_inv _ Hok) as [o' [all' [Hd [Ho Hp]]]].
  rewrite (doc_table_lookup q o all Hq) in Hd. injection Hd as <- <-.
  rewrite (proc_right_family fm eoc expr atoms st F ms (Some _) opt suicide _ Hf Ho) in H.
  cbn [starts_finish] in H. rewrite Hp in H.
  destruct (String.eqb o TASK_OUTPUT_FINISHED && opt); [discriminate|].
  exact (fam_fold_fresh _ _ _ _ _ (doc_outputs_nodup o) (doc_outputs_not_finished o)
           ms st st' Hnd Hfresh H).
Qed.

(* with today's generated tables every documented qualifier passes the two checks *)
Lemma lhs_entries_ok q o all :
  In (q, o) alt_qualifiers ->
  fam_entry_ok (fam_qual q all) = true.
Proof.
  apply (forallb_both (fun q _ all => fam_entry_ok (fam_qual q all))). vm_compute. reflexivity.
Qed.

Lemma rhs_entries_ok q o all :
  In (q, o) alt_qualifiers -> out_entry_ok (fam_qual q all) = true.
Proof.
  apply (forallb_both (fun q _ all => out_entry_ok (fam_qual q all))). vm_compute. reflexivity.
Qed.
