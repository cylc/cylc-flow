(* Proofs/TaskMsgInv.v - projections of a step of Model/TaskMsg.v; the well-formedness invariant wf:
   it holds of the fresh task, and job preparation and single actions (act) keep it *)
From Coq Require Import List Bool Arith ZArith Lia.
From Cylc Require Import Base.Util Gen.TaskMsgTables Model.TaskMsg Proofs.TaskMsgProofs.
Import ListNotations.

Lemma In_add1 x o l : In x (add1 o l) <-> x = o \/ In x l.
Proof.
  unfold add1. destruct (mem out_eqb o l) eqn:E; cbn.
  - split; [auto|]. intros [->|H]; [|exact H].
    apply (mem_In out_eqb out_eqb_eq). exact E.
  - split; intros [H|H]; auto.
Qed.
Lemma In_addl x l a : In x (addl l a) <-> In x l \/ In x a.
Proof.
  unfold addl. revert l. induction a as [|o a IH]; intros l; cbn.
  - tauto.
  - rewrite IH, In_add1. split; intros H; intuition (subst; auto).
Qed.

Lemma pm_ignored t m f n : check t m f n = false -> process_message t m f n = (t, []).
Proof. intros C. rewrite pm_closed_eq. unfold pm_closed. rewrite C. reflexivity. Qed.

Lemma pm_ctl t m f n : check t m f n = true ->
  ctl_of (fst (process_message t m f n)) = ctl_next (ctl_of t) (hs t) (ht t) m (flag_received f).
Proof.
  intros C. rewrite pm_closed_eq. unfold pm_closed. rewrite C. cbn [negb fst].
  destruct (ctl_next (ctl_of t) (hs t) (ht t) m (flag_received f)); reflexivity.
Qed.
Lemma pm_st t m f n : check t m f n = true ->
  st (fst (process_message t m f n)) = c_st (ctl_next (ctl_of t) (hs t) (ht t) m (flag_received f)).
Proof. intros C. apply (f_equal c_st (pm_ctl t m f n C)). Qed.
Lemma pm_outs t m f n : check t m f n = true ->
  outs (fst (process_message t m f n)) = addl (outs t) (adds t m (flag_received f)).
Proof. intros C. rewrite pm_closed_eq. unfold pm_closed. rewrite C. reflexivity. Qed.
Lemma pm_eff t m f n : check t m f n = true ->
  snd (process_message t m f n) = eff_next t m (flag_received f).
Proof. intros C. rewrite pm_closed_eq. unfold pm_closed. rewrite C. reflexivity. Qed.

(* submit number and configuration never change in process_message *)
Definition same_frame (t t' : task) : Prop :=
  sn t' = sn t /\ cf_n t' = cf_n t /\ cf_m t' = cf_m t /\ cf_k t' = cf_k t.
Lemma pm_frame t m f n : same_frame t (fst (process_message t m f n)).
Proof.
  rewrite pm_closed_eq. unfold pm_closed, same_frame.
  destruct (check t m f n); cbn; auto.
Qed.

Lemma pm_outs_In t m f n x : check t m f n = true ->
  In x (outs (fst (process_message t m f n))) <-> In x (outs t) \/ In x (adds t m (flag_received f)).
Proof. intros C. rewrite pm_outs by exact C. apply In_addl. Qed.

(* an output complete after a message was so before, or is one that this message completes *)
Lemma pm_outs_inv t m f n o : In o (outs (fst (process_message t m f n))) ->
  In o (outs t) \/
  match o with
  | OSubmitted | OStarted => True
  | OSucceeded => m = MSucceeded
  | OFailed => m = MFailed /\ fail_final t (flag_received f) = true
  | OSubmitFailed => m = MSubFail /\ subfail_final t (flag_received f) = true
  | OExpired => m = MExpired
  | Custom j => m = MCustom j
  end.
Proof.
  destruct (check t m f n) eqn:C; [|rewrite pm_ignored by exact C; auto].
  rewrite pm_outs_In by exact C. intros [H|H]; [left; exact H|right].
  revert o H. apply Forall_forall.
  destruct m; cbn [adds]; repeat constructor.
  - destruct (fail_final t _); repeat constructor.
  - destruct (subfail_final t _); repeat constructor.
  - destruct (k <? cf_k t); repeat constructor.
Qed.

(* completed outputs only grow *)
Lemma pm_outs_mono t m f n x :
  In x (outs t) -> In x (outs (fst (process_message t m f n))).
Proof.
  intros H. destruct (check t m f n) eqn:C.
  - apply pm_outs_In; auto.
  - rewrite pm_ignored by exact C. exact H.
Qed.

Lemma prep_raw_outs t : outs (prep_raw t) = outs t.
Proof. unfold prep_raw. destruct (status_eqb (st t) Preparing); reflexivity. Qed.

Lemma step_outs_mono t o x : In x (outs t) -> In x (outs (fst (step t o))).
Proof.
  intros H. destruct o as [|ok|m f rel]; cbn [step].
  - destruct (preppable t); cbn [fst]; [rewrite prep_raw_outs|]; exact H.
  - apply pm_outs_mono. exact H.
  - apply pm_outs_mono. exact H.
Qed.

Lemma run_cons t o r : run t (o :: r) = (fst (run (fst (step t o)) r), step t o :: snd (run (fst (step t o)) r)).
Proof. reflexivity. Qed.
Lemma final_cons t o r : final t (o :: r) = final (fst (step t o)) r.
Proof. reflexivity. Qed.
Lemma final_app t a b : final t (a ++ b) = final (final t a) b.
Proof.
  revert t. induction a as [|o a IH]; intros t; [reflexivity|].
  cbn [app]. rewrite !final_cons. apply IH.
Qed.

(* every intermediate state of a run satisfies an inductive invariant *)
Lemma run_invariant (P : task -> Prop) :
  (forall t o, P t -> P (fst (step t o))) ->
  forall ops t, P t -> P (final t ops) /\ Forall (fun te => P (fst te)) (snd (run t ops)).
Proof.
  intros HP ops. induction ops as [|o r IH]; intros t Ht.
  - split; [exact Ht|constructor].
  - rewrite final_cons, run_cons. cbn [snd].
    destruct (IH _ (HP t o Ht)) as [H1 H2]. split; [exact H1|]. constructor; [apply HP; exact Ht|exact H2].
Qed.

Definition timer_ok (x : option timer) (len : nat) : Prop :=
  forall y, x = Some y -> tm_len y = len /\ tm_num y <= len.

(* What every task reached from a fresh one satisfies.  Outputs: from submitted (running) on,
   'submitted' ('started') is complete, and so are both once succeeded or failed is.  Timers: within
   their configured lengths; a final failure status means the timer is exhausted; a task waiting
   after a submission has a retry lined up (nothing else leads back to waiting); before the first
   submission there are no timers, and preparing means a submission has been counted. *)
Record wf (t : task) : Prop := {
  wf_hs : rk Submitted <= rk (st t) -> In OSubmitted (outs t);
  wf_ht : rk Running <= rk (st t) -> In OStarted (outs t);
  wf_closed : In OSucceeded (outs t) \/ In OFailed (outs t) ->
              In OSubmitted (outs t) /\ In OStarted (outs t);
  wf_exec : timer_ok (texec t) (cf_n t);
  wf_sub : timer_ok (tsub t) (cf_m t);
  wf_failed : st t = Failed -> no_next (texec t) = true;
  wf_subfailed : st t = SubmitFailed -> no_next (tsub t) = true;
  wf_wait : st t = Waiting -> 0 < sn t -> retry_lined_up t = true;
  wf_sn0 : sn t = 0 -> texec t = None /\ tsub t = None;
  wf_prep0 : st t = Preparing -> 0 < sn t
}.

Lemma hs_In t : hs t = true <-> In OSubmitted (outs t).
Proof. apply is_complete_In. Qed.
Lemma ht_In t : ht t = true <-> In OStarted (outs t).
Proof. apply is_complete_In. Qed.
Lemma hs_false_In t : hs t = false <-> ~ In OSubmitted (outs t).
Proof. rewrite <- hs_In. destruct (hs t); split; congruence. Qed.
Lemma ht_false_In t : ht t = false <-> ~ In OStarted (outs t).
Proof. rewrite <- ht_In. destruct (ht t); split; congruence. Qed.

Lemma wf_fresh n m k : wf (fresh n m k).
Proof.
  constructor; cbn; try (intros; lia); try tauto; try discriminate.
Qed.

Lemma timer_ok_reset x len : timer_ok x len -> timer_ok (reset_sub x) len.
Proof.
  intros H y. destruct x as [z|]; cbn; [|discriminate]. intros [= <-]. cbn.
  destruct (H z eq_refl). lia.
Qed.
Lemma psub_st_cases s : (s = Preparing /\ psub_st s = Submitted) \/ (s <> Preparing /\ psub_st s = s).
Proof. destruct s; cbn; auto; right; split; congruence. Qed.
Lemma psub_st_eq s s' : psub_st s = s' -> s' <> Submitted -> s = s'.
Proof. destruct s; cbn; intros <-; congruence. Qed.

(* the part of wf that speaks of status and timers only, for submit number n and
   configured lengths N, M (which do not change in process_message) *)
Record ctl_wf (n N M : nat) (c : ctl) : Prop := {
  cw_exec : timer_ok (c_exec c) N;
  cw_sub : timer_ok (c_sub c) M;
  cw_failed : c_st c = Failed -> no_next (c_exec c) = true;
  cw_subfailed : c_st c = SubmitFailed -> no_next (c_sub c) = true;
  cw_wait : c_st c = Waiting -> 0 < n -> timer_lined_up (c_sub c) || timer_lined_up (c_exec c) = true;
  cw_sn0 : n = 0 -> c_exec c = None /\ c_sub c = None;
  cw_prep0 : c_st c = Preparing -> 0 < n
}.

Lemma wf_ctl_wf t : wf t -> ctl_wf (sn t) (cf_n t) (cf_m t) (ctl_of t).
Proof. intros []. constructor; assumption. Qed.

(* a timer that could be advanced: the new one is within bounds and lines a retry up *)
Lemma next_of_ok x y' len : timer_ok x len -> next_of x = Some y' ->
  timer_ok (Some y') len /\ timer_lined_up (Some y') = true /\ x <> None.
Proof.
  intros Hx. destruct x as [y|]; [|discriminate]. cbn [next_of]. unfold timer_next.
  destruct (Hx y eq_refl) as [Hl _].
  destruct (tm_num y <? tm_len y) eqn:E; [|discriminate]. apply Nat.ltb_lt in E.
  intros [= <-]. split; [|split; [reflexivity|discriminate]]. intros z [= <-]. cbn. lia.
Qed.

Lemma act_wf n N M m c : ctl_wf n N M c -> ctl_wf n N M (act m c).
Proof.
  intros K. pose proof K as [T1 T2 F SF Wt Z P].
  destruct m; cbn [act]; try exact K.
  - destruct (psub_st_cases (c_st c)) as [[E Q]|[_ Q]]; rewrite Q.
    + constructor; cbn; try assumption; discriminate.
    + destruct c. exact K.
  - constructor; cbn; try assumption; try discriminate.
    + apply timer_ok_reset. exact T2.
    + intros z. destruct (Z z) as [-> ->]. auto.
  - constructor; cbn; try assumption; discriminate.
  - destruct (next_of (c_exec c)) as [x'|] eqn:X.
    + destruct (next_of_ok _ _ _ T1 X) as (A & B & D).
      constructor; cbn [c_st c_exec c_sub]; try assumption; try discriminate.
      * intros _ _. rewrite B. apply orb_true_r.
      * intros z. destruct (Z z) as [E _]. contradiction.
    + constructor; cbn [c_st c_exec c_sub]; try assumption; try discriminate.
      intros _. unfold no_next. rewrite X. reflexivity.
  - destruct (next_of (c_sub c)) as [x'|] eqn:X.
    + destruct (next_of_ok _ _ _ T2 X) as (A & B & D).
      constructor; cbn [c_st c_exec c_sub]; try assumption; try discriminate.
      * intros _ _. rewrite B. reflexivity.
      * intros z. destruct (Z z) as [_ E]. contradiction.
    + constructor; cbn [c_st c_exec c_sub]; try assumption; try discriminate.
      intros _. unfold no_next. rewrite X. reflexivity.
  - constructor; cbn; try assumption; discriminate.
Qed.

Lemma timer_ok_retry x len : timer_ok x len -> timer_ok (set_retry_timer x len) len.
Proof.
  intros H y. destruct x as [z|]; cbn; intros [= <-]; cbn; [destruct (H z eq_refl)|]; lia.
Qed.

Lemma wf_prep t : wf t -> preppable t = true -> wf (prep_raw t).
Proof.
  intros W P. unfold preppable in P. apply orb_true_iff in P.
  destruct W as [W1 W2 W3 W4 W5 W6 W7 W8 W9 W10].
  unfold prep_raw. destruct (status_eqb (st t) Preparing) eqn:E.
  - apply status_eqb_eq in E.
    constructor; cbn; rewrite ?E; cbn; try (intros; lia); try discriminate; auto using timer_ok_retry.
    intros Z0. specialize (W10 E). lia.
  - destruct P as [P|P]; [|congruence]. apply status_eqb_eq in P.
    constructor; cbn; try (intros; lia); try discriminate; auto using timer_ok_retry.
Qed.
