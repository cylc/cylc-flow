(* Proofs/LikeGlobProofs.v — lemmas about Model/LikeGlob.v.  Both exactness results (LIKE on
   the translated pattern for [safe] patterns, GLOB on the escaped pattern always) compare two
   token lists with [tmatch_rel]; [pat_nonempty], [no_flow] are the side conditions of C40. *)
From Coq Require Import List PeanoNat BinInt Bool Lia.
From Cylc Require Import Base.Util Model.LikeGlob.
Import ListNotations.
Open Scope Z_scope.

(* how a token matches: 0 = any run of characters, 1 = nothing, 2 = exactly one character *)
Definition kind (t : tok) : nat :=
  match t with TStar => 0%nat | TBad | TFuel => 1%nat | _ => 2%nat end.

Definition tok_rel (eq1 eq2 : Z -> Z -> bool) (P : Z -> Prop) (t1 t2 : tok) : Prop :=
  kind t1 = kind t2 /\
  (kind t1 = 2%nat -> forall x, P x -> tok1 eq1 t1 x = tok1 eq2 t2 x).

Lemma tmatch_star eq p s :
  tmatch eq (TStar :: p) s =
  tmatch eq p s || match s with [] => false | _ :: s' => tmatch eq (TStar :: p) s' end.
Proof. destruct s; reflexivity. Qed.

Lemma tmatch_single eq t p s :
  kind t = 2%nat ->
  tmatch eq (t :: p) s =
  match s with [] => false | x :: s' => tok1 eq t x && tmatch eq p s' end.
Proof. destruct t; cbn; intros H; try discriminate; reflexivity. Qed.

Lemma tmatch_dead eq t p s : kind t = 1%nat -> tmatch eq (t :: p) s = false.
Proof. destruct t; cbn; intros H; try discriminate; reflexivity. Qed.

Lemma kind_cases t : kind t = 0%nat /\ t = TStar \/ kind t = 1%nat \/ kind t = 2%nat.
Proof. destruct t; cbn; auto. Qed.

(* token lists that agree pointwise in kind, and whose one-character tokens accept the same
   characters among those satisfying [P], match the same strings over [P] *)
Lemma tmatch_rel eq1 eq2 (P : Z -> Prop) p1 p2 :
  Forall2 (tok_rel eq1 eq2 P) p1 p2 ->
  forall s, Forall P s -> tmatch eq1 p1 s = tmatch eq2 p2 s.
Proof.
  induction 1 as [|t1 t2 p1 p2 [Hk Hs] _ IH]; intros s HP.
  - reflexivity.
  - destruct (kind_cases t1) as [[K1 ->]|[K1|K1]].
    + assert (t2 = TStar) as -> by (destruct t2; cbn in Hk; congruence).
      induction s as [|x s IHs].
      * rewrite !tmatch_star. now rewrite IH.
      * rewrite (tmatch_star eq1), (tmatch_star eq2).
        rewrite (IH _ HP). f_equal. apply IHs. now inversion HP.
    + rewrite tmatch_dead by exact K1. rewrite tmatch_dead by congruence. reflexivity.
    + rewrite (tmatch_single eq1) by exact K1.
      rewrite (tmatch_single eq2) by congruence.
      destruct s as [|x s]; [reflexivity|].
      inversion HP as [|? ? Hx Hrest]; subst.
      rewrite (Hs K1 x Hx). f_equal. now apply IH.
Qed.

Lemma Forall2_map {A B C} (R : B -> C -> Prop) (f : A -> B) (g : A -> C) l :
  (forall x, In x l -> R (f x) (g x)) -> Forall2 R (map f l) (map g l).
Proof.
  induction l as [|x l IH]; intros H; cbn [map]; constructor.
  - apply H. now left.
  - apply IH. intros y Hy. apply H. now right.
Qed.

Lemma mem_Z_false x l : mem Z.eqb x l = false <-> ~ In x l.
Proof. apply mem_false, Z.eqb_eq. Qed.

Lemma spec_glob_nostar p s : has_star p = false -> spec_glob p s = str_eqb p s.
Proof.
  unfold has_star, spec_glob, str_eqb. revert s.
  induction p as [|c p IH]; intros s H.
  - destruct s; reflexivity.
  - cbn in H. apply orb_false_iff in H. destruct H as [Hc Hp].
    cbn [map]. unfold spec_tok at 1.
    assert (E : (c =? c_star) = false) by (rewrite Z.eqb_sym; exact Hc).
    rewrite E. rewrite tmatch_single by reflexivity.
    destruct s as [|x s]; [reflexivity|]. cbn [tok1 list_eqb]. now rewrite IH.
Qed.

(* [safe p s]: p has no '_' / '%', and no character of p equals a character of s
   only up to ASCII case *)
Definition safe (p s : str) : Prop :=
  (forall c, In c p -> c <> c_us /\ c <> c_pct) /\
  (forall a b, In a p -> In b s -> fold_ascii a = fold_ascii b -> a = b).

Lemma like_translate_spec p s : safe p s -> sqlite_like (translate p) s = spec_glob p s.
Proof.
  intros [Hw Hc]. unfold sqlite_like, spec_glob, translate.
  apply tmatch_rel with (P := fun b => In b s); [|apply Forall_forall; auto].
  rewrite map_map. apply Forall2_map. intros c Hin.
  unfold like_tok, spec_tok. destruct (Z.eqb_spec c c_star) as [->|Hne].
  - cbn. split; [reflexivity|discriminate].
  - destruct (Hw c Hin) as [H1 H2].
    destruct (Z.eqb_spec c c_pct); [congruence|].
    destruct (Z.eqb_spec c c_us); [congruence|].
    split; [reflexivity|]. intros _ x Hx. cbn [tok1]. unfold eq_nocase.
    destruct (Z.eqb_spec (fold_ascii c) (fold_ascii x)) as [E|E].
    + rewrite (Hc c x Hin Hx E). symmetry. apply Z.eqb_refl.
    + destruct (Z.eqb_spec c x) as [->|]; congruence.
Qed.

Definition pat_safe (pat : option str) (names : list str) : Prop :=
  match pat with
  | None => True
  | Some p => p <> [] /\ (has_star p = true -> forall s, In s names -> safe p s)
  end.

Lemma legacy_code_match_spec pat names s :
  pat_safe pat names -> In s names -> legacy_code_match pat s = spec_match pat s.
Proof.
  destruct pat as [p|]; [|reflexivity]. intros [Hne Hs] Hin.
  destruct p as [|c p]; [congruence|]. cbn [legacy_code_match spec_match].
  destruct (has_star (c :: p)) eqn:E.
  - apply like_translate_spec. auto.
  - symmetry. now apply spec_glob_nostar.
Qed.

Lemma select_from_ext f g i rows :
  (forall r, In r rows -> f r = g r) -> select_from f i rows = select_from g i rows.
Proof.
  revert i; induction rows as [|r rows IH]; intros i H; cbn; [reflexivity|].
  rewrite (H r (or_introl eq_refl)). rewrite IH; [reflexivity|]. intros; apply H; now right.
Qed.

(* two matchers that agree on the recorded names and cycle points answer alike *)
Lemma run_query_ext m1 m2 q rows :
  (forall s, In s (map r_name rows) -> m1 (q_task q) s = m2 (q_task q) s) ->
  (forall s, In s (map r_cycle rows) -> m1 (q_cycle q) s = m2 (q_cycle q) s) ->
  run_query_with m1 q rows = run_query_with m2 q rows.
Proof.
  intros Ht Hc. unfold run_query_with. destruct (polling_ok q); [|reflexivity]. f_equal.
  apply select_from_ext. intros r Hr. unfold row_ok.
  rewrite (Ht _ (in_map r_name _ _ Hr)), (Hc _ (in_map r_cycle _ _ Hr)). reflexivity.
Qed.

Lemma select_from_In f k rows i :
  In i (select_from f k rows) <->
  exists j r, i = (k + j)%nat /\ nth_error rows j = Some r /\ f r = true.
Proof.
  revert k; induction rows as [|r rows IH]; intros k; cbn [select_from].
  - split; [intros []|intros ([|j] & r & _ & [=] & _)].
  - split.
    + intros H.
      assert (H' : f r = true /\ k = i \/ In i (select_from f (S k) rows))
        by (destruct (f r); [destruct H; auto|auto]).
      destruct H' as [[Hf <-]|H']; [exists 0%nat, r; auto|].
      apply IH in H'. destruct H' as (j & r' & -> & H'). exists (S j), r'.
      split; [apply plus_n_Sm|exact H'].
    + intros ([|j] & r' & -> & Hn & Hf).
      * injection Hn as ->. rewrite Hf, Nat.add_0_r. now left.
      * assert (H : In (k + S j)%nat (select_from f (S k) rows))
          by (apply IH; exists j, r'; rewrite <- plus_n_Sm; auto).
        destruct (f r); [now right|exact H].
Qed.

Lemma select_from_NoDup f k rows : NoDup (select_from f k rows).
Proof.
  revert k; induction rows as [|r rows IH]; intros k; cbn; [constructor|].
  destruct (f r); [|apply IH]. constructor; [|apply IH].
  intros H. apply select_from_In in H. destruct H as (j & _ & E & _).
  apply (Nat.nle_succ_diag_l k). rewrite E at 2. apply Nat.le_add_r.
Qed.

Lemma legacy_query_exact_restricted q rows :
  pat_safe (q_task q) (map r_name rows) ->
  pat_safe (q_cycle q) (map r_cycle rows) ->
  legacy_code_query q rows = spec_query q rows.
Proof.
  intros Ht Hc. apply run_query_ext; intros s Hs; eapply legacy_code_match_spec; eassumption.
Qed.

Lemma query_result m q rows l :
  run_query_with m q rows = Some l ->
  NoDup l /\
  forall i, In i l <-> exists r, nth_error rows i = Some r /\ row_ok m q r = true.
Proof.
  unfold run_query_with. destruct (polling_ok q); [|discriminate]. intros [= <-].
  split; [apply select_from_NoDup|]. intros i. rewrite select_from_In. split.
  - intros (j & r & -> & H). exists r. exact H.
  - intros (r & H). exists i, r. auto.
Qed.

Definition no_flow (q : query) : query :=
  {| q_task := q_task q; q_cycle := q_cycle q; q_sel := q_sel q;
     q_trigger := q_trigger q; q_message := q_message q; q_flow := None |}.

Lemma row_ok_flow m q r f :
  q_flow q = Some f ->
  row_ok m q r = true <-> In f (r_flows r) /\ row_ok m (no_flow q) r = true.
Proof.
  intros Hf. unfold row_ok, no_flow. cbn. rewrite Hf. cbn.
  rewrite andb_true_r, andb_true_iff, mem_Z_In. apply and_comm.
Qed.

Lemma sid_mem_In x l : sid_mem x l = true <-> In x l.
Proof. apply mem_nat_In. Qed.

(* a boolean formula read off connective by connective *)
Lemma orb_iff a b (P Q : Prop) :
  (a = true <-> P) -> (b = true <-> Q) -> (a || b = true <-> P \/ Q).
Proof.
  intros HP HQ. eapply iff_trans; [apply orb_true_iff|].
  eapply iff_trans; [apply or_iff_compat_r, HP|apply or_iff_compat_l, HQ].
Qed.

Lemma andb_iff a b (P Q : Prop) :
  (a = true <-> P) -> (b = true <-> Q) -> (a && b = true <-> P /\ Q).
Proof.
  intros HP HQ. eapply iff_trans; [apply andb_true_iff|].
  eapply iff_trans; [apply and_iff_compat_r, HP|apply and_iff_compat_l, HQ].
Qed.

Definition esc_tok (c : Z) : tok :=
  if c =? c_star then TStar
  else if (c =? c_qm) || (c =? c_lb) then TSet false [(c, c)]
  else TLit c.

Lemma glob_toks_escape p : forall fuel,
  (List.length (glob_escape p) < fuel)%nat ->
  glob_toks fuel (glob_escape p) = map esc_tok p.
Proof.
  induction p as [|c p IH]; intros [|fuel] Hf;
    [now apply Nat.nlt_0_r in Hf|reflexivity|now apply Nat.nlt_0_r in Hf|].
  unfold glob_escape in *. cbn [flat_map map] in *. fold (glob_escape p) in *.
  rewrite app_length in Hf. unfold esc_tok at 1.
  destruct (Z.eqb_spec c c_qm) as [->|Hq]; [|destruct (Z.eqb_spec c c_lb) as [->|Hl]];
    cbn [orb app length] in *.
  - cbn. rewrite IH by lia. reflexivity.
  - cbn. rewrite IH by lia. reflexivity.
  - cbn [glob_toks]. destruct (c =? c_star).
    + rewrite IH by lia. reflexivity.
    + destruct (Z.eqb_spec c c_qm); [contradiction|]. destruct (Z.eqb_spec c c_lb); [contradiction|].
      rewrite IH by lia. reflexivity.
Qed.

Lemma glob_escape_exact p s : sqlite_glob (glob_escape p) s = spec_glob p s.
Proof.
  unfold sqlite_glob, spec_glob. rewrite glob_toks_escape by apply Nat.lt_succ_diag_r.
  apply tmatch_rel with (P := fun _ => True); [|apply Forall_forall; auto].
  apply Forall2_map. intros c _.
  unfold esc_tok, spec_tok. destruct (Z.eqb_spec c c_star); [split; [reflexivity|discriminate]|].
  destruct ((c =? c_qm) || (c =? c_lb)); (split; [reflexivity|]); intros _ x _; [|reflexivity].
  cbn. unfold in_range. cbn [fst snd]. rewrite orb_false_r.
  destruct (Z.eqb_spec c x) as [->|Hne].
  - rewrite Z.leb_refl. reflexivity.
  - destruct (Z.leb_spec c x), (Z.leb_spec x c); cbn; try reflexivity. lia.
Qed.

(* the empty pattern is the caller's "not given" (`if task:`), not a pattern *)
Definition pat_nonempty (pat : option str) : Prop := pat <> Some [].

Lemma code_match_spec pat s : pat_nonempty pat -> code_match pat s = spec_match pat s.
Proof.
  destruct pat as [p|]; [|reflexivity]. intros Hne.
  destruct p as [|c p]; [exfalso; apply Hne; reflexivity|]. cbn [code_match spec_match].
  destruct (has_star (c :: p)) eqn:E.
  - apply glob_escape_exact.
  - symmetry. now apply spec_glob_nostar.
Qed.
