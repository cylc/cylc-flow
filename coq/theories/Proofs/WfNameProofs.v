(* Proofs/WfNameProofs.v — lemmas about Model/WfName.v (C39).
   The core is [np_walk]: normpath's walk over the components of a relative
   path leaves a stack  real names ++ k times ".." ; the same walk in absolute
   mode on top of a stack S leaves  real names ++ S without its k top entries.
   An accepted name has k = 0, so under any cylc-run directory it only pushes.
   Second half: the characters of an accepted name ([accepted_chars], [in_cls_split]), and
   what lets C39 evaluate on the generated tables ([none_in_ranges], [except], the
   extensionality of [validate] in its character classes). *)
From Coq Require Import List BinInt Bool Lia.
From Cylc Require Import Base.Util Gen.WfNameRules Gen.UniClasses Model.WfName.
Import ListNotations.
Open Scope Z_scope.

(* a real directory entry name: not empty, not "." or "..", no slash *)
Definition real_comp (c : codes) : Prop :=
  c <> [] /\ c <> dot /\ c <> dotdot /\ ~ In 47 c.

Lemma codes_eqb_eq a b : codes_eqb a b = true <-> a = b.
Proof. apply list_eqb_Z_eq. Qed.

Lemma codes_eqb_neq a b : codes_eqb a b = false <-> a <> b.
Proof.
  rewrite <- codes_eqb_eq. destruct (codes_eqb a b); split; congruence.
Qed.

Lemma codes_eqb_refl a : codes_eqb a a = true.
Proof. now apply codes_eqb_eq. Qed.

Lemma mem_codes_In x l : mem codes_eqb x l = true <-> In x l.
Proof. apply mem_In. intros a b. apply codes_eqb_eq. Qed.

Lemma last_is_snoc c s : last_is c s = true -> exists s', s = s' ++ [c].
Proof.
  unfold last_is. destruct (rev s) as [|x r] eqn:E; [discriminate|].
  intros H. apply Z.eqb_eq in H. subst x. exists (rev r).
  rewrite <- (rev_involutive s), E. reflexivity.
Qed.

Lemma last_is_last c s x : last_is c (s ++ [x]) = (x =? c).
Proof. unfold last_is. now rewrite rev_app_distr. Qed.

Lemma last_is_app_single c s : last_is c (s ++ [c]) = true.
Proof. rewrite last_is_last. apply Z.eqb_refl. Qed.

Lemma split_on_nonnil sep s : split_on sep s <> [].
Proof.
  destruct s as [|c r]; cbn; [discriminate|].
  destruct (c =? sep); [discriminate|]. destruct (split_on sep r); discriminate.
Qed.

Lemma split_on_app sep a b :
  split_on sep (a ++ sep :: b) = split_on sep a ++ split_on sep b.
Proof.
  induction a as [|c a IH]; cbn.
  - rewrite Z.eqb_refl. reflexivity.
  - destruct (c =? sep); [now rewrite IH|].
    rewrite IH. pose proof (split_on_nonnil sep a) as Hn.
    destruct (split_on sep a); [congruence|reflexivity].
Qed.

Lemma split_on_no_sep sep s : Forall (fun c => ~ In sep c) (split_on sep s).
Proof.
  induction s as [|x s IH]; cbn [split_on]; [repeat constructor; intros []|].
  destruct (x =? sep) eqn:E; [constructor; [intros []|exact IH]|].
  assert (Hx : x <> sep) by (intros ->; rewrite Z.eqb_refl in E; discriminate).
  destruct IH as [|h t Hh Ht].
  - constructor; [|constructor]. intros [->|[]]. now apply Hx.
  - constructor; [|exact Ht]. intros [->|Hin]; [now apply Hx|exact (Hh Hin)].
Qed.

Lemma split_on_nosep_id sep s : ~ In sep s -> split_on sep s = [s].
Proof.
  induction s as [|x s IH]; cbn; [reflexivity|]. intros H.
  destruct (x =? sep) eqn:E; [apply Z.eqb_eq in E; subst; exfalso; apply H; now left|].
  rewrite IH; [reflexivity|]. intros Hin; apply H; now right.
Qed.

Lemma split_join sep comps :
  comps <> [] -> Forall (fun c => ~ In sep c) comps ->
  split_on sep (join_with sep comps) = comps.
Proof.
  induction comps as [|c r IH]; [congruence|]. intros _ HF.
  inversion HF as [|? ? Hc Hr]; subst. cbn [join_with].
  destruct r as [|c' r'].
  - now apply split_on_nosep_id.
  - rewrite split_on_app, split_on_nosep_id by exact Hc.
    rewrite IH; [reflexivity|discriminate|exact Hr].
Qed.

Lemma join_app sep a b :
  b <> [] ->
  join_with sep (a ++ b) =
  join_with sep a ++ (match a with [] => [] | _ => [sep] end) ++ join_with sep b.
Proof.
  intros Hb. induction a as [|x a IH]; [reflexivity|].
  cbn [app join_with]. destruct a as [|y a'].
  - cbn. destruct b; [congruence|reflexivity].
  - cbn [app] in *. rewrite IH. cbn [app]. now rewrite <- app_assoc.
Qed.

Lemma join_nonempty sep comps :
  comps <> [] -> Forall (fun c => c <> []) comps -> join_with sep comps <> [].
Proof.
  destruct comps as [|c r]; [congruence|]. intros _ HF.
  inversion HF as [|? ? Hc _]; subst. cbn [join_with].
  destruct r; [exact Hc|]. destruct c; [congruence|discriminate].
Qed.

Lemma np_step_dotdot init T :
  np_step init T dotdot =
  match T with
  | [] => if init then [] else [dotdot]
  | top :: rest => if codes_eqb top dotdot then dotdot :: T else rest
  end.
Proof. reflexivity. Qed.

(* a component is skipped, or is "..", or is pushed *)
Lemma np_step_cases x :
  (forall init T, np_step init T x = T) \/ x = dotdot \/
  (x <> [] /\ x <> dot /\ x <> dotdot /\ forall init T, np_step init T x = x :: T).
Proof.
  unfold np_step.
  destruct (codes_eqb x []) eqn:E1; [now left|].
  destruct (codes_eqb x dot) eqn:E2; [now left|].
  destruct (codes_eqb x dotdot) eqn:E3; right; [left; now apply codes_eqb_eq|right].
  apply codes_eqb_neq in E1, E2, E3. auto.
Qed.

(* absolute mode: ".." never stays on the stack *)
Lemma np_step_true_nodd T comp :
  Forall (fun c => c <> dotdot) T -> Forall (fun c => c <> dotdot) (np_step true T comp).
Proof.
  intros HT. destruct (np_step_cases comp) as [E|[->|(_ & _ & H & E)]]; rewrite ?E.
  - exact HT.
  - rewrite np_step_dotdot. destruct HT as [|top rest Htop Hrest]; [constructor|].
    apply codes_eqb_neq in Htop. rewrite Htop. exact Hrest.
  - now constructor.
Qed.

Lemma skipn_tl {A} k (l : list A) : skipn (S k) l = tl (skipn k l).
Proof. revert l; induction k as [|k IH]; intros [|x l]; try reflexivity. apply IH. Qed.

(* The relative walk keeps real names on top of the ".." it could not resolve;
   each of those pops one more entry of the stack S that the absolute walk
   starts from (and is dropped once S is used up). *)
Lemma np_step_rel real k x :
  ~ In 47 x -> Forall real_comp real ->
  exists real' k',
    Forall real_comp real' /\
    np_step false (real ++ repeat dotdot k) x = real' ++ repeat dotdot k' /\
    forall S, Forall (fun c => c <> dotdot) S ->
              np_step true (real ++ skipn k S) x = real' ++ skipn k' S.
Proof.
  intros Hx Hreal. destruct (np_step_cases x) as [E|[->|(H1 & H2 & H3 & E)]].
  - exists real, k. rewrite E. auto.
  - destruct Hreal as [|top rest Htop Hrest].
    + exists [], (S k). split; [constructor|]. split; [destruct k; reflexivity|].
      intros S HS. rewrite skipn_tl, np_step_dotdot. cbn [app].
      rewrite <- (firstn_skipn k S) in HS. apply Forall_app in HS.
      destruct (proj2 HS) as [|top rest Htop _]; [reflexivity|].
      apply codes_eqb_neq in Htop. now rewrite Htop.
    + exists rest, k. destruct Htop as (_ & _ & Htop & _). apply codes_eqb_neq in Htop.
      split; [exact Hrest|].
      split; [|intros S _]; cbn [app]; rewrite np_step_dotdot, Htop; reflexivity.
  - exists (x :: real), k. rewrite E. split; [constructor; [repeat split|]; assumption|].
    split; [reflexivity|]. intros S _. apply E.
Qed.

Lemma np_walk comps : Forall (fun x => ~ In 47 x) comps -> forall real k,
  Forall real_comp real ->
  exists real' k',
    Forall real_comp real' /\
    fold_left (np_step false) comps (real ++ repeat dotdot k) = real' ++ repeat dotdot k' /\
    forall S, Forall (fun c => c <> dotdot) S ->
              fold_left (np_step true) comps (real ++ skipn k S) = real' ++ skipn k' S.
Proof.
  induction 1 as [|x comps Hx _ IH]; intros real k Hreal; cbn [fold_left].
  - exists real, k. auto.
  - destruct (np_step_rel real k x Hx Hreal) as (r1 & k1 & H1 & -> & Habs1).
    destruct (IH r1 k1 H1) as (r2 & k2 & H2 & -> & Habs2).
    exists r2, k2. split; [exact H2|]. split; [reflexivity|].
    intros S HS. rewrite Habs1 by exact HS. apply Habs2, HS.
Qed.

Lemma isabs_cons_eq c r : isabs (c :: r) = (47 =? c).
Proof. unfold isabs. cbn [starts_with]. apply andb_true_r. Qed.

Lemma isabs_cons p : isabs p = true -> exists r, p = 47 :: r.
Proof.
  destruct p as [|c r]; [discriminate|]. rewrite isabs_cons_eq.
  intros H. apply Z.eqb_eq in H. subst. eauto.
Qed.

Lemma not_abs_slashes p : isabs p = false -> initial_slashes p = 0%nat.
Proof.
  destruct p as [|c r]; [reflexivity|]. rewrite isabs_cons_eq. intros H.
  unfold initial_slashes. cbn [starts_with]. rewrite H. reflexivity.
Qed.

Lemma abs_slashes p : isabs p = true -> negb (Nat.eqb (initial_slashes p) 0) = true.
Proof.
  unfold isabs, initial_slashes. intros ->.
  destruct (starts_with [47; 47; 47] p); [reflexivity|].
  destruct (starts_with [47; 47] p); reflexivity.
Qed.

(* join(run, name) is walked by walking run, then name: a slash that ends run
   only adds an empty component *)
Lemma pjoin_stack run name :
  isabs run = true -> isabs name = false ->
  np_stack true (split_on 47 (pjoin run name)) =
  fold_left (np_step true) (split_on 47 name) (np_stack true (split_on 47 run)).
Proof.
  intros Hr Hn. unfold pjoin, np_stack. rewrite Hn.
  destruct (isabs_cons _ Hr) as [r ->]. cbn [nonempty negb orb].
  destruct (last_is 47 (47 :: r)) eqn:E.
  - destruct (last_is_snoc _ _ E) as [body ->]. rewrite <- app_assoc. cbn [app].
    rewrite !split_on_app, !fold_left_app. reflexivity.
  - rewrite split_on_app, fold_left_app. reflexivity.
Qed.

(* initial_slashes only looks at the first three characters *)
Lemma slashes3 a b c r r' :
  initial_slashes (a :: b :: c :: r) = initial_slashes (a :: b :: c :: r').
Proof. unfold initial_slashes. cbn [starts_with]. reflexivity. Qed.

(* appending a relative path leaves the leading slashes as they are *)
Lemma slashes_app p s : isabs s = false -> initial_slashes (p ++ s) = initial_slashes p.
Proof.
  intros Hs. destruct p as [|a [|b [|c p]]]; [apply not_abs_slashes, Hs| | |apply slashes3].
  all: destruct s as [|d s]; [now rewrite app_nil_r|]; rewrite isabs_cons_eq in Hs.
  all: unfold initial_slashes; cbn [app starts_with]; rewrite Hs.
  - destruct (47 =? a); reflexivity.
  - destruct (47 =? a), (47 =? b); reflexivity.
Qed.

Lemma pjoin_slashes run name :
  isabs name = false -> initial_slashes (pjoin run name) = initial_slashes run.
Proof.
  intros Hn. unfold pjoin. rewrite Hn.
  destruct run as [|x body _] using rev_ind; [apply slashes_app, Hn|].
  replace (nonempty (body ++ [x])) with true by now destruct body.
  rewrite last_is_last. cbn [negb orb].
  destruct (x =? 47) eqn:Ex; [apply slashes_app, Hn|].
  (* the separator comes after the character x, which is not a slash *)
  rewrite <- app_assoc. cbn [app].
  rewrite !slashes_app; [reflexivity| |]; rewrite isabs_cons_eq, Z.eqb_sym; exact Ex.
Qed.

Lemma isabs_pjoin run name : isabs run = true -> isabs (pjoin run name) = true.
Proof.
  intros Hr. unfold pjoin. destruct (isabs name) eqn:E; [exact E|].
  destruct (isabs_cons _ Hr) as [r ->]. destruct (_ || _); reflexivity.
Qed.

Lemma normpath_abs p :
  isabs p = true -> normpath p = repeat 47 (initial_slashes p) ++ join_with 47 (path_comps p).
Proof.
  intros H. pose proof (abs_slashes _ H) as Hs. destruct (isabs_cons _ H) as [r ->].
  unfold normpath. destruct (initial_slashes (47 :: r)); [discriminate Hs|reflexivity].
Qed.

(* a relative path whose normal form is not ".", ".." or "../x" has components *)
Lemma normpath_rel p :
  isabs p = false -> starts_with dot (normpath p) = false ->
  normpath p = join_with 47 (path_comps p) /\ path_comps p <> [].
Proof.
  intros Ha. destruct p as [|z n]; [discriminate|].
  unfold normpath. rewrite (not_abs_slashes _ Ha). cbn [repeat app].
  destruct (path_comps (z :: n)) as [|c r]; [discriminate|].
  destruct (join_with 47 (c :: r)); [discriminate|]. split; [reflexivity|discriminate].
Qed.

Lemma parts_join comps :
  comps <> [] -> Forall real_comp comps -> parts (join_with 47 comps) = comps.
Proof.
  intros Hne Hreal. unfold parts. rewrite split_join.
  - apply filter_all_true. intros c Hc. rewrite Forall_forall in Hreal.
    destruct (Hreal c Hc) as (H1 & H2 & _).
    apply codes_eqb_neq in H1, H2. now rewrite H1, H2.
  - exact Hne.
  - eapply Forall_impl; [|exact Hreal]. intros c Hc. apply Hc.
Qed.

Section Main.
  Variable is_word is_digit : Z -> bool.

  Lemma first_fail_none rs : forall i s,
    first_fail is_word is_digit rs i s = None ->
    forall r, In r rs -> match_rule is_word is_digit r s = true.
  Proof.
    induction rs as [|r0 rs IH]; cbn; intros i s H r; [tauto|].
    destruct (match_rule is_word is_digit r0 s) eqn:E; [|discriminate].
    intros [<-|Hin]; [exact E|eauto].
  Qed.

  Lemma validate_ok chk name :
    validate is_word is_digit chk name = Ok ->
    first_fail is_word is_digit rules 0 name = None /\
    isabs name = false /\
    starts_with dot (normpath name) = false /\
    (chk = true -> check_reserved is_digit (parts (normpath name)) = Ok).
  Proof.
    unfold validate.
    destruct (first_fail is_word is_digit rules 0 name); [discriminate|].
    destruct (isabs name); [discriminate|].
    destruct (starts_with dot (normpath name)); [discriminate|].
    destruct chk; intros H; repeat split; auto. discriminate.
  Qed.

  Lemma check_reserved_ok ps :
    check_reserved is_digit ps = Ok ->
    Forall (fun c => mem codes_eqb c reserved_names = false
                     /\ is_run_number is_digit c = false) ps.
  Proof.
    induction ps as [|d r IH]; cbn [check_reserved]; [constructor|].
    destruct (mem codes_eqb d reserved_names) eqn:E1; [discriminate|].
    destruct (is_run_number is_digit d) eqn:E2; [discriminate|].
    intros H. constructor; auto.
  Qed.

  (* An accepted name normalises to a non-empty list of real names, and walking
     it on top of any stack free of ".." pushes exactly those. *)
  Lemma accepted_norm chk name :
    validate is_word is_digit chk name = Ok ->
    exists rest,
      isabs name = false /\ rest <> [] /\ Forall real_comp rest /\
      normpath name = join_with 47 rest /\
      (forall S, Forall (fun c => c <> dotdot) S ->
                 fold_left (np_step true) (split_on 47 name) S = rev rest ++ S) /\
      (chk = true -> Forall (fun c => mem codes_eqb c reserved_names = false
                                      /\ is_run_number is_digit c = false) rest).
  Proof.
    intros Hv. destruct (validate_ok _ _ Hv) as (_ & Habs & Hdot & Hres).
    destruct (np_walk (split_on 47 name)) with (real := @nil codes) (k := 0%nat)
      as (T & k & HT & Hrel & Hwalk).
    { apply split_on_no_sep. }
    { constructor. }
    destruct (normpath_rel name Habs Hdot) as [Hnp Hne].
    assert (E : path_comps name = rev (T ++ repeat dotdot k)).
    { unfold path_comps. rewrite (not_abs_slashes _ Habs). exact (f_equal (@rev _) Hrel). }
    rewrite E in Hnp, Hne. destruct k as [|k].
    2:{ (* the normalised path would start with ".." *)
      rewrite Hnp in Hdot. cbn [repeat] in Hdot.
      rewrite repeat_cons, app_assoc, rev_app_distr in Hdot. cbn [rev app] in Hdot.
      cbn [join_with] in Hdot. destruct (rev (T ++ repeat dotdot k)); discriminate Hdot. }
    rewrite app_nil_r in Hnp, Hne. apply Forall_rev in HT.
    exists (rev T). rewrite rev_involutive. repeat split; auto.
    intros Hchk. apply check_reserved_ok. rewrite <- (parts_join (rev T)), <- Hnp; auto.
  Qed.

  Lemma inside chk name run :
    validate is_word is_digit chk name = Ok -> isabs run = true ->
    exists rest,
      rest <> [] /\ Forall real_comp rest /\
      normpath name = join_with 47 rest /\
      initial_slashes (pjoin run name) = initial_slashes run /\
      path_comps (pjoin run name) = path_comps run ++ rest /\
      (chk = true -> Forall (fun c => mem codes_eqb c reserved_names = false
                                      /\ is_run_number is_digit c = false) rest).
  Proof.
    intros Hv Hrun.
    destruct (accepted_norm chk name Hv) as (rest & Habs & Hne & Hreal & Hnp & Hwalk & Hres).
    exists rest. repeat split; auto.
    - now apply pjoin_slashes.
    - unfold path_comps. rewrite (pjoin_slashes _ _ Habs), (abs_slashes _ Hrun).
      rewrite (pjoin_stack _ _ Hrun Habs), Hwalk, rev_app_distr, rev_involutive; [reflexivity|].
      unfold np_stack. apply fold_left_inv; [intros a b _; apply np_step_true_nodd|constructor].
  Qed.

  (* a character of the class is a word character, a digit, or one of its literal or
     range members (the last disjunct is decided by evaluation on the generated rules) *)
  Lemma in_cls_split cls c :
    in_cls is_word is_digit cls c = true ->
    is_word c = true \/ is_digit c = true \/
    in_cls (fun _ => false) (fun _ => false) cls c = true.
  Proof.
    unfold in_cls. induction cls as [|it cls IH]; cbn [existsb]; [discriminate|].
    intros H. apply orb_true_iff in H. destruct H as [H|H].
    - destruct it; cbn [item_match] in *; auto; right; right; rewrite H; reflexivity.
    - destruct (IH H) as [H1|[H1|H1]]; auto. right; right. rewrite H1. apply orb_true_r.
  Qed.

  Lemma match_dollar_cases P s :
    match_dollar P s = true ->
    exists body, (s = body \/ s = body ++ [10]) /\ P body = true.
  Proof.
    unfold match_dollar. intros H. apply orb_true_iff in H. destruct H as [H|H].
    - exists s. auto.
    - apply andb_true_iff in H. destruct H as [H1 H2].
      destruct (last_is_snoc _ _ H1) as [b ->]. rewrite removelast_last in H2. eauto.
  Qed.

  Lemma accepted_chars chk name cls :
    validate is_word is_digit chk name = Ok -> In (RAllowed cls) rules ->
    exists body, (name = body \/ name = body ++ [10]) /\ body <> [] /\
                 forall c, In c body -> in_cls is_word is_digit cls c = true.
  Proof.
    intros Hv Hin. destruct (validate_ok _ _ Hv) as (Hff & _).
    pose proof (first_fail_none _ _ _ Hff _ Hin) as Hm. cbn [match_rule] in Hm.
    destruct (match_dollar_cases _ _ Hm) as (body & Hb & HP).
    apply andb_true_iff in HP. destruct HP as [H1 H2].
    exists body. split; [exact Hb|]. split; [intros ->; discriminate H1|].
    rewrite forallb_forall in H2. exact H2.
  Qed.
End Main.

(* One pass over the table settles all of [cs] at once: a range that starts
   above the bound [m] of [cs] is dismissed by a single comparison.  Checking
   the characters one by one costs a pass over the table for each. *)
Definition none_in_ranges (cs : list Z) (m : Z) (rs : list (Z * Z)) : bool :=
  forallb (fun c => c <=? m) cs &&
  forallb (fun r => (m <? fst r) ||
                    forallb (fun c => negb (Z.leb (fst r) c && Z.leb c (snd r))) cs) rs.

Lemma none_in_ranges_spec cs m rs :
  none_in_ranges cs m rs = true -> forall c, In c cs -> in_ranges c rs = false.
Proof.
  unfold none_in_ranges, in_ranges. intros H c Hc.
  apply andb_true_iff in H. destruct H as [Hm H]. rewrite forallb_forall in Hm, H.
  specialize (Hm c Hc). apply Z.leb_le in Hm.
  destruct (existsb _ rs) eqn:E; [|reflexivity]. apply existsb_exists in E.
  destruct E as (r & Hr & E). apply H, orb_true_iff in Hr. destruct Hr as [Hr|Hr].
  - apply Z.ltb_lt in Hr. apply andb_true_iff in E. destruct E as [E _]. apply Z.leb_le in E. lia.
  - rewrite forallb_forall in Hr. rewrite (proj1 (negb_true_iff _) (Hr c Hc)) in E. discriminate.
Qed.

Lemma match_dollar_ext P Q s : (forall b, P b = Q b) -> match_dollar P s = match_dollar Q s.
Proof. intros H. unfold match_dollar. now rewrite !H. Qed.

Section Ext.
  Variables w w' d : Z -> bool.
  Hypothesis Hw : forall c, w c = w' c.

  Lemma in_cls_ext cls c : in_cls w d cls c = in_cls w' d cls c.
  Proof.
    unfold in_cls. induction cls as [|it cls IH]; [reflexivity|]. cbn [existsb]. rewrite IH.
    destruct it; cbn [item_match]; rewrite ?Hw; reflexivity.
  Qed.

  Lemma match_rule_ext r s : match_rule w d r s = match_rule w' d r s.
  Proof.
    destruct r; cbn [match_rule]; try reflexivity.
    - destruct s; [reflexivity|]. now rewrite in_cls_ext.
    - destruct s; [reflexivity|]. apply in_cls_ext.
    - apply match_dollar_ext. intros b. f_equal. apply forallb_ext, in_cls_ext.
    - apply match_dollar_ext. intros b. apply forallb_ext. intros c. now rewrite in_cls_ext.
  Qed.

  Lemma first_fail_ext rs : forall i s, first_fail w d rs i s = first_fail w' d rs i s.
  Proof.
    induction rs as [|r rs IH]; intros i s; cbn [first_fail]; [reflexivity|].
    now rewrite match_rule_ext, IH.
  Qed.

  Lemma validate_ext chk name : validate w d chk name = validate w' d chk name.
  Proof. unfold validate. now rewrite first_fail_ext. Qed.
End Ext.

(* [f] with the characters of [cs], on which it is false, decided first *)
Definition except (cs : list Z) (f : Z -> bool) (c : Z) : bool :=
  if mem Z.eqb c cs then false else f c.

Lemma except_eq cs f : (forall c, In c cs -> f c = false) -> forall c, f c = except cs f c.
Proof.
  intros H c. unfold except. destruct (mem Z.eqb c cs) eqn:E; [|reflexivity].
  apply H. apply (mem_In Z.eqb Z.eqb_eq). exact E.
Qed.
