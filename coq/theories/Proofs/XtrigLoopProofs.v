(* Proofs/XtrigLoopProofs.v — lemmas about Model/XtrigLoop.v: what a main-loop pass keeps,
   and the monitors of Proofs/XtrigProofs.v carried over from the manager to the loop. *)
From Coq Require Import List Bool ZArith Lia.
From Cylc Require Import Base.Util Model.Xtrig Model.XtrigLoop Proofs.XtrigProofs.
Import ListNotations.
Open Scope Z_scope.

(* only housekeeping takes a signature out of the succeeded ones *)
Lemma xstep_sat_mono st o st' evs s :
  xstep st o = (st', evs) -> In s (s_sat st) ->
  In s (s_sat st') \/ exists tids, o = XHousekeep tids.
Proof.
  intros E H. apply xstep_effect_spec in E.
  destruct E as [|tid now t _ c| | |s0 _|tids]; cbn [s_sat]; [auto|left|auto|auto|left|right; eauto].
  - now apply call_sat_mono.
  - destruct (smem s0 (s_sat st)); [exact H|apply in_app_iff; now left].
Qed.

Lemma xstep_call_tasks_ids st tid now st' evs :
  xstep st (XCall tid now) = (st', evs) -> map x_id (s_tasks st') = map x_id (s_tasks st).
Proof.
  cbn [xstep]. destruct (find_task tid (s_tasks st)) as [t|] eqn:E; intros [= <- <-]; [|reflexivity].
  cbn [s_tasks]. unfold set_task. rewrite map_map. apply map_ext_in. intros u Hu.
  destruct (Nat.eqb_spec (x_id u) tid); cbn; congruence.
Qed.

(* the calls of a pass, one by one *)
Lemma pass_calls_steps now (P : xstate -> list xevent -> xstate -> Prop) :
  (forall st, P st [] st) ->
  (forall st tid st1 ev1 st2 ev2,
     xstep st (XCall tid now) = (st1, ev1) -> P st1 ev2 st2 -> P st (ev1 ++ ev2) st2) ->
  forall pool st st' evs called, pass_calls st now pool = (st', evs, called) -> P st evs st'.
Proof.
  intros Hnil Hcall. induction pool as [|[tid elig] r IH]; intros st st' evs called; cbn [pass_calls].
  - intros [= <- <- <-]. apply Hnil.
  - destruct (elig && needs_call st tid); [|apply IH].
    destruct (xstep st (XCall tid now)) as [st1 ev1] eqn:E1.
    destruct (pass_calls st1 now r) as [[st2 ev2] c2] eqn:E2.
    intros [= <- <- <-]. exact (Hcall _ _ _ _ _ _ E1 (IH _ _ _ _ E2)).
Qed.

Lemma pass_calls_keep now s : forall pool st st' evs called,
  pass_calls st now pool = (st', evs, called) -> In s (s_sat st) ->
  In s (s_sat st') /\ (forall n iv, ~ In (EvSubmit s n iv) evs).
Proof.
  refine (pass_calls_steps now _ _ _).
  - intros st H. split; [exact H|]. intros n iv [].
  - intros st tid st1 ev1 st2 ev2 E1 IH H.
    destruct (xstep_sat_mono _ _ _ _ s E1 H) as [H1|[tids [=]]].
    destruct (IH H1) as [H2 H3]. split; [exact H2|].
    intros n iv Hin. apply in_app_iff in Hin. destruct Hin as [Hin|Hin]; [|exact (H3 n iv Hin)].
    destruct (xstep_submit_guard _ _ _ _ E1 s n iv Hin) as [_ Hns]. exact (Hns H).
Qed.

Lemma needed_sigs_spec tids ts s :
  In s (needed_sigs tids ts) <->
  exists t e, In t ts /\ In (x_id t) tids /\ In e (x_entries t) /\ e_sat e = false /\ e_sig e = s.
Proof.
  unfold needed_sigs. rewrite in_flat_map. split.
  - intros [t [Ht Hs]]. destruct (mem Nat.eqb (x_id t) tids) eqn:Em; [|destruct Hs].
    apply in_map_iff in Hs. destruct Hs as [e [<- He]]. apply filter_In in He.
    destruct He as [He Hn]. exists t, e. repeat split; auto.
    + now apply smem_In.
    + now apply negb_true_iff in Hn.
  - intros (t & e & Ht & Hid & He & Hu & <-). exists t. split; [exact Ht|].
    apply smem_In in Hid. unfold smem in Hid. rewrite Hid.
    apply in_map. apply filter_In. split; [exact He|]. now rewrite Hu.
Qed.

(* a succeeded signature that SOME pooled task (whatever
   its runahead / queued / held flags: [pool_hk] lists every pooled task) still
   has unsatisfied survives the pass, and its function is not called in the pass *)
Theorem pass_keeps_needed st now pool pool_hk st' evs res s :
  lstep true st (LPass now pool pool_hk) = (st', evs, res) ->
  In s (s_sat (l_x st)) ->
  In s (needed_sigs pool_hk (s_tasks (l_x st'))) ->
  In s (s_sat (l_x st')) /\ (forall n iv, ~ In (EvSubmit s n iv) evs).
Proof.
  cbn [lstep]. destruct (pass_calls (l_x st) now pool) as [[x1 ev1] called] eqn:Ep.
  intros E Hs Hn. destruct (pass_calls_keep now s _ _ _ _ _ Ep Hs) as [H1 H2].
  destruct (l_due st || has_succeed ev1); injection E as <- <- _; cbn [xstep l_x s_tasks] in *; [|auto].
  split.
  - now apply (xstep_housekeep_keeps x1 pool_hk _ _ s eq_refl).
  - intros n iv Hin. apply in_app_iff in Hin. destruct Hin as [Hin|Hin]; [exact (H2 n iv Hin)|].
    now apply forgets_no_submit in Hin.
Qed.

(* in every step of the loop: a succeeded signature disappears only in a pass
   whose housekeeping found NO pooled task needing it *)
Theorem loop_forgets_only_unneeded st o st' evs res s :
  lstep true st o = (st', evs, res) ->
  In s (s_sat (l_x st)) -> ~ In s (s_sat (l_x st')) ->
  exists now pool pool_hk, o = LPass now pool pool_hk /\ ~ In s (needed_sigs pool_hk (s_tasks (l_x st'))).
Proof.
  destruct o as [t|s0 ok|now pool pool_hk].
  - cbn [lstep]. intros [= <- _ _] H Hn. exfalso. apply Hn. exact H.
  - cbn [lstep]. destruct (xstep (l_x st) (XCallback s0 ok)) as [x' ev] eqn:E. intros [= <- _ _] H Hn.
    destruct (xstep_sat_mono _ _ _ _ s E H) as [H'|[tids [=]]]. destruct (Hn H').
  - intros E H Hn. exists now, pool, pool_hk. split; [reflexivity|]. intros Hneed.
    destruct (pass_keeps_needed _ _ _ _ _ _ _ s E H Hneed) as [Hk _]. exact (Hn Hk).
Qed.

(* Trace properties lift to the loop (both variants): a monitor that every
   manager step respects, and whose relation does not look at the task table when
   a task enters the pool, is respected by every history of the loop. *)
Section Monitor.
  Context {A : Type} (upd : A -> xevent -> A) (chk : A -> xevent -> Prop) (R : A -> xstate -> Prop).
  Hypothesis Hstep : respects upd chk R.
  Hypothesis Hadd : forall acc x t, R acc x ->
    R acc {| s_tnext := s_tnext x; s_sat := s_sat x; s_active := s_active x; s_tasks := add_task t (s_tasks x) |}.

  Lemma pass_calls_sound now : forall pool st st' evs called,
    pass_calls st now pool = (st', evs, called) -> forall acc, R acc st -> sound upd chk R acc evs st'.
  Proof.
    refine (pass_calls_steps now _ _ _).
    - intros st acc. apply sound_nil.
    - intros st tid st1 ev1 st2 ev2 E1 IH acc H.
      eapply sound_app; [exact (Hstep _ _ _ _ _ E1 H)|apply IH].
  Qed.

  Lemma lstep_sound hk acc st o st' evs res :
    lstep hk st o = (st', evs, res) -> R acc (l_x st) -> sound upd chk R acc evs (l_x st').
  Proof.
    destruct o as [t|s0 ok|now pool pool_hk]; cbn [lstep].
    - intros [= <- <- _] H. apply sound_nil, Hadd, H.
    - destruct (xstep (l_x st) (XCallback s0 ok)) as [x' ev] eqn:E. intros [= <- <- _].
      exact (Hstep _ _ _ _ _ E).
    - destruct (pass_calls (l_x st) now pool) as [[x1 ev1] called] eqn:Ep. intros E H.
      pose proof (pass_calls_sound now _ _ _ _ _ Ep _ H) as H1.
      destruct (l_due st || has_succeed ev1); [|injection E as <- <- _; exact H1].
      destruct (xstep x1 (XHousekeep (if hk then pool_hk else called))) as [x2 ev2] eqn:Eh.
      injection E as <- <- _. eapply sound_app; [exact H1|exact (Hstep _ _ _ _ _ Eh)].
  Qed.

  Lemma lrun_sound hk : forall ops acc st st' evs,
    lrun hk st ops = (st', evs) -> R acc (l_x st) -> sound upd chk R acc evs (l_x st').
  Proof.
    induction ops as [|o r IH]; intros acc st st' evs; cbn [lrun].
    - intros [= <- <-]. apply sound_nil.
    - destruct (lstep hk st o) as [[st1 ev1] res] eqn:E1. destruct (lrun hk st1 r) as [st2 ev2] eqn:E2.
      intros [= <- <-] H. eapply sound_app; [exact (lstep_sound _ _ _ _ _ _ _ E1 H)|exact (IH _ _ _ _ E2)].
  Qed.
End Monitor.
Arguments lrun_sound {A upd chk R}.
