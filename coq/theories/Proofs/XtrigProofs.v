(* Proofs/XtrigProofs.v — lemmas about Model/Xtrig.v: one iteration of a call and one step
   of the manager as relations ([entry_effect], [xstep_effect]), and the trace properties of
   C33 as monitors that every step respects ([monitored], [respects]). *)
From Coq Require Import List Bool ZArith Lia.
From Cylc Require Import Base.Util Model.Xtrig.
Import ListNotations.
Open Scope Z_scope.

Lemma smem_In s l : smem s l = true <-> In s l.
Proof. apply mem_nat_In. Qed.

Lemma smem_false s l : smem s l = false <-> ~ In s l.
Proof. apply mem_nat_false. Qed.

Lemma smemP s l : reflect (In s l) (smem s l).
Proof. apply iff_reflect. symmetry. apply smem_In. Qed.

Lemma remove_first_In s x l : In x (remove_first s l) -> In x l.
Proof.
  induction l as [|y r IH]; cbn; [tauto|]. destruct (Nat.eqb y s); cbn; [tauto|]. intuition.
Qed.

Lemma remove_first_NoDup s l : NoDup l -> NoDup (remove_first s l).
Proof.
  induction 1 as [|y l Hy Hnd IH]; cbn; [constructor|].
  destruct (Nat.eqb y s); [exact Hnd|]. constructor; [|exact IH].
  intros H. apply Hy. eapply remove_first_In; eauto.
Qed.

Lemma assoc_set_eq s v l : assoc Nat.eqb s (set_tnext s v l) = Some v.
Proof.
  induction l as [|[k w] r IH]; cbn; [now rewrite Nat.eqb_refl|].
  destruct (Nat.eqb s k) eqn:E; cbn; rewrite E; [reflexivity|exact IH].
Qed.

Lemma assoc_set_neq s s' v l : s <> s' -> assoc Nat.eqb s (set_tnext s' v l) = assoc Nat.eqb s l.
Proof.
  intros Hne. induction l as [|[k w] r IH]; cbn.
  - destruct (Nat.eqb_spec s s'); [contradiction|reflexivity].
  - destruct (Nat.eqb_spec s' k) as [E|Hk]; cbn.
    + subst k. destruct (Nat.eqb_spec s s'); [contradiction|reflexivity].
    + destruct (Nat.eqb s k); [reflexivity|exact IH].
Qed.

(* the loop of call_xtriggers_async: what one iteration can do, and the events it adds *)
Inductive entry_effect (now : Z) (c : cstate) (e : entry) : cstate -> list xevent -> Prop :=
| eff_none : entry_effect now c e c []
| eff_mark : In (e_sig e) (c_sat c) ->
    entry_effect now c e
      {| c_tnext := c_tnext c; c_sat := c_sat c; c_active := c_active c;
         c_entries := mark (e_label e) (c_entries c); c_events := c_events c |} []
| eff_clock : ~ In (e_sig e) (c_sat c) ->
    entry_effect now c e
      {| c_tnext := c_tnext c; c_sat := c_sat c ++ [e_sig e]; c_active := c_active c;
         c_entries := mark (e_label e) (c_entries c); c_events := c_events c ++ [EvSucceed (e_sig e)] |}
      [EvSucceed (e_sig e)]
| eff_submit : ~ In (e_sig e) (c_sat c) -> ~ In (e_sig e) (c_active c) ->
    (forall t, assoc Nat.eqb (e_sig e) (c_tnext c) = Some t -> t <= now) ->
    entry_effect now c e
      {| c_tnext := set_tnext (e_sig e) (now + e_intvl e) (c_tnext c); c_sat := c_sat c;
         c_active := c_active c ++ [e_sig e]; c_entries := c_entries c;
         c_events := c_events c ++ [EvSubmit (e_sig e) now (e_intvl e)] |}
      [EvSubmit (e_sig e) now (e_intvl e)].

Lemma call_entry_effect now c e : exists evs, entry_effect now c e (call_entry now c e) evs.
Proof.
  unfold call_entry. destruct (smemP (e_sig e) (c_sat c)) as [Hs|Hs].
  - destruct (e_clock e); eexists; now apply eff_mark.
  - destruct (e_clock e) as [trig|].
    + destruct (Z.ltb trig now); eexists; [now apply eff_clock|apply eff_none].
    + destruct (smemP (e_sig e) (c_active c)) as [Ha|Ha]; [eexists; apply eff_none|].
      destruct (assoc Nat.eqb (e_sig e) (c_tnext c)) as [t|] eqn:Et; [destruct (Z.ltb_spec now t)|];
        eexists; try apply eff_none; apply eff_submit; auto; rewrite Et; intros t' [= <-]; assumption.
Qed.

Lemma entry_effect_events now c e c' evs : entry_effect now c e c' evs -> c_events c' = c_events c ++ evs.
Proof. intros [| | |]; cbn; auto using app_nil_r. Qed.

Lemma fold_call_inv now (P : cstate -> Prop) :
  (forall c e c' evs, P c -> entry_effect now c e c' evs -> P c') ->
  forall es c, P c -> P (fold_left (call_entry now) es c).
Proof.
  intros Hstep. induction es as [|e r IH]; intros c Hc; cbn [fold_left]; [exact Hc|].
  destruct (call_entry_effect now c e) as [evs He]. apply IH. exact (Hstep _ _ _ _ Hc He).
Qed.

(* what a step can do, the loop of a call left folded *)
Inductive xstep_effect (st : xstate) : xop -> xstate -> list xevent -> Prop :=
| xs_no_task tid now : find_task tid (s_tasks st) = None -> xstep_effect st (XCall tid now) st []
| xs_call tid now t : find_task tid (s_tasks st) = Some t ->
    let c := fold_left (call_entry now) (unsat (x_entries t))
               {| c_tnext := s_tnext st; c_sat := s_sat st; c_active := s_active st;
                  c_entries := x_entries t; c_events := [] |} in
    xstep_effect st (XCall tid now)
      {| s_tnext := c_tnext c; s_sat := c_sat c; s_active := c_active c;
         s_tasks := set_task tid (c_entries c) (s_tasks st) |} (c_events c)
| xs_bad_callback s ok : ~ In s (s_active st) -> xstep_effect st (XCallback s ok) st [EvBadCallback s]
| xs_failed s : In s (s_active st) ->
    xstep_effect st (XCallback s false)
      {| s_tnext := s_tnext st; s_sat := s_sat st; s_active := remove_first s (s_active st);
         s_tasks := s_tasks st |} []
| xs_succeeded s : In s (s_active st) ->
    xstep_effect st (XCallback s true)
      {| s_tnext := s_tnext st; s_sat := if smem s (s_sat st) then s_sat st else s_sat st ++ [s];
         s_active := remove_first s (s_active st); s_tasks := s_tasks st |} [EvSucceed s]
| xs_housekeep tids :
    let need := needed_sigs tids (s_tasks st) in
    let gone := filter (fun s => negb (smem s need)) (s_sat st) in
    xstep_effect st (XHousekeep tids)
      {| s_tnext := filter (fun kv => negb (smem (fst kv) gone)) (s_tnext st);
         s_sat := filter (fun s => smem s need) (s_sat st);
         s_active := s_active st; s_tasks := s_tasks st |} (map EvForget gone).

Lemma xstep_effect_spec st o st' evs : xstep st o = (st', evs) -> xstep_effect st o st' evs.
Proof.
  destruct o as [tid now|s ok|tids]; cbn [xstep].
  - destruct (find_task tid (s_tasks st)) as [t|] eqn:Ef; intros [= <- <-]; [now apply xs_call|now apply xs_no_task].
  - destruct (smemP s (s_active st)); [destruct ok|]; intros [= <- <-]; now constructor.
  - intros [= <- <-]. apply xs_housekeep.
Qed.

(* A monitor reads the events of a history in order, keeping a ghost state [acc]
   ([upd]) and checking each event against the ghost state before it ([chk]).
   [R] relates the ghost state to the manager's state; a step that [respects]
   them emits checked events and re-establishes [R], and so does any history. *)
Section Monitor.
  Context {A : Type} (upd : A -> xevent -> A) (chk : A -> xevent -> Prop).

  Fixpoint monitored (acc : A) (evs : list xevent) : Prop :=
    match evs with
    | [] => True
    | ev :: r => chk acc ev /\ monitored (upd acc ev) r
    end.

  Lemma monitored_app : forall e1 acc e2,
    monitored acc (e1 ++ e2) <-> monitored acc e1 /\ monitored (fold_left upd e1 acc) e2.
  Proof.
    induction e1 as [|ev r IH]; intros acc e2; cbn [app monitored fold_left]; [tauto|].
    rewrite IH. symmetry. apply and_assoc.
  Qed.

  Lemma monitored_at acc pre ev post :
    monitored acc (pre ++ ev :: post) -> chk (fold_left upd pre acc) ev.
  Proof. intros H. apply monitored_app in H. apply H. Qed.

  Lemma monitored_forgets gone :
    (forall a s, chk a (EvForget s)) -> forall acc, monitored acc (map EvForget gone).
  Proof. intros H. induction gone as [|g r IH]; intros acc; cbn; auto. Qed.

  Lemma fold_forgets s x :
    (forall a s', upd a (EvForget s') = if Nat.eqb s' s then x else a) ->
    forall gone acc, fold_left upd (map EvForget gone) acc = if smem s gone then x else acc.
  Proof.
    intros Hu. induction gone as [|g r IH]; intros acc; cbn [map fold_left]; [reflexivity|].
    rewrite IH, Hu. unfold smem. cbn [mem]. rewrite (Nat.eqb_sym s g).
    destruct (Nat.eqb g s); cbn; [destruct (mem Nat.eqb s r); reflexivity|reflexivity].
  Qed.

  (* the loop of a call: it is enough that each iteration's own events are checked *)
  Lemma call_sound now (Rc : A -> cstate -> Prop) :
    (forall a c e c' evs, entry_effect now c e c' evs -> Rc a c ->
       monitored a evs /\ Rc (fold_left upd evs a) c') ->
    forall es c acc, c_events c = [] -> Rc acc c ->
    let c' := fold_left (call_entry now) es c in
    monitored acc (c_events c') /\ Rc (fold_left upd (c_events c') acc) c'.
  Proof.
    intros Hstep es c acc H0 Hc.
    apply (fold_call_inv now (fun c' =>
       monitored acc (c_events c') /\ Rc (fold_left upd (c_events c') acc) c')).
    - intros c0 e c' evs [Hm HR] He. destruct (Hstep _ _ _ _ _ He HR) as [H1 H2].
      rewrite (entry_effect_events _ _ _ _ _ He), fold_left_app. split; [apply monitored_app; auto|exact H2].
    - rewrite H0. split; [exact I|exact Hc].
  Qed.

  Context (R : A -> xstate -> Prop).

  Definition sound (acc : A) (evs : list xevent) (st' : xstate) : Prop :=
    monitored acc evs /\ R (fold_left upd evs acc) st'.

  Lemma sound_nil acc st : R acc st -> sound acc [] st.
  Proof. intros H. split; [exact I|exact H]. Qed.

  Lemma sound_app acc e1 st1 e2 st2 :
    sound acc e1 st1 -> (R (fold_left upd e1 acc) st1 -> sound (fold_left upd e1 acc) e2 st2) ->
    sound acc (e1 ++ e2) st2.
  Proof.
    intros [H1 HR] H2. destruct (H2 HR) as [H3 H4]. split.
    - apply monitored_app. auto.
    - rewrite fold_left_app. exact H4.
  Qed.

  Definition respects : Prop := forall acc st o st' evs,
    xstep st o = (st', evs) -> R acc st -> sound acc evs st'.

  Lemma xrun_sound : respects -> forall ops acc st st' evs,
    xrun st ops = (st', evs) -> R acc st -> sound acc evs st'.
  Proof.
    intros Hstep. induction ops as [|o r IH]; intros acc st st' evs; cbn [xrun].
    - intros [= <- <-]. apply sound_nil.
    - destruct (xstep st o) as [st1 ev1] eqn:E1. destruct (xrun st1 r) as [st2 ev2] eqn:E2.
      intros [= <- <-] H. eapply sound_app; [exact (Hstep _ _ _ _ _ E1 H)|exact (IH _ _ _ _ E2)].
  Qed.
End Monitor.
Arguments xrun_sound {A upd chk R}.

(* a state invariant is the relation of a monitor that checks nothing *)
Lemma invariant_respects (Inv : xstate -> Prop) :
  (forall st o st' evs, xstep st o = (st', evs) -> Inv st -> Inv st') ->
  respects (fun (a : unit) _ => a) (fun _ _ => True) (fun _ => Inv).
Proof.
  intros H acc st o st' evs E Hi. split; [|exact (H _ _ _ _ E Hi)].
  clear E. revert acc. induction evs; cbn; auto.
Qed.

Lemma xstep_active_NoDup st o st' evs :
  xstep st o = (st', evs) -> NoDup (s_active st) -> NoDup (s_active st').
Proof.
  intros E H. apply xstep_effect_spec in E. destruct E as [|tid now t _ c| | | |];
    cbn [s_active]; auto using remove_first_NoDup.
  apply (fold_call_inv now (fun c => NoDup (c_active c))); [|exact H].
  intros c0 e c' ev Hc [| | |_ Hna _]; cbn; auto. now apply NoDup_snoc.
Qed.

Definition submit_guard (active0 sat0 : list sig) (evs : list xevent) : Prop :=
  forall s now iv, In (EvSubmit s now iv) evs -> ~ In s active0 /\ ~ In s sat0.

Lemma call_submit_guard now es tnext sat active entries :
  submit_guard active sat (c_events (fold_left (call_entry now) es
    {| c_tnext := tnext; c_sat := sat; c_active := active; c_entries := entries; c_events := [] |})).
Proof.
  apply (fold_call_inv now (fun c =>
     incl active (c_active c) /\ incl sat (c_sat c) /\ submit_guard active sat (c_events c))).
  - intros c e c' ev (Ha & Hs & He) [| |Hns|Hns Hna _]; cbn; auto.
    + split; [exact Ha|]. split; [now apply incl_appl|].
      intros s n iv Hin. apply in_app_iff in Hin. destruct Hin as [Hin|[Hin|[]]]; [eauto|discriminate].
    + split; [now apply incl_appl|]. split; [exact Hs|].
      intros s n iv Hin. apply in_app_iff in Hin. destruct Hin as [Hin|[Hin|[]]]; [eauto|].
      injection Hin as <- <- <-. split; intros Hx; [apply Hna|apply Hns]; auto.
  - cbn. split; [apply incl_refl|]. split; [apply incl_refl|]. intros s n iv [].
Qed.

Lemma forgets_no_submit gone s n iv : ~ In (EvSubmit s n iv) (map EvForget gone).
Proof. intros Hin. apply in_map_iff in Hin. destruct Hin as [x [Hx _]]. discriminate. Qed.

Lemma xstep_submit_guard st o st' evs :
  xstep st o = (st', evs) -> submit_guard (s_active st) (s_sat st) evs.
Proof.
  intros E. apply xstep_effect_spec in E.
  destruct E as [|tid now t _ c| | | |tids need gone]; [|apply call_submit_guard| | | |]; intros s0 n iv Hin.
  - destruct Hin.
  - destruct Hin as [[=]|[]].
  - destruct Hin.
  - destruct Hin as [[=]|[]].
  - now apply forgets_no_submit in Hin.
Qed.

(* ghost: the earliest time the signature may be submitted again, as far as the
   trace of events tells: set by a submission, cleared by a housekeeping-forget *)
Definition upd_expect (s : sig) (acc : option Z) (ev : xevent) : option Z :=
  match ev with
  | EvSubmit s' now iv => if Nat.eqb s' s then Some (now + iv) else acc
  | EvForget s' => if Nat.eqb s' s then None else acc
  | _ => acc
  end.
Definition expect (s : sig) (acc : option Z) (evs : list xevent) : option Z :=
  fold_left (upd_expect s) evs acc.

Fixpoint intervals_ok (s : sig) (acc : option Z) (evs : list xevent) : Prop :=
  match evs with
  | [] => True
  | ev :: r =>
      match ev with
      | EvSubmit s' now _ => s' = s -> forall t, acc = Some t -> t <= now
      | _ => True
      end /\ intervals_ok s (upd_expect s acc ev) r
  end.

Definition submit_due (s : sig) (acc : option Z) (ev : xevent) : Prop :=
  match ev with
  | EvSubmit s' now _ => s' = s -> forall t, acc = Some t -> t <= now
  | _ => True
  end.

Lemma intervals_ok_monitored s : forall evs acc,
  intervals_ok s acc evs <-> monitored (upd_expect s) (submit_due s) acc evs.
Proof. induction evs as [|ev r IH]; intros acc; cbn; [tauto|]. now rewrite IH. Qed.

Lemma intervals_ok_app s e1 acc e2 :
  intervals_ok s acc (e1 ++ e2) <-> intervals_ok s acc e1 /\ intervals_ok s (expect s acc e1) e2.
Proof. rewrite !intervals_ok_monitored. apply monitored_app. Qed.

Lemma expect_app s acc e1 e2 : expect s acc (e1 ++ e2) = expect s (expect s acc e1) e2.
Proof. apply fold_left_app. Qed.

Lemma expect_forgets s acc gone : expect s acc (map EvForget gone) = if smem s gone then None else acc.
Proof. now apply fold_forgets. Qed.

Lemma intervals_ok_forgets s acc gone : intervals_ok s acc (map EvForget gone).
Proof. now apply intervals_ok_monitored, monitored_forgets. Qed.

Lemma xstep_interval s :
  respects (upd_expect s) (submit_due s)
           (fun x st => forall t, x = Some t -> assoc Nat.eqb s (s_tnext st) = Some t).
Proof.
  intros acc st o st' evs E H.
  apply xstep_effect_spec in E. destruct E as [|tid now t _ c| | | |tids need gone];
    [now apply sound_nil| |split; cbn; auto|now apply sound_nil|split; cbn; auto|].
  - apply (call_sound _ _ now (fun a c => forall t, a = Some t -> assoc Nat.eqb s (c_tnext c) = Some t));
      [|reflexivity|exact H].
    intros a c0 e c' ev [| | |_ _ Hsoon] Ha; cbn; auto.
    split; [split; [|exact I]; intros <- x Hx; auto|].
    destruct (Nat.eqb_spec (e_sig e) s) as [->|Hne].
    + intros x [= <-]. apply assoc_set_eq.
    + intros x Hx. rewrite assoc_set_neq by congruence. auto.
  - split; [now apply monitored_forgets|].
    rewrite (fold_forgets _ s None) by reflexivity.
    intros t Hx. cbn [s_tnext]. rewrite (assoc_filter_key Nat.eqb Nat.eqb_eq (fun k => negb (smem k gone))).
    destruct (smem s gone); [discriminate|]. apply H, Hx.
Qed.

Definition upd_succ (s : sig) (acc : bool) (ev : xevent) : bool :=
  match ev with
  | EvSucceed s' => if Nat.eqb s' s then true else acc
  | EvForget s' => if Nat.eqb s' s then false else acc
  | _ => acc
  end.
Definition succ_state (s : sig) (acc : bool) (evs : list xevent) : bool := fold_left (upd_succ s) evs acc.

Fixpoint no_resubmit_ok (s : sig) (acc : bool) (evs : list xevent) : Prop :=
  match evs with
  | [] => True
  | ev :: r =>
      match ev with
      | EvSubmit s' _ _ => s' = s -> acc = false
      | _ => True
      end /\ no_resubmit_ok s (upd_succ s acc ev) r
  end.

Definition submit_unsat (s : sig) (acc : bool) (ev : xevent) : Prop :=
  match ev with
  | EvSubmit s' _ _ => s' = s -> acc = false
  | _ => True
  end.

Lemma no_resubmit_ok_monitored s : forall evs acc,
  no_resubmit_ok s acc evs <-> monitored (upd_succ s) (submit_unsat s) acc evs.
Proof. induction evs as [|ev r IH]; intros acc; cbn; [tauto|]. now rewrite IH. Qed.

Lemma no_resubmit_ok_app s e1 acc e2 :
  no_resubmit_ok s acc (e1 ++ e2) <-> no_resubmit_ok s acc e1 /\ no_resubmit_ok s (succ_state s acc e1) e2.
Proof. rewrite !no_resubmit_ok_monitored. apply monitored_app. Qed.

Lemma succ_state_app s acc e1 e2 : succ_state s acc (e1 ++ e2) = succ_state s (succ_state s acc e1) e2.
Proof. apply fold_left_app. Qed.

Lemma succ_state_forgets s acc gone :
  succ_state s acc (map EvForget gone) = if smem s gone then false else acc.
Proof. now apply fold_forgets. Qed.

Lemma no_resubmit_ok_forgets s acc gone : no_resubmit_ok s acc (map EvForget gone).
Proof. now apply no_resubmit_ok_monitored, monitored_forgets. Qed.

Lemma xstep_no_resubmit s :
  respects (upd_succ s) (submit_unsat s) (fun x st => x = true -> In s (s_sat st)).
Proof.
  intros acc st o st' evs E H.
  apply xstep_effect_spec in E. destruct E as [|tid now t _ c| | |s0 _|tids need gone];
    [now apply sound_nil| |split; cbn; auto|now apply sound_nil|split; [cbn; auto|]|].
  - apply (call_sound _ _ now (fun a c => a = true -> In s (c_sat c))); [|reflexivity|exact H].
    intros a c0 e c' ev [| |_|Hns _ _] Ha; cbn; auto.
    + split; [auto|]. rewrite in_app_iff. cbn.
      destruct (Nat.eqb_spec (e_sig e) s) as [->|Hne]; auto.
    + split; [|exact Ha]. split; [|exact I].
      intros <-. apply not_true_is_false. auto.
  - cbn.
    destruct (smemP s0 (s_sat st)); destruct (Nat.eqb_spec s0 s) as [->|Hne]; rewrite ?in_app_iff; cbn; auto.
  - split; [now apply monitored_forgets|].
    rewrite (fold_forgets _ s false) by reflexivity.
    intros Hx. destruct (smemP s gone) as [Hg|Hg]; [discriminate|].
    specialize (H Hx). apply filter_In. split; [exact H|].
    destruct (smem s need) eqn:En; [reflexivity|].
    exfalso. apply Hg. apply filter_In. split; [exact H|]. now rewrite En.
Qed.

Definition label_done (label : nat) (es : list entry) : Prop :=
  forall e, In e es -> e_label e = label -> e_sat e = true.

Lemma label_done_mark label l2 es :
  label = l2 \/ label_done label es -> label_done label (mark l2 es).
Proof.
  intros H e Hin Hl. apply in_map_iff in Hin. destruct Hin as [e0 [<- H0]].
  destruct (Nat.eqb_spec (e_label e0) l2) as [E|E]; [reflexivity|].
  destruct H as [->|H]; [contradiction|]. now apply H.
Qed.

Lemma call_entry_sat now c e :
  In (e_sig e) (c_sat c) -> c_entries (call_entry now c e) = mark (e_label e) (c_entries c).
Proof.
  intros H. apply smem_In in H. unfold call_entry. rewrite H. destruct (e_clock e); reflexivity.
Qed.

Lemma call_keeps_done now label es c :
  label_done label (c_entries c) -> label_done label (c_entries (fold_left (call_entry now) es c)).
Proof.
  apply (fold_call_inv now (fun c => label_done label (c_entries c))).
  intros c0 e c' ev H [| | |]; cbn; auto using label_done_mark.
Qed.

Lemma call_sat_mono now x es c :
  In x (c_sat c) -> In x (c_sat (fold_left (call_entry now) es c)).
Proof.
  apply (fold_call_inv now (fun c => In x (c_sat c))).
  intros c0 e c' ev H [| | |]; cbn; auto. apply in_app_iff. auto.
Qed.

Lemma call_dependents now : forall es c target,
  In target es -> In (e_sig target) (c_sat c) ->
  label_done (e_label target) (c_entries (fold_left (call_entry now) es c)).
Proof.
  induction es as [|e r IH]; intros c target Hin Hs; [destruct Hin|]. cbn [fold_left].
  destruct Hin as [->|Hin].
  - apply call_keeps_done. rewrite call_entry_sat by exact Hs. apply label_done_mark. now left.
  - apply IH; [exact Hin|]. now apply (call_sat_mono now _ [e]).
Qed.

Lemma xstep_housekeep_keeps st tids st' evs s :
  xstep st (XHousekeep tids) = (st', evs) ->
  In s (s_sat st) -> In s (needed_sigs tids (s_tasks st)) -> In s (s_sat st').
Proof.
  cbn [xstep]. intros [= <- _] Hs Hn. cbn [s_sat]. apply filter_In. split; [exact Hs|]. now apply smem_In.
Qed.
