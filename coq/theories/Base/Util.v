(* Base/Util.v — small library shared by every model: no cylc content. *)
From Coq Require Import List Bool Arith ZArith String Ascii Lia.
Import ListNotations.

(* ---- correspondence plumbing: indices of the cases on which [f] is false ---- *)
Fixpoint bad_indices_from {A} (f : A -> bool) (i : nat) (l : list A) : list nat :=
  match l with
  | [] => []
  | x :: r => if f x then bad_indices_from f (S i) r
              else i :: bad_indices_from f (S i) r
  end.
Definition bad_indices {A} (f : A -> bool) (l : list A) : list nat :=
  bad_indices_from f 0 l.

Lemma bad_indices_from_nil {A} (f : A -> bool) l i :
  bad_indices_from f i l = [] <-> forallb f l = true.
Proof.
  revert i; induction l as [|x r IH]; intros i; cbn; [tauto|].
  destruct (f x); cbn; [apply IH|]. split; discriminate.
Qed.

(* ---- decidable equalities as booleans ---- *)
Definition string_eqb := String.eqb.

Fixpoint list_eqb {A} (eqb : A -> A -> bool) (a b : list A) : bool :=
  match a, b with
  | [], [] => true
  | x :: a', y :: b' => eqb x y && list_eqb eqb a' b'
  | _, _ => false
  end.

Lemma list_eqb_spec {A} (eqb : A -> A -> bool)
  (H : forall x y, eqb x y = true <-> x = y) a b :
  list_eqb eqb a b = true <-> a = b.
Proof.
  revert b; induction a as [|x a IH]; destruct b as [|y b]; cbn;
    try (split; [discriminate|intros E; inversion E]); [tauto|].
  rewrite andb_true_iff, H, IH. split; [intros [-> ->]; reflexivity|].
  intros E; inversion E; auto.
Qed.

Definition option_eqb {A} (eqb : A -> A -> bool) (a b : option A) : bool :=
  match a, b with
  | None, None => true
  | Some x, Some y => eqb x y
  | _, _ => false
  end.

Definition pair_eqb {A B} (ea : A -> A -> bool) (eb : B -> B -> bool)
  (a b : A * B) : bool := ea (fst a) (fst b) && eb (snd a) (snd b).

(* ---- list helpers ---- *)
Fixpoint mem {A} (eqb : A -> A -> bool) (x : A) (l : list A) : bool :=
  match l with [] => false | y :: r => eqb x y || mem eqb x r end.

Lemma mem_In {A} (eqb : A -> A -> bool)
  (H : forall x y, eqb x y = true <-> x = y) x l :
  mem eqb x l = true <-> In x l.
Proof.
  induction l as [|y r IH]; cbn; [split; [discriminate|tauto]|].
  rewrite orb_true_iff, IH, H. split; intros [E|E]; auto.
Qed.

Fixpoint dedup {A} (eqb : A -> A -> bool) (l : list A) : list A :=
  match l with
  | [] => []
  | x :: r => if mem eqb x r then dedup eqb r else x :: dedup eqb r
  end.

Fixpoint assoc {A B} (eqb : A -> A -> bool) (k : A) (l : list (A * B)) : option B :=
  match l with
  | [] => None
  | (k', v) :: r => if eqb k k' then Some v else assoc eqb k r
  end.

Definition sum_nat (l : list nat) : nat := fold_right Nat.add 0 l.

Fixpoint count_true {A} (f : A -> bool) (l : list A) : nat :=
  match l with [] => 0 | x :: r => (if f x then 1 else 0) + count_true f r end.

(* insertion sort on Z / on keys — used for canonical forms *)
Fixpoint insert_by {A} (leb : A -> A -> bool) (x : A) (l : list A) : list A :=
  match l with
  | [] => [x]
  | y :: r => if leb x y then x :: l else y :: insert_by leb x r
  end.
Definition sort_by {A} (leb : A -> A -> bool) (l : list A) : list A :=
  fold_right (insert_by leb) [] l.

(* ---- facts about the helpers above, and a few list facts the standard library lacks ---- *)
Lemma mem_false {A} (eqb : A -> A -> bool)
  (H : forall x y, eqb x y = true <-> x = y) x l :
  mem eqb x l = false <-> ~ In x l.
Proof. rewrite <- (mem_In eqb H). destruct (mem eqb x l); split; congruence. Qed.

Lemma mem_app {A} (eqb : A -> A -> bool) x l1 l2 :
  mem eqb x (l1 ++ l2) = mem eqb x l1 || mem eqb x l2.
Proof. induction l1 as [|y r IH]; cbn; [reflexivity|]. rewrite IH. apply orb_assoc. Qed.

Lemma mem_nat_In x l : mem Nat.eqb x l = true <-> In x l.
Proof. apply mem_In, Nat.eqb_eq. Qed.
Lemma mem_nat_false x l : mem Nat.eqb x l = false <-> ~ In x l.
Proof. apply mem_false, Nat.eqb_eq. Qed.
Lemma mem_Z_In x l : mem Z.eqb x l = true <-> In x l.
Proof. apply mem_In, Z.eqb_eq. Qed.
Lemma mem_Z_false x l : mem Z.eqb x l = false <-> ~ In x l.
Proof. apply mem_false, Z.eqb_eq. Qed.

Lemma In_dedup {A} (eqb : A -> A -> bool)
  (H : forall x y, eqb x y = true <-> x = y) x l :
  In x (dedup eqb l) <-> In x l.
Proof.
  induction l as [|y r [I1 I2]]; cbn; [reflexivity|].
  destruct (mem eqb y r) eqn:E; cbn.
  - apply (mem_In eqb H) in E. split; [auto|intros [<-|Hx]; auto].
  - split; intros [Hx|Hx]; auto.
Qed.

Lemma list_eqb_Z_eq a b : list_eqb Z.eqb a b = true <-> a = b.
Proof. apply list_eqb_spec, Z.eqb_eq. Qed.

Lemma option_eqb_spec {A} (eqb : A -> A -> bool)
  (H : forall x y, eqb x y = true <-> x = y) a b :
  option_eqb eqb a b = true <-> a = b.
Proof. destruct a, b; cbn; [rewrite H|..]; split; congruence. Qed.

Lemma assoc_app {A B} (eqb : A -> A -> bool) k (l1 l2 : list (A * B)) :
  assoc eqb k (l1 ++ l2) =
  match assoc eqb k l1 with Some v => Some v | None => assoc eqb k l2 end.
Proof. induction l1 as [|[k' v] r IH]; cbn; [reflexivity|]. destruct (eqb k k'); [reflexivity|exact IH]. Qed.

Lemma assoc_In {A B} (eqb : A -> A -> bool)
  (H : forall x y, eqb x y = true <-> x = y) k (l : list (A * B)) v :
  assoc eqb k l = Some v -> In (k, v) l.
Proof.
  induction l as [|[k' v'] r IH]; cbn; [discriminate|].
  destruct (eqb k k') eqn:E; [|auto].
  apply H in E. subst k'. intros [= ->]. now left.
Qed.

Lemma assoc_None {A B} (eqb : A -> A -> bool)
  (H : forall x y, eqb x y = true <-> x = y) k (l : list (A * B)) :
  assoc eqb k l = None <-> ~ In k (map fst l).
Proof.
  induction l as [|[k' v] r [I1 I2]]; cbn; [split; [intros _ []|reflexivity]|].
  destruct (eqb k k') eqn:E.
  - apply H in E. split; [discriminate|]. intros N. destruct N. left. exact (eq_sym E).
  - split; [|intros N; apply I2; intros Hin; exact (N (or_intror Hin))].
    intros Hn [->|Hin]; [|exact (I1 Hn Hin)].
    rewrite (proj2 (H k k) eq_refl) in E. discriminate.
Qed.

Lemma assoc_NoDup {A B} (eqb : A -> A -> bool)
  (H : forall x y, eqb x y = true <-> x = y) k (l : list (A * B)) v :
  NoDup (map fst l) -> In (k, v) l -> assoc eqb k l = Some v.
Proof.
  induction l as [|[k' v'] r IH]; cbn; [tauto|]. intros ND [[= -> ->]|Hin].
  - now rewrite (proj2 (H k k) eq_refl).
  - apply NoDup_cons_iff in ND. destruct ND as [Hk Hr]. destruct (eqb k k') eqn:E; [|auto].
    apply H in E. subst k'. destruct Hk. exact (in_map fst _ _ Hin).
Qed.

Lemma assoc_filter_key {A B} (eqb : A -> A -> bool)
  (H : forall x y, eqb x y = true <-> x = y) (g : A -> bool) k (l : list (A * B)) :
  assoc eqb k (filter (fun kv => g (fst kv)) l) = if g k then assoc eqb k l else None.
Proof.
  induction l as [|[k' v] r IH]; cbn; [now destruct (g k)|].
  destruct (eqb k k') eqn:E.
  - apply H in E. subst k'. destruct (g k) eqn:G; cbn; [|exact IH].
    now rewrite (proj2 (H k k) eq_refl).
  - destruct (g k'); cbn; [rewrite E|]; exact IH.
Qed.

Lemma In_insert_by {A} (leb : A -> A -> bool) x y l :
  In x (insert_by leb y l) <-> In x (y :: l).
Proof.
  induction l as [|z r IH]; cbn [insert_by]; [reflexivity|].
  destruct (leb y z); [reflexivity|]. cbn [In] in *. destruct IH as [I1 I2]. split.
  - intros [E|H]; [auto|]. destruct (I1 H); auto.
  - intros [E|[E|H]]; auto.
Qed.

Lemma In_sort_by {A} (leb : A -> A -> bool) x l : In x (sort_by leb l) <-> In x l.
Proof.
  unfold sort_by. induction l as [|y r IH]; cbn [fold_right]; [reflexivity|].
  apply (iff_trans (In_insert_by _ _ _ _)). apply or_iff_compat_l, IH.
Qed.

Lemma fold_left_inv {A B} (P : A -> Prop) (f : A -> B -> A) l :
  (forall a b, In b l -> P a -> P (f a b)) -> forall a, P a -> P (fold_left f l a).
Proof.
  induction l as [|b r IH]; cbn; intros Hf a Ha; [exact Ha|].
  apply IH; auto.
Qed.

Lemma find_app {A} (f : A -> bool) l1 l2 :
  find f (l1 ++ l2) = match find f l1 with Some x => Some x | None => find f l2 end.
Proof. induction l1 as [|a r IH]; cbn; [reflexivity|]. destruct (f a); auto. Qed.

Lemma find_none_iff {A} (f : A -> bool) l :
  find f l = None <-> forall y, In y l -> f y = false.
Proof.
  split; [apply find_none|].
  induction l as [|y r IH]; cbn; intros H; [reflexivity|].
  rewrite (H y) by now left. apply IH. intros z Hz. apply H. now right.
Qed.

(* what [find] returns is the first element on which [f] holds *)
Lemma find_first {A} (f : A -> bool) l x :
  find f l = Some x ->
  exists a b, l = a ++ x :: b /\ f x = true /\ forall y, In y a -> f y = false.
Proof.
  induction l as [|y r IH]; cbn; [discriminate|].
  destruct (f y) eqn:E.
  - intros [= <-]. exists [], r. split; [reflexivity|]. split; [exact E|intros ? []].
  - intros Hf. destruct (IH Hf) as (a & b & -> & Hx & Ha).
    exists (y :: a), b. split; [reflexivity|]. split; [exact Hx|].
    intros z [<-|Hz]; auto.
Qed.

Lemma existsb_false {A} (f : A -> bool) l :
  existsb f l = false <-> forall x, In x l -> f x = false.
Proof.
  induction l as [|y r [I1 I2]]; cbn; [split; [intros _ ? []|reflexivity]|]. split.
  - intros E x Hx. apply orb_false_elim in E. destruct Hx as [<-|Hx]; [apply E|exact (I1 (proj2 E) x Hx)].
  - intros Hf. rewrite (Hf y (or_introl eq_refl)). apply I2. intros x Hx. exact (Hf x (or_intror Hx)).
Qed.

Lemma forallb_impl {A} (p q : A -> bool) l :
  (forall x, p x = true -> q x = true) -> forallb p l = true -> forallb q l = true.
Proof. intros H. rewrite !forallb_forall. auto. Qed.

Lemma forallb_ext {A} (f g : A -> bool) l : (forall x, f x = g x) -> forallb f l = forallb g l.
Proof. intros H. induction l as [|x r IH]; cbn; [reflexivity|]. now rewrite H, IH. Qed.

Lemma filter_length_le {A} (f : A -> bool) l : List.length (filter f l) <= List.length l.
Proof. induction l as [|x r IH]; cbn; [lia|]. destruct (f x); cbn; lia. Qed.

Lemma filter_all_true {A} (f : A -> bool) l : (forall x, In x l -> f x = true) -> filter f l = l.
Proof.
  induction l as [|x r IH]; cbn; intros H; [reflexivity|].
  rewrite (H x), IH by auto. reflexivity.
Qed.

Lemma filter_all_false {A} (f : A -> bool) l : (forall x, In x l -> f x = false) -> filter f l = [].
Proof.
  induction l as [|x r IH]; cbn; intros H; [reflexivity|].
  rewrite (H x) by auto. apply IH. auto.
Qed.

Lemma flat_map_map {A B C} (f : B -> list C) (g : A -> B) l :
  flat_map f (map g l) = flat_map (fun x => f (g x)) l.
Proof. induction l as [|x r IH]; cbn; [reflexivity|]. now rewrite IH. Qed.

Lemma flat_map_single {A B} (f : A -> list B) (h : A -> B) l :
  (forall x, In x l -> f x = [h x]) -> flat_map f l = map h l.
Proof.
  induction l as [|x r IH]; cbn; intros H; [reflexivity|].
  rewrite (H x), IH by auto. reflexivity.
Qed.

Lemma In_snoc {A} (x y : A) l : In x (l ++ [y]) <-> In x l \/ x = y.
Proof. rewrite in_app_iff. cbn. split; intros [H|H]; auto. destruct H; [auto|contradiction]. Qed.

Lemma NoDup_snoc {A} (x : A) l : NoDup l -> ~ In x l -> NoDup (l ++ [x]).
Proof. intros Hl Hx. apply (NoDup_Add (Add_app x l [])). rewrite app_nil_r. auto. Qed.

Lemma NoDup_app {A} (a b : list A) :
  NoDup a -> NoDup b -> (forall x, In x a -> ~ In x b) -> NoDup (a ++ b).
Proof.
  intros Ha Hb. induction Ha as [|x a Hx _ IH]; cbn; intros Hd; [exact Hb|]. constructor.
  - rewrite in_app_iff. intros [Hin|Hin]; [exact (Hx Hin)|exact (Hd x (or_introl eq_refl) Hin)].
  - apply IH. intros y Hy. apply Hd. now right.
Qed.

Lemma NoDup_map_filter {A B} (f : A -> B) (g : A -> bool) l :
  NoDup (map f l) -> NoDup (map f (filter g l)).
Proof.
  induction l as [|x r IH]; cbn; [auto|]. intros H. inversion H as [|? ? Hx Hr]; subst.
  destruct (g x); cbn; [constructor|]; auto.
  intros Hin. apply Hx. apply in_map_iff in Hin. destruct Hin as [y [E Hy]].
  apply filter_In in Hy. apply in_map_iff. exists y. tauto.
Qed.

Lemma NoDup_map_inj {A B} (f : A -> B) l x y :
  NoDup (map f l) -> In x l -> In y l -> f x = f y -> x = y.
Proof.
  induction l as [|z r IH]; cbn; [tauto|]. intros ND Hx Hy E. inversion ND as [|? ? N1 N2]; subst.
  destruct Hx as [->|Hx], Hy as [->|Hy]; auto.
  - exfalso. apply N1. rewrite E. now apply in_map.
  - exfalso. apply N1. rewrite <- E. now apply in_map.
Qed.
